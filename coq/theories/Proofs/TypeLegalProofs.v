(* What type legality means (Model/TypeLegal.v).  Well-formedness of a written type is a
   condition on each of its sub-type occurrences ([occ_wf], [ctx_ok_alt]).  At every
   position the front end answers E350 on an ill-formed type and [verdict p t] on a
   well-formed one ([legal_outcome_verdict]); the code of the pinned commit (before df9eac4)
   fails an assertion instead exactly where [panics p t] ([legal_outcome_pinned_verdict]).
   Acceptance ([spec]), each of the codes and the relations between positions are read off
   the verdict. *)
From PV Require Import Base.Common Model.TypeLegal.
From PV Require Model.Mutability Model.Layout.

Lemma inner_wellformed v : is_wellformed_inner v = true -> is_wellformed v = true.
Proof.
  destruct v as [[]| | | | | | | | | | | ];
    cbn [is_wellformed_inner is_wellformed is_wellformed_element];
    intros H; try exact H; try reflexivity; discriminate.
Qed.

Lemma element_inner v : is_wellformed_element v = true -> is_wellformed_inner v = true.
Proof. unfold is_wellformed_element. intros H. now apply andb_prop in H. Qed.

Lemma element_wellformed v : is_wellformed_element v = true -> is_wellformed v = true.
Proof. intros H. now apply inner_wellformed, element_inner. Qed.

(* Resolution of identifiers and named lengths keeps all three predicates. *)
Lemma typed_can_be_element t : can_be_element (typed_type t) = can_be_element (parse_type t).
Proof. destruct t; reflexivity. Qed.

Lemma typed_inner t : is_wellformed_inner (typed_type t) = is_wellformed_inner (parse_type t).
Proof.
  induction t as [k|id|id b|d IH|d IH|e IH|e IH|e IH|len e IH|c len e IH];
    cbn [typed_type parse_type is_wellformed_inner]; try reflexivity; try exact IH;
    now rewrite IH, typed_can_be_element.
Qed.

Theorem typed_wellformed t : is_wellformed (typed_type t) = is_wellformed (parse_type t).
Proof.
  destruct t; cbn [typed_type parse_type is_wellformed]; unfold is_wellformed_element;
    now rewrite ?typed_inner, ?typed_can_be_element.
Qed.

(* Sub-type occurrences: [occ u0 t u s] = inside the written type [t], itself standing
   directly under [u0], the written type [s] occurs directly under [u]. *)
Inductive under : Type :=
| UTop | UPtr | UView | USlice | UEndless | UArraylike | UArray | UNamed.

Inductive occ : under -> sty -> under -> sty -> Prop :=
| occ_here u0 t : occ u0 t u0 t
| occ_ptr u0 d u s : occ UPtr d u s -> occ u0 (SPtr d) u s
| occ_view u0 d u s : occ UView d u s -> occ u0 (SView d) u s
| occ_slice u0 e u s : occ USlice e u s -> occ u0 (SSlice e) u s
| occ_endless u0 e u s : occ UEndless e u s -> occ u0 (SEndless e) u s
| occ_arraylike u0 e u s : occ UArraylike e u s -> occ u0 (SArraylike e) u s
| occ_array u0 len e u s : occ UArray e u s -> occ u0 (SArray len e) u s
| occ_named u0 c len e u s : occ UNamed e u s -> occ u0 (SArrayNamed c len e) u s.

Definition subtype_of (s t : sty) : Prop := exists u, occ UTop t u s.

Definition elem_under (u : under) : Prop :=
  match u with
  | USlice | UEndless | UArraylike | UArray | UNamed => True
  | UTop | UPtr | UView => False
  end.

(* The condition on one occurrence: `void`, views and slices only as the whole type, an
   endless array only as the whole type or directly behind a pointer or view. *)
Definition occ_wf (u : under) (s : sty) : Prop :=
  match s with
  | SPrim KVoid => u = UTop
  | SView _ => u = UTop
  | SSlice _ => u = UTop
  | SEndless _ => u = UTop \/ u = UPtr \/ u = UView
  | _ => True
  end.

Definition wf_spec (t : sty) : Prop := forall u s, occ UTop t u s -> occ_wf u s.

(* what the three Rust predicates demand of a type standing under [u] *)
Definition ctx_ok (u : under) (v : vty) : Prop :=
  match u with
  | UTop => is_wellformed v = true
  | UPtr | UView => is_wellformed_inner v = true
  | _ => is_wellformed_element v = true
  end.

Lemma ctx_ok_inner u v : u <> UTop -> ctx_ok u v -> is_wellformed_inner v = true.
Proof. destruct u; cbn [ctx_ok]; intros Hu H; try congruence; now apply element_inner. Qed.

(* The three predicates differ only in what they let stand at the top: a type is accepted
   under [u] when its top form may stand there and it is well-formed by itself.  And
   [is_wellformed (parse_type (C s))] IS [ctx_ok] of [s] under the constructor [C]. *)
Lemma ctx_ok_alt u t : ctx_ok u (parse_type t) <-> occ_wf u t /\ is_wellformed (parse_type t) = true.
Proof.
  (* Per top form of [t] and context [u] both sides compute.  ->: where [ctx_ok] is false
     [discriminate H]; else [occ_wf] is [I], an equation or a disjunct of one, and
     well-formedness is [H] or computes to true.  <-: [ctx_ok] is [H2] or computes to true,
     or [occ_wf] contradicts [u] ([discriminate H1], per disjunct for an endless array). *)
  destruct t as [[]| | | | | | | | | ];
    (* the names and the primitive types but `void` may stand anywhere *)
    try (split; [intros _; split; [exact I|reflexivity]|intros _; destruct u; reflexivity]);
    destruct u; cbn; unfold is_wellformed_element; cbn;
    (split;
     [intros H; first [discriminate H | split; [first [exact I|reflexivity|solve [auto]] | first [exact H|reflexivity]]]
     |intros [H1 H2]; first [exact H2|reflexivity|discriminate H1|destruct H1 as [H1|[H1|H1]]; discriminate H1]]).
Qed.

Lemma ctx_ok_wellformed u t : ctx_ok u (parse_type t) -> is_wellformed (parse_type t) = true.
Proof. intros H. now apply ctx_ok_alt in H. Qed.

(* a component is accepted in its own context: each step down is the conversion above *)
Lemma ctx_ok_occ u0 t u s : occ u0 t u s -> ctx_ok u0 (parse_type t) -> ctx_ok u (parse_type s).
Proof. induction 1; intros Hok; [exact Hok|apply IHocc; exact (ctx_ok_wellformed _ _ Hok)..]. Qed.

Lemma occ_ctx_ok t : forall u0, (forall u s, occ u0 t u s -> occ_wf u s) -> ctx_ok u0 (parse_type t).
Proof.
  induction t as [k|id|id b|d IH|d IH|e IH|e IH|e IH|len e IH|c len e IH]; intros u0 H;
    apply ctx_ok_alt; (split; [apply H, occ_here|]);
    [reflexivity..|apply (IH UPtr)|apply (IH UView)|apply (IH USlice)|apply (IH UEndless)
    |apply (IH UArraylike)|apply (IH UArray)|apply (IH UNamed)];
    intros u s Ho; apply H; constructor; exact Ho.
Qed.

Theorem wellformed_iff_occurrences t :
  is_wellformed (parse_type t) = true <-> wf_spec t.
Proof.
  split.
  - intros H u s Ho. exact (proj1 (proj1 (ctx_ok_alt u s) (ctx_ok_occ _ _ _ _ Ho H))).
  - intros H. exact (occ_ctx_ok t UTop H).
Qed.

(* every component of a well-formed type is well-formed taken by itself, as a whole type *)
Theorem accepted_everywhere_inner t s :
  is_wellformed (parse_type t) = true -> subtype_of s t -> is_wellformed (parse_type s) = true.
Proof. intros H [u Ho]. exact (ctx_ok_wellformed u s (ctx_ok_occ _ _ _ _ Ho H)). Qed.

Theorem components_do_not_suffice_refuted :
  exists t, (forall s, subtype_of s t -> s <> t -> is_wellformed (parse_type s) = true)
            /\ is_wellformed (parse_type t) = false.
Proof.
  exists (SPtr (SPrim KVoid)). split; [|reflexivity].
  intros s [u Ho] Hne. inversion Ho; subst; [congruence|].
  match goal with H : occ UPtr _ _ _ |- _ => inversion H; subst end. reflexivity.
Qed.

Definition is_extern (p : position) : bool :=
  match p with
  | PVariable | PSizeOf => false
  | PConstant fl | PParameter fl | PReturn fl | PStructMember fl | PWordMember _ fl => f_extern fl
  end.

(* the code a position reports for a well-formed but misplaced type *)
Definition position_code (p : position) : code :=
  match p with
  | PVariable => E352
  | PSizeOf => E359
  | PConstant _ => E353
  | PParameter _ => E354
  | PReturn _ => E351
  | PStructMember _ | PWordMember _ _ => E356
  end.

(* the `assert!` guarding that code, by its line in typer.rs (analyze_variable has none) *)
Definition position_assert (p : position) : N :=
  match p with
  | PVariable => 0%N
  | PSizeOf => 1945%N
  | PConstant _ => 684%N
  | PParameter _ => 1145%N
  | PReturn _ => 3277%N
  | PStructMember _ | PWordMember _ _ => 1087%N
  end.

(* Top-level shapes a position takes (written types; `&[]T` is the slice pointer). *)
Definition var_shape (t : sty) : Prop :=
  match t with
  | SPrim KVoid | SView _ | SEndless _ | SArraylike _ => False
  | _ => True
  end.

Definition sized_shape (t : sty) : Prop :=
  match t with
  | SPrim KVoid | SView _ | SSlice _ | SEndless _ | SArraylike _ => False
  | _ => True
  end.

Definition const_shape (t : sty) : Prop :=
  match t with
  | SPrim KVoid | SSlice _ | SEndless _ | SArraylike _ | SPtr (SArraylike _) => False
  | _ => True
  end.

Definition param_shape (t : sty) : Prop :=
  match t with
  | SPrim KVoid | SEndless _ | SArray _ _ | SArrayNamed _ _ _ => False
  | _ => True
  end.

Definition ret_shape (t : sty) : Prop :=
  match t with
  | SPrim _ | SWord _ _ => True
  | SPtr (SArraylike _) => False
  | SPtr _ => True
  | _ => False
  end.

Definition member_shape (t : sty) : Prop :=
  match t with
  | SPrim KVoid | SView _ | SSlice _ | SEndless _ | SArraylike _ | SPtr (SArraylike _) => False
  | _ => True
  end.

Definition scalar_or_ptr (t : sty) : Prop :=
  match t with SPrim _ | SPtr _ => True | _ => False end.

(* known_size_in_bytes_as_word_member read on written types ([word_image_size]) *)
Definition prim_size (k : prim) : option N :=
  match k with
  | KInt8 | KUint8 | KChar8 | KBool => Some 1%N
  | KInt16 | KUint16 => Some 2%N
  | KInt32 | KUint32 => Some 4%N
  | KInt64 | KUint64 => Some 8%N
  | KInt128 | KUint128 => Some 16%N
  | KVoid | KUsize => None
  end.

Definition word_member_size (t : sty) : option N :=
  match t with
  | SPrim k => prim_size k
  | SWord _ bytes => Some bytes
  | _ => None
  end.

(* the one member, of [s] bytes, fits a word declared with [d] bytes *)
Definition fits (d s : N) : Prop :=
  (Layout.typer_aligned_size [Z.of_N s] <= Z.of_N d)%Z.

(* What `extern` lets through: pointers, views and `[]` down to an ABI primitive ... *)
Definition abi_prim (k : prim) : Prop :=
  In k [KInt8; KInt16; KInt32; KInt64; KUint8; KUint16; KUint32; KUint64; KUsize; KChar8].

Inductive abi_spine : sty -> Prop :=
| AS_prim k : abi_prim k -> abi_spine (SPrim k)
| AS_ptr d : abi_spine d -> abi_spine (SPtr d)
| AS_view d : abi_spine d -> abi_spine (SView d)
| AS_arraylike e : abi_spine e -> abi_spine (SArraylike e).

(* ... without a `[]` directly inside a `[]` *)
Inductive nested_arraylike : sty -> Prop :=
| NA_here e : nested_arraylike (SArraylike (SArraylike e))
| NA_ptr d : nested_arraylike d -> nested_arraylike (SPtr d)
| NA_view d : nested_arraylike d -> nested_arraylike (SView d)
| NA_arraylike e : nested_arraylike e -> nested_arraylike (SArraylike e).

Definition ext_ok (t : sty) : Prop := abi_spine t /\ ~ nested_arraylike t.

Definition spec (p : position) (t : sty) : Prop :=
  wf_spec t /\
  match p with
  | PVariable => var_shape t
  | PSizeOf => sized_shape t
  | PConstant fl => if f_extern fl then ext_ok t else const_shape t
  | PParameter fl => if f_extern fl then ext_ok t else param_shape t
  | PReturn fl =>
      if f_extern fl then t = SPrim KVoid \/ (ext_ok t /\ scalar_or_ptr t) else ret_shape t
  | PStructMember fl => if f_extern fl then ext_ok t /\ scalar_or_ptr t else member_shape t
  | PWordMember d fl =>
      (if f_extern fl then abi_spine t else True)
      /\ exists s, word_member_size t = Some s /\ fits d s
  end.

(* The second conjunct of [spec p t], by itself ([spec p t] is [wf_spec t /\ shape p t] by
   conversion): what the verdict on a well-formed type is compared with ([verdict_nil]);
   the first conjunct is E350's ([legal_E350_iff]). *)
Definition shape (p : position) (t : sty) : Prop :=
  match p with
  | PVariable => var_shape t
  | PSizeOf => sized_shape t
  | PConstant fl => if f_extern fl then ext_ok t else const_shape t
  | PParameter fl => if f_extern fl then ext_ok t else param_shape t
  | PReturn fl =>
      if f_extern fl then t = SPrim KVoid \/ (ext_ok t /\ scalar_or_ptr t) else ret_shape t
  | PStructMember fl => if f_extern fl then ext_ok t /\ scalar_or_ptr t else member_shape t
  | PWordMember d fl =>
      (if f_extern fl then abi_spine t else True)
      /\ exists s, word_member_size t = Some s /\ fits d s
  end.

(* [abi_spine] and [nested_arraylike] as booleans *)
Fixpoint abi_spineb (t : sty) : bool :=
  match t with
  | SPrim k => prim_abi k
  | SPtr d | SView d | SArraylike d => abi_spineb d
  | _ => false
  end.

Definition is_arraylikeb (t : sty) : bool := match t with SArraylike _ => true | _ => false end.

Fixpoint nestedb (t : sty) : bool :=
  match t with
  | SArraylike e => is_arraylikeb e || nestedb e
  | SPtr d | SView d => nestedb d
  | _ => false
  end.

Lemma abi_prim_iff k : prim_abi k = true <-> abi_prim k.
Proof.
  unfold abi_prim. cbn [In]. split.
  - destruct k; intros H; try discriminate H; auto 11.
  - intros H. decompose [or] H; subst; reflexivity || contradiction.
Qed.

Lemma abi_spine_iff t : abi_spineb t = true <-> abi_spine t.
Proof.
  induction t; cbn [abi_spineb]; rewrite ?IHt, ?abi_prim_iff;
    (split; [try discriminate; now constructor|now inversion 1]).
Qed.

Lemma nested_iff t : nestedb t = true <-> nested_arraylike t.
Proof.
  induction t as [k|id|id b|d IH|d IH|e IH|e IH|e IH|len e IH|c len e IH]; cbn [nestedb orb];
    try (split; [discriminate|now inversion 1]).
  - rewrite IH. split; [now constructor|now inversion 1].
  - rewrite IH. split; [now constructor|now inversion 1].
  - split.
    + intros H. apply orb_prop in H. destruct H as [H|H].
      * destruct e; try discriminate. constructor.
      * apply NA_arraylike. now apply IH.
    + inversion 1; subst; [reflexivity|]. apply orb_true_iff. right. now apply IH.
Qed.

(* for the types `extern` lets through, "nested" is: some `[]` stands directly in a `[]` *)
Lemma nested_occ t : nested_arraylike t -> forall u0, exists e, occ u0 t UArraylike (SArraylike e).
Proof.
  induction 1 as [e|d _ IH|d _ IH|e _ IH]; intros u0.
  - exists e. apply occ_arraylike. constructor.
  - destruct (IH UPtr) as [e He]. exists e. now constructor.
  - destruct (IH UView) as [e He]. exists e. now constructor.
  - destruct (IH UArraylike) as [e' He]. exists e'. now constructor.
Qed.

Lemma occ_nested u0 t u s :
  occ u0 t u s -> abi_spine t -> u = UArraylike -> is_arraylikeb s = true ->
  (u0 = UArraylike /\ s = t) \/ nested_arraylike t.
Proof.
  induction 1 as [u0 t|u0 d u s _ IH|u0 d u s _ IH|u0 e u s _ IH|u0 e u s _ IH
                 |u0 e u s _ IH|u0 len e u s _ IH|u0 c len e u s _ IH]; intros Hs Hu Hal;
    [left; now split|inversion Hs as [|? Hd|? Hd|? Hd]; subst..];
    destruct (IH Hd eq_refl Hal) as [[Hc He]|Hn]; try discriminate Hc;
    try (right; now constructor).
  subst s. destruct e; try discriminate Hal. right. constructor.
Qed.

Theorem nested_arraylike_occurrence t :
  abi_spine t -> (nested_arraylike t <-> exists e, occ UTop t UArraylike (SArraylike e)).
Proof.
  intros Hs. split.
  - intros H. exact (nested_occ t H UTop).
  - intros [e Ho]. destruct (occ_nested _ _ _ _ Ho Hs eq_refl eq_refl) as [[Hc _]|Hn];
      [discriminate|exact Hn].
Qed.

(* the result of externalize_type on a type it lets through *)
Fixpoint ext_image (t : sty) : vty :=
  match t with
  | SArraylike e => VEndless (ext_image e)
  | SPtr d => VPointer (ext_image d)
  | SView d => VView (ext_image d)
  | other => typed_type other
  end.

(* what fix_type_for_flags makes of an `extern` type it lets through *)
Definition ext_fixed (t : sty) : vty :=
  match t with
  | SArraylike e => VView (VEndless (ext_image e))
  | other => ext_image other
  end.

(* the repaired code lets through: the spine, and no `[]` directly inside a `[]` *)
Definition ext_okb (t : sty) : bool := abi_spineb t && negb (nestedb t).

Lemma ext_okb_iff t : ext_okb t = true <-> ext_ok t.
Proof.
  unfold ext_okb, ext_ok. rewrite <- abi_spine_iff, <- nested_iff.
  destruct (abi_spineb t), (nestedb t); cbn; intuition congruence.
Qed.

Lemma externalize_unfold_pinned v :
  is_wellformed v = true ->
  externalize_type_pinned v =
  match v with
  | VArraylike e => fix_map VEndless (externalize_type_pinned e)
  | VPointer d => fix_map VPointer (externalize_type_pinned d)
  | VView d => fix_map VView (externalize_type_pinned d)
  | VPrim k => if prim_abi k then FOk v else FErr E358
  | _ => FErr E358
  end.
Proof. intros H. destruct v; cbn [externalize_type_pinned]; rewrite H; reflexivity. Qed.

Lemma externalize_unfold v :
  is_wellformed v = true ->
  externalize_type v =
  match v with
  | VArraylike e =>
      match externalize_type e with
      | FOk (VEndless _) => FErr E358
      | FOk e' => FOk (VEndless e')
      | other => other
      end
  | VPointer d => fix_map VPointer (externalize_type d)
  | VView d => fix_map VView (externalize_type d)
  | VPrim k => if prim_abi k then FOk v else FErr E358
  | _ => FErr E358
  end.
Proof. intros H. destruct v; cbn [externalize_type]; rewrite H; reflexivity. Qed.

(* Both versions let through by the spine, the repaired one only without nesting, and what
   they make of the type is the same [ext_image]. *)
Lemma externalize_specs t :
  is_wellformed (typed_type t) = true ->
  externalize_type_pinned (typed_type t) = (if abi_spineb t then FOk (ext_image t) else FErr E358)
  /\ externalize_type (typed_type t) = (if ext_okb t then FOk (ext_image t) else FErr E358).
Proof.
  unfold ext_okb.
  induction t as [k|id|id b|d IH|d IH|e IH|e IH|e IH|len e IH|c len e IH]; intros Hwf;
    rewrite (externalize_unfold_pinned _ Hwf), (externalize_unfold _ Hwf);
    cbn [typed_type abi_spineb ext_image nestedb]; try (split; reflexivity);
    [destruct (prim_abi k); split; reflexivity|cbn [typed_type is_wellformed] in Hwf..].
  - destruct (IH (inner_wellformed _ Hwf)) as [-> ->].
    destruct (abi_spineb d), (nestedb d); split; reflexivity.
  - destruct (IH (inner_wellformed _ Hwf)) as [-> ->].
    destruct (abi_spineb d), (nestedb d); split; reflexivity.
  - destruct (IH (element_wellformed _ Hwf)) as [-> ->].
    destruct (abi_spineb e) eqn:Hs; [|split; reflexivity].
    destruct (nestedb e); [rewrite orb_true_r; split; reflexivity|].
    destruct e; cbn [abi_spineb] in Hs; try discriminate; split; reflexivity.
Qed.

(* The assertion at the head of externalize_type cannot fail on a type that came
   through the parser (in the pinned code as well). *)
Theorem externalize_assert_holds t :
  is_wellformed (typed_type t) = true -> forall l, externalize_type (typed_type t) <> FPanic l.
Proof. intros H l. rewrite (proj2 (externalize_specs t H)). destruct (ext_okb t); discriminate. Qed.

Theorem externalize_assert_holds_pinned t :
  is_wellformed (typed_type t) = true -> forall l, externalize_type_pinned (typed_type t) <> FPanic l.
Proof. intros H l. rewrite (proj1 (externalize_specs t H)). destruct (abi_spineb t); discriminate. Qed.

Lemma ext_image_wf t :
  abi_spineb t = true ->
  (is_wellformed_inner (typed_type t) = true ->
   is_wellformed_inner (ext_image t) = negb (nestedb t)) /\
  (is_wellformed_element (typed_type t) = true ->
   is_wellformed_element (ext_image t) = negb (is_arraylikeb t || nestedb t)).
Proof.
  induction t as [k|id|id b|d IH|d IH|e IH|e IH|e IH|len e IH|c len e IH]; cbn [abi_spineb];
    intros Hs; try discriminate.
  - destruct k; try discriminate; split; reflexivity.
  - destruct (IH Hs) as [IHa _].
    cbn [typed_type ext_image is_wellformed_inner is_wellformed_element can_be_element nestedb andb].
    split; exact IHa.
  - cbn [typed_type ext_image is_wellformed_inner is_wellformed_element can_be_element andb].
    split; discriminate.
  - destruct (IH Hs) as [_ IHb].
    cbn [typed_type ext_image is_wellformed_inner is_wellformed_element can_be_element nestedb andb orb negb].
    split; [exact IHb|reflexivity].
Qed.

(* fix_type_for_flags under `extern` wraps a top-level `[]` in a view; otherwise it is
   externalize_type *)
Lemma fix_extern_specs t ctx :
  is_wellformed (typed_type t) = true ->
  fix_type_for_flags_pinned (typed_type t) ctx true =
    (if abi_spineb t then FOk (ext_fixed t) else FErr E358)
  /\ fix_type_for_flags (typed_type t) ctx true =
    (if ext_okb t then FOk (ext_fixed t) else FErr E358).
Proof.
  intros Hwf. unfold fix_type_for_flags_pinned, fix_type_for_flags.
  destruct t as [k|id|id b|d|d|e|e|e|len e|c len e]; try exact (externalize_specs _ Hwf).
  change (typed_type (SArraylike e)) with (VArraylike (typed_type e)). cbv iota.
  change (VArraylike (typed_type e)) with (typed_type (SArraylike e)).
  rewrite (proj1 (externalize_specs e (element_wellformed _ Hwf))), (proj2 (externalize_specs _ Hwf)).
  cbn [abi_spineb ext_fixed]. destruct (abi_spineb e), (ext_okb (SArraylike e)); split; reflexivity.
Qed.

Lemma ext_fixed_wf t :
  is_wellformed (typed_type t) = true -> abi_spineb t = true ->
  is_wellformed (ext_fixed t) = negb (nestedb t).
Proof.
  intros Hwf Hs.
  destruct t as [k|id|id b|d|d|e|e|e|len e|c len e]; cbn [abi_spineb] in Hs; try discriminate;
    cbn [typed_type is_wellformed] in Hwf;
    cbn [ext_fixed ext_image is_wellformed is_wellformed_inner nestedb orb].
  - reflexivity.
  - now apply ext_image_wf.
  - now apply ext_image_wf.
  - change (can_be_element (ext_image e) && is_wellformed_inner (ext_image e))
      with (is_wellformed_element (ext_image e)). now apply ext_image_wf.
Qed.

(* The arms of legal_outcome have one shape: fix the type (not for variables and `|:T|`),
   then judge it by the position's predicate, code and assertion.  [front] is that shape
   behind the test of parse_wellformed_type; what fix_type_for_flags answers under `extern`
   is a parameter, so the code of the pinned commit is an instance too.  analyze_variable
   asserts nothing: on a well-formed type [position_assert PVariable] is not reached
   ([judged_wf]). *)
Definition fix_ctx (p : position) : fixctx :=
  match p with
  | PConstant _ => FixConst
  | PParameter _ => FixParameter
  | PReturn _ => FixReturned
  | _ => FixMember
  end.

Definition can_be (p : position) : vty -> bool :=
  match p with
  | PVariable => can_be_variable
  | PSizeOf => can_be_sized
  | PConstant _ => can_be_constant
  | PParameter _ => can_be_parameter
  | PReturn _ => can_be_returned
  | PStructMember _ => can_be_struct_member
  | PWordMember _ _ => can_be_word_member
  end.

(* `-> void` is taken before fix_type_for_flags is called *)
Definition returns_void (p : position) (t : sty) : bool :=
  match p, t with PReturn _, SPrim KVoid => true | _, _ => false end.

(* what the declaration arm makes of the result of fix_type_for_flags *)
Definition judged (p : position) (r : fixres) : outcome :=
  match r with
  | FOk vt =>
      match p, judge (can_be p vt) vt (position_code p) (position_assert p) with
      | PWordMember d _, OCodes [] => OCodes (align_single_member d vt)
      | _, o => o
      end
  | FErr c => OCodes [c]
  | FPanic l => OPanic l
  end.

(* without `extern`: fix_plain, which keeps well-formedness *)
Definition plain_image (v : vty) (ctx : fixctx) : vty :=
  match fix_plain v ctx with FOk v' => v' | _ => v end.

Definition plain_fixed (p : position) (v : vty) : vty :=
  match p with PVariable | PSizeOf => v | _ => plain_image v (fix_ctx p) end.

Lemma fix_plain_image v ctx : fix_plain v ctx = FOk (plain_image v ctx).
Proof.
  unfold plain_image.
  destruct v as [| | | | | | |id| | |d|]; try reflexivity; [destruct ctx|destruct d]; reflexivity.
Qed.

Lemma plain_image_wf v ctx : is_wellformed (plain_image v ctx) = is_wellformed v.
Proof.
  destruct v as [| | | | | | |id| | |d|]; try reflexivity; [destruct ctx|destruct d]; reflexivity.
Qed.

Lemma plain_fixed_wf p v : is_wellformed (plain_fixed p v) = is_wellformed v.
Proof. destruct p; try reflexivity; apply plain_image_wf. Qed.

Definition front (r : fixres) (p : position) (t : sty) : outcome :=
  if is_wellformed (parse_type t) then
    if returns_void p t then OCodes []
    else judged p (if is_extern p then r else FOk (plain_fixed p (typed_type t)))
  else OCodes [E350].

Lemma return_void_first fl t (o : outcome) :
  match typed_type t with VPrim KVoid => OCodes [] | _ => o end =
  if returns_void (PReturn fl) t then OCodes [] else o.
Proof. destruct t as [[]| | | | | | | | | ]; reflexivity. Qed.

Lemma analyze_variable_judged v :
  is_wellformed v = true -> analyze_variable v = judged PVariable (FOk v).
Proof.
  intros H. unfold analyze_variable, judged, judge. rewrite H. cbn [can_be].
  now destruct (can_be_variable v).
Qed.

Lemma legal_outcome_fronts p t :
  legal_outcome_pinned p t = front (fix_type_for_flags_pinned (typed_type t) (fix_ctx p) true) p t
  /\ legal_outcome p t = front (fix_type_for_flags (typed_type t) (fix_ctx p) true) p t.
Proof.
  unfold legal_outcome_pinned, legal_outcome, parse_wellformed_type, front.
  destruct (is_wellformed (parse_type t)) eqn:H; [|split; reflexivity].
  rewrite <- typed_wellformed in H.
  destruct p; [split; exact (analyze_variable_judged _ H)|split; reflexivity|..];
    unfold declare_constant, analyze_parameter, fix_return_type_for_flags, analyze_member;
    rewrite ?(return_void_first fl); try (destruct (returns_void (PReturn fl) t); [split; reflexivity|]);
    cbn [is_extern];
    (destruct (f_extern fl);
     [split; [now destruct (fix_type_for_flags_pinned _ _ _)|now destruct (fix_type_for_flags _ _ _)]|]);
    unfold fix_type_for_flags_pinned, fix_type_for_flags; rewrite fix_plain_image; cbn [plain_fixed fix_ctx];
    split; now destruct (plain_image _ _).
Qed.

(* what a declaration arm reports for a well-formed fixed type *)
Definition placed (p : position) (vt : vty) : list code :=
  if can_be p vt then match p with PWordMember d _ => align_single_member d vt | _ => [] end
  else [position_code p].

Lemma judged_wf p vt : is_wellformed vt = true -> judged p (FOk vt) = OCodes (placed p vt).
Proof.
  intros H. unfold judged, placed, judge. rewrite H. destruct p; now destruct (can_be _ vt).
Qed.

(* each position's predicate (but can_be_sized) includes well-formedness: on an ill-formed
   fixed type the arm's assertion fails *)
Lemma judged_illformed p vt :
  is_extern p = true -> is_wellformed vt = false -> judged p (FOk vt) = OPanic (position_assert p).
Proof.
  intros He H. unfold judged, judge. rewrite H.
  assert (Hc : can_be p vt = false).
  { destruct p; try discriminate He; destruct vt as [[]| | | | | | | | | | | ];
      try reflexivity; try exact H; cbn [can_be]; unfold can_be_word_member;
      cbn [can_be_struct_member]; now rewrite H. }
  destruct p; now rewrite Hc.
Qed.

(* the type judged, as a function of the written type *)
Definition image (p : position) (t : sty) : vty :=
  if is_extern p then ext_fixed t else plain_fixed p (typed_type t).

(* The front end on a well-formed written type. *)
Definition verdict (p : position) (t : sty) : list code :=
  if returns_void p t then []
  else if is_extern p && negb (ext_okb t) then [E358]
  else placed p (image p t).

(* where the pinned code failed an assertion instead *)
Definition panics (p : position) (t : sty) : bool :=
  negb (returns_void p t) && is_extern p && abi_spineb t && nestedb t.

Theorem legal_outcome_pinned_verdict p t :
  legal_outcome_pinned p t =
  if is_wellformed (parse_type t)
  then if panics p t then OPanic (position_assert p) else OCodes (verdict p t)
  else OCodes [E350].
Proof.
  rewrite (proj1 (legal_outcome_fronts p t)). unfold front.
  destruct (is_wellformed (parse_type t)) eqn:Hwf; [|reflexivity].
  rewrite <- typed_wellformed in Hwf. unfold verdict, panics, image, ext_okb.
  destruct (returns_void p t); [reflexivity|].
  destruct (is_extern p) eqn:He; cbn [negb andb].
  - rewrite (proj1 (fix_extern_specs _ (fix_ctx p) Hwf)).
    destruct (abi_spineb t) eqn:Hs; [|reflexivity]. pose proof (ext_fixed_wf t Hwf Hs) as Hw.
    destruct (nestedb t); [now apply judged_illformed|now apply judged_wf].
  - apply judged_wf. now rewrite plain_fixed_wf.
Qed.

Theorem legal_outcome_verdict p t :
  legal_outcome p t = OCodes (if is_wellformed (parse_type t) then verdict p t else [E350]).
Proof.
  rewrite (proj2 (legal_outcome_fronts p t)). unfold front.
  destruct (is_wellformed (parse_type t)) eqn:Hwf; [|reflexivity].
  rewrite <- typed_wellformed in Hwf. unfold verdict, image.
  destruct (returns_void p t); [reflexivity|].
  destruct (is_extern p); cbn [andb].
  - rewrite (proj2 (fix_extern_specs _ (fix_ctx p) Hwf)).
    destruct (ext_okb t) eqn:Hok; [|reflexivity]. apply judged_wf.
    apply andb_prop in Hok as [Hs Hn]. now rewrite (ext_fixed_wf t Hwf Hs).
  - apply judged_wf. now rewrite plain_fixed_wf.
Qed.

(* both readings of well-formedness at once, for case analyses *)
Lemma wf_dec t :
  (is_wellformed (parse_type t) = true /\ wf_spec t)
  \/ (is_wellformed (parse_type t) = false /\ ~ wf_spec t).
Proof.
  destruct (is_wellformed (parse_type t)) eqn:H; [left|right]; split; try reflexivity.
  - now apply wellformed_iff_occurrences.
  - intros Hs. apply wellformed_iff_occurrences in Hs. congruence.
Qed.

Lemma legal_verdict p t :
  legal p t = if is_wellformed (parse_type t) then verdict p t else [E350].
Proof. unfold legal. now rewrite legal_outcome_verdict. Qed.

(* with the repaired code no assertion of the type rules can fail *)
Theorem legal_never_panics : forall p t, exists cs, legal_outcome p t = OCodes cs.
Proof.
  intros p t. eexists. apply legal_outcome_verdict.
Qed.

Corollary legal_outcome_is_legal p t : legal_outcome p t = OCodes (legal p t).
Proof. unfold legal. destruct (legal_never_panics p t) as [cs ->]. reflexivity. Qed.

Lemma placed_codes p vt :
  placed p vt = [] \/ placed p vt = [position_code p]
  \/ (exists d fl, p = PWordMember d fl /\ placed p vt = [Layout.E380]).
Proof.
  unfold placed. destruct (can_be p vt); [|right; left; reflexivity].
  destruct p as [| | | | | |d fl]; try now left.
  unfold align_single_member, Layout.align_struct_word.
  destruct (Layout.word_accepted _ _); [now left|right; right; now exists d, fl].
Qed.

Lemma verdict_codes p t :
  verdict p t = [] \/ (is_extern p = true /\ verdict p t = [E358])
  \/ verdict p t = [position_code p]
  \/ (exists d fl, p = PWordMember d fl /\ verdict p t = [Layout.E380]).
Proof.
  unfold verdict. destruct (returns_void p t); [now left|].
  destruct (is_extern p); cbn [andb]; [destruct (ext_okb t); cbn [negb]; [|tauto]|];
    (destruct (placed_codes p (image p t)) as [->|[->|H]]; [tauto|tauto|do 3 right; exact H]).
Qed.

Theorem legal_classification p t :
  legal p t = [] \/ legal p t = [E350] \/ (is_extern p = true /\ legal p t = [E358])
  \/ legal p t = [position_code p]
  \/ (exists d fl, p = PWordMember d fl /\ legal p t = [Layout.E380]).
Proof.
  rewrite legal_verdict. destruct (is_wellformed (parse_type t)); [|tauto].
  pose proof (verdict_codes p t). tauto.
Qed.

Theorem legal_E350_iff p t : legal p t = [E350] <-> ~ wf_spec t.
Proof.
  rewrite legal_verdict. destruct (wf_dec t) as [[-> Hspec]|[-> Hspec]]; [|tauto].
  split; [|tauto]. intros H. exfalso.
  destruct (verdict_codes p t) as [E|[[_ E]|[E|[d [fl [-> E]]]]]]; rewrite E in H;
    try discriminate H. destruct p; discriminate H.
Qed.

Definition return_of_void (p : position) (t : sty) : Prop :=
  (exists fl, p = PReturn fl) /\ t = SPrim KVoid.

Lemma returns_void_iff p t : returns_void p t = true <-> return_of_void p t.
Proof.
  split; [|intros [[fl ->] ->]; reflexivity].
  destruct p; try discriminate. destruct t as [[]| | | | | | | | | ]; try discriminate.
  intros _. split; eauto.
Qed.

Lemma placed_not_E358 p vt : placed p vt <> [E358].
Proof.
  destruct (placed_codes p vt) as [E|[E|[d [fl [-> E]]]]]; rewrite E; try discriminate.
  destruct p; discriminate.
Qed.

(* E358 is exactly: `extern`, well-formed, and NOT (pointers/views/`[]` down to an ABI
   primitive without a `[]` directly inside a `[]`); the return type `void` excepted *)
Theorem legal_E358_iff p t :
  legal p t = [E358] <->
  is_extern p = true /\ wf_spec t /\ ~ ext_ok t /\ ~ return_of_void p t.
Proof.
  rewrite <- ext_okb_iff, not_true_iff_false, <- returns_void_iff, legal_verdict.
  destruct (wf_dec t) as [[-> Hspec]|[-> Hspec]]; [|split; [discriminate|tauto]].
  unfold verdict.
  destruct (returns_void p t); [split; [discriminate|intros (_&_&_&H); now elim H]|].
  destruct (is_extern p); cbn [andb]; [destruct (ext_okb t); cbn [negb]|].
  - split; [intros H; now apply placed_not_E358 in H|intros (_&_&H&_); discriminate H].
  - split; [intros _; repeat split; auto; discriminate|reflexivity].
  - split; [intros H; now apply placed_not_E358 in H|intros [H _]; discriminate H].
Qed.

Lemma spine_not_void p t : abi_spineb t = true -> returns_void p t = false.
Proof. intros H. destruct p, t as [[]| | | | | | | | | ]; (reflexivity || discriminate H). Qed.

(* pinned code only: the assertion failures needed `extern`, and a `[]` directly
   inside a `[]` in a type that `extern` would otherwise let through. *)
Theorem legal_panic_iff_pinned p t l :
  legal_outcome_pinned p t = OPanic l <->
  is_extern p = true /\ l = position_assert p /\ wf_spec t /\ abi_spine t /\ nested_arraylike t.
Proof.
  rewrite legal_outcome_pinned_verdict, <- abi_spine_iff, <- nested_iff.
  destruct (wf_dec t) as [[-> Hspec]|[-> Hspec]]; [|split; [discriminate|tauto]].
  unfold panics.
  destruct (abi_spineb t) eqn:Hs;
    [rewrite (spine_not_void p t Hs)|rewrite andb_false_r; split; [discriminate|intros (_&_&_&H&_); discriminate H]].
  destruct (is_extern p); [|split; [discriminate|intros [H _]; discriminate H]].
  destruct (nestedb t); cbn [negb andb];
    [|split; [discriminate|intros (_&_&_&_&H); discriminate H]].
  split; [intros [= <-]; tauto|intros (_&->&_); reflexivity].
Qed.

Local Notation FE pb := {| f_pub := pb; f_extern := true |}.
Local Notation FP pb := {| f_pub := pb; f_extern := false |}.

(* the assertion really failed: the smallest witness, `extern fn f(x: [][]i32);` *)
Theorem extern_nested_arraylike_panicked_pinned :
  exists p t l, legal_outcome_pinned p t = OPanic l.
Proof.
  exists (PParameter (FE false)), (SArraylike (SArraylike (SPrim KInt32))), 1145%N. reflexivity.
Qed.

Example extern_nested_arraylike_now_E358 :
  legal_outcome_pinned (PParameter (FE false)) (SArraylike (SArraylike (SPrim KInt32))) = OPanic 1145
  /\ legal_outcome (PParameter (FE false)) (SArraylike (SArraylike (SPrim KInt32))) = OCodes [E358].
Proof. split; reflexivity. Qed.

(* The repair is conservative: it changes the outcome only where the pinned code failed an
   assertion, and there it reports E358. *)
Theorem repair_conservative p t :
  legal_outcome_pinned p t = legal_outcome p t
  \/ (exists l, legal_outcome_pinned p t = OPanic l /\ legal_outcome p t = OCodes [E358]).
Proof.
  rewrite legal_outcome_pinned_verdict, legal_outcome_verdict.
  destruct (is_wellformed (parse_type t)); [|now left].
  destruct (panics p t) eqn:Hp; [right|now left].
  exists (position_assert p). split; [reflexivity|]. unfold panics in Hp.
  apply andb_prop in Hp as [Hp Hn]. apply andb_prop in Hp as [Hp Hs]. apply andb_prop in Hp as [Hv He].
  apply negb_true_iff in Hv. unfold verdict, ext_okb. now rewrite Hv, He, Hs, Hn.
Qed.

Lemma if_nil (b : bool) (c : code) : (if b then [] else [c]) = [] <-> b = true.
Proof. destruct b; split; (reflexivity || discriminate). Qed.

(* a word member: the size table, then Typer::align_struct *)
Lemma word_placed d fl vt :
  placed (PWordMember d fl) vt =
  match known_size_in_bytes_as_word_member vt with
  | Some s => if Layout.word_accepted (Z.of_N d) [Z.of_N s] then [] else [Layout.E380]
  | None => [E356]
  end.
Proof.
  unfold placed. cbn [can_be position_code]. unfold can_be_word_member.
  destruct vt as [[]| | | | | | | | | | | ]; cbn [known_size_in_bytes_as_word_member];
    rewrite ?andb_false_r; reflexivity.
Qed.

Lemma word_image_size d fl t :
  known_size_in_bytes_as_word_member (image (PWordMember d fl) t) = word_member_size t.
Proof. destruct fl as [pb []], t as [[]| | |[]| | | | | | ]; reflexivity. Qed.

Lemma word_verdict_nil d fl t :
  placed (PWordMember d fl) (image (PWordMember d fl) t) = [] <->
  exists s, word_member_size t = Some s /\ fits d s.
Proof.
  rewrite word_placed, word_image_size. destruct (word_member_size t) as [s|].
  - rewrite if_nil. unfold Layout.word_accepted, fits. rewrite Z.leb_le.
    split; [eauto|now intros [s' [[= <-] H]]].
  - split; [discriminate|]. intros [s [H _]]. discriminate H.
Qed.

Lemma extern_nil t (cs : list code) :
  (if negb (ext_okb t) then [E358] else cs) = [] <-> ext_ok t /\ cs = [].
Proof. rewrite <- ext_okb_iff. destruct (ext_okb t); cbn [negb]; intuition discriminate. Qed.

(* What a declaration arm reports for the type it judges is nothing exactly when the written
   type has the position's shape; under `extern` for the types `extern` lets through. *)
Lemma placed_nil p t :
  is_wellformed (typed_type t) = true ->
  (is_extern p = true -> ext_ok t) -> (placed p (image p t) = [] <-> shape p t).
Proof.
  intros Hwf Hext.
  destruct p as [| |[pb [|]]|[pb [|]]|[pb [|]]|[pb [|]]|d [pb fe]].
  11:{ rewrite word_verdict_nil. cbn [shape]. destruct fe; cbn [f_extern]; [|tauto].
       destruct (Hext eq_refl) as [Hs _]. tauto. }
  all: unfold placed; rewrite if_nil.
  (* Without `extern` the shape is the position's predicate read on the type fix_plain makes
     of the written one, a table over the top constructors: the shape is [True], the
     predicate computes to true, it is well-formedness, or the premise is false. *)
  1,2,4,6,8,10:
    destruct t as [[]| | |[]| | | | | | ]; cbn in Hwf |- *; rewrite ?Hwf;
    (split; intros H; first [exact I|reflexivity|exact Hwf|discriminate H|contradiction H]).
  (* What `extern` lets through is fixed to an ABI primitive, a pointer or a view, which is
     well-formed [Hw]: a constant and a parameter; a return type and a member unless the
     written type is a view or `[]`. *)
  all: pose proof (Hext eq_refl) as Hok; destruct (andb_prop _ _ (proj2 (ext_okb_iff t) Hok)) as [Hs Hn];
    pose proof (ext_fixed_wf t Hwf Hs) as Hw; rewrite Hn in Hw;
    destruct t as [[]| | | | | | | | | ]; try discriminate Hs;
    cbn in Hw |- *; rewrite ?Hw;
    (split; intros H;
     first [discriminate H|reflexivity|solve [auto]|destruct H as [_ []]|destruct H as [H|[_ []]]; discriminate H]).
Qed.

(* at an `extern` position every shape includes [ext_ok] *)
Lemma shape_ext p t : is_extern p = true -> returns_void p t = false -> shape p t -> ext_ok t.
Proof.
  destruct p as [| |[pb fe]|[pb fe]|[pb fe]|[pb fe]|d [pb fe]]; try discriminate;
    cbn [is_extern f_extern shape]; intros -> Hv.
  - tauto.
  - tauto.
  - intros [->|[H _]]; [discriminate Hv|exact H].
  - tauto.
  - intros [Hs [s [Hz _]]]. split; [exact Hs|]. destruct t; try discriminate Hz; now inversion 1.
Qed.

Lemma verdict_nil p t :
  is_wellformed (typed_type t) = true -> (verdict p t = [] <-> shape p t).
Proof.
  intros Hwf. unfold verdict. destruct (returns_void p t) eqn:Hv.
  { apply returns_void_iff in Hv as [[[pb []] ->] ->]; split; cbn; auto. }
  destruct (is_extern p) eqn:He; cbn [andb]; [|apply placed_nil; congruence].
  rewrite extern_nil. split.
  - intros [Hok H]. now apply placed_nil.
  - intros H. pose proof (shape_ext p t He Hv H) as Hok. split; [exact Hok|now apply placed_nil].
Qed.

Theorem legal_accept_iff p t : legal p t = [] <-> spec p t.
Proof.
  change (spec p t) with (wf_spec t /\ shape p t).
  rewrite legal_verdict.
  destruct (wf_dec t) as [[Hwf Hspec]|[Hwf Hspec]]; rewrite Hwf; [|split; [discriminate|tauto]].
  rewrite <- typed_wellformed in Hwf. rewrite (verdict_nil p t Hwf). tauto.
Qed.

(* a well-formed type misplaced at a position without `extern` gets that position's code
   (a word member that is too large: E380) *)
Theorem legal_misplaced p t :
  is_extern p = false -> wf_spec t -> ~ spec p t ->
  legal p t = [position_code p]
  \/ (exists d fl, p = PWordMember d fl /\ legal p t = [Layout.E380]).
Proof.
  intros He Hspec Hn.
  destruct (legal_classification p t) as [H|[H|[[H _]|[H|H]]]]; try congruence; try tauto.
  - apply legal_accept_iff in H. contradiction.
  - apply legal_E350_iff in H. contradiction.
Qed.

Lemma occ_child_not_top u0 t u s : occ u0 t u s -> u = UTop -> u0 = UTop /\ s = t.
Proof.
  induction 1 as [u0 t|u0 d u s _ IH|u0 d u s _ IH|u0 e u s _ IH|u0 e u s _ IH
                 |u0 e u s _ IH|u0 len e u s _ IH|u0 c len e u s _ IH]; intros Hu;
    [now split|destruct (IH Hu); discriminate..].
Qed.

(* Where the special forms may stand in an accepted type:
   `void`   only as the whole return type;
   a view   only as the whole type of a parameter or a constant;
   a slice  only as the whole type of a variable or of a parameter without `extern`;
   an endless array only directly behind a pointer or a view. *)
Definition occ_ok (p : position) (u : under) (s : sty) : Prop :=
  match s with
  | SPrim KVoid => u = UTop /\ exists fl, p = PReturn fl
  | SView _ => u = UTop /\ ((exists fl, p = PParameter fl) \/ (exists fl, p = PConstant fl))
  | SSlice _ => u = UTop /\ (p = PVariable \/ exists fl, p = PParameter fl /\ f_extern fl = false)
  | SEndless _ => u = UPtr \/ u = UView
  | _ => True
  end.

(* the four special forms standing as the whole type: the verdict on them is a table *)
Lemma accepted_top p t : verdict p t = [] -> occ_ok p UTop t.
Proof.
  destruct t as [[]| | | |d|e|e| | | ]; try exact (fun _ => I);
    destruct p as [| |[pb [|]]|[pb [|]]|[pb [|]]|[pb [|]]|d0 [pb [|]]];
    cbn; try discriminate; try (destruct (ext_okb _); discriminate); eauto 6.
Qed.

Lemma occ_wf_ok p u s : u <> UTop -> occ_wf u s -> occ_ok p u s.
Proof. destruct s as [[]| | | | | | | | | ]; cbn; tauto. Qed.

Theorem accepted_occurrences p t :
  legal p t = [] -> forall u s, occ UTop t u s -> occ_ok p u s.
Proof.
  intros Hacc u s Ho. pose proof (proj1 (proj1 (legal_accept_iff p t) Hacc)) as Hspec.
  pose proof (proj2 (wellformed_iff_occurrences t) Hspec) as Hwf. rewrite legal_verdict, Hwf in Hacc.
  destruct u; try (apply occ_wf_ok; [discriminate|exact (Hspec _ _ Ho)]).
  destruct (occ_child_not_top _ _ _ _ Ho eq_refl) as [_ ->]. now apply accepted_top.
Qed.

(* in particular: the element of an array (of any kind, at any depth) of an accepted type
   is never `void`, a view, a slice or an endless array *)
Corollary accepted_array_elements p t u s :
  legal p t = [] -> occ UTop t u s -> elem_under u ->
  match s with SPrim KVoid | SView _ | SSlice _ | SEndless _ => False | _ => True end.
Proof.
  intros Hacc Ho Hu. pose proof (accepted_occurrences p t Hacc u s Ho) as H.
  destruct s as [[]| | | | | | | | | ]; try exact I; cbn [occ_ok] in H.
  1-3: destruct H as [-> _]; exact Hu.   (* `void`, a view, a slice: only at the top *)
  destruct H as [-> | ->]; exact Hu.     (* an endless array: only behind a pointer or view *)
Qed.

(* ... but `[]T` may be an element: `[2][]i32` is a legal variable type (a quirk of
   can_be_element; the generator lowers it like `[2]i32`) *)
Example arraylike_element_accepted :
  legal PVariable (SArray 2 (SArraylike (SPrim KInt32))) = []
  /\ legal PSizeOf (SArray 2 (SArraylike (SPrim KInt32))) = []
  /\ legal (PStructMember (FP false)) (SArray 2 (SArraylike (SPrim KInt32))) = []
  /\ legal (PParameter (FP false)) (SArraylike (SArraylike (SPrim KInt32))) = [].
Proof. repeat split; reflexivity. Qed.

Definition with_pub (b : bool) (p : position) : position :=
  let set fl := {| f_pub := b; f_extern := f_extern fl |} in
  match p with
  | PVariable => PVariable
  | PSizeOf => PSizeOf
  | PConstant fl => PConstant (set fl)
  | PParameter fl => PParameter (set fl)
  | PReturn fl => PReturn (set fl)
  | PStructMember fl => PStructMember (set fl)
  | PWordMember d fl => PWordMember d (set fl)
  end.

Theorem legal_outcome_pub_irrelevant b p t : legal_outcome (with_pub b p) t = legal_outcome p t.
Proof. destruct p; reflexivity. Qed.

Definition accepted (p : position) (t : sty) : Prop := legal p t = [].

Lemma accepted_shape p t : accepted p t <-> wf_spec t /\ shape p t.
Proof. apply legal_accept_iff. Qed.

Lemma shape_implies p q t : (shape p t -> shape q t) -> accepted p t -> accepted q t.
Proof. rewrite !accepted_shape. tauto. Qed.

Lemma member_shapes t : member_shape t -> const_shape t /\ sized_shape t.
Proof. destruct t as [[]| | |[]| | | | | | ]; cbn; tauto. Qed.

Lemma sized_var_shape t : sized_shape t -> var_shape t.
Proof. destruct t as [[]| | | | | | | | | ]; cbn; tauto. Qed.

Lemma ret_param_shape t : ret_shape t -> t <> SPrim KVoid -> param_shape t.
Proof. destruct t as [[]| | |[]| | | | | | ]; cbn; tauto. Qed.

Lemma word_member_shape t : word_member_size t <> None -> member_shape t.
Proof. destruct t as [[]| | | | | | | | | ]; cbn; tauto. Qed.

Lemma ext_shapes t :
  ext_ok t -> param_shape t /\ (scalar_or_ptr t -> sized_shape t).
Proof.
  intros [Hs _]. apply abi_spine_iff in Hs.
  destruct t as [[]| | | | | | | | | ]; try discriminate Hs; cbn; tauto.
Qed.

Theorem word_member_implies_struct_member d fl t :
  accepted (PWordMember d fl) t -> accepted (PStructMember fl) t.
Proof.
  apply shape_implies. cbn [shape]. intros [Hext [s [Hs _]]].
  destruct fl as [pb [|]]; cbn [f_extern] in *.
  - destruct t; try discriminate Hs; [|inversion Hext].
    split; [split; [exact Hext|now inversion 1]|exact I].
  - apply word_member_shape. congruence.
Qed.

Theorem struct_member_implies_word_member_refuted :
  exists t, accepted (PStructMember (FP false)) t /\ forall d, ~ accepted (PWordMember d (FP false)) t.
Proof.
  exists (SPrim KUsize). split; [reflexivity|].
  intros d [_ [_ [s [Hs _]]]]%accepted_shape. discriminate Hs.
Qed.

Theorem struct_member_implies_constant fl t :
  accepted (PStructMember fl) t -> accepted (PConstant fl) t.
Proof.
  apply shape_implies. destruct fl as [pb [|]]; cbn [shape f_extern]; [tauto|].
  intros H. now apply member_shapes.
Qed.

Theorem constant_implies_struct_member_refuted :
  exists t, accepted (PConstant (FP false)) t /\ ~ accepted (PStructMember (FP false)) t.
Proof. exists (SView (SPrim KInt32)). split; [reflexivity|discriminate]. Qed.

Theorem struct_member_implies_sizeof fl t :
  accepted (PStructMember fl) t -> accepted PSizeOf t.
Proof.
  apply shape_implies. destruct fl as [pb [|]]; cbn [shape f_extern].
  - intros [Hok Hsc]. now apply (ext_shapes t Hok).
  - intros H. now apply member_shapes.
Qed.

Theorem sizeof_implies_struct_member_refuted :
  exists t, accepted PSizeOf t /\ ~ accepted (PStructMember (FP false)) t.
Proof. exists (SPtr (SArraylike (SPrim KInt32))). split; [reflexivity|discriminate]. Qed.

Theorem sizeof_implies_variable t : accepted PSizeOf t -> accepted PVariable t.
Proof. apply shape_implies, sized_var_shape. Qed.

Theorem variable_implies_sizeof_refuted :
  exists t, accepted PVariable t /\ ~ accepted PSizeOf t.
Proof. exists (SSlice (SPrim KInt32)). split; [reflexivity|discriminate]. Qed.

Theorem struct_member_implies_variable fl t :
  accepted (PStructMember fl) t -> accepted PVariable t.
Proof. intros H. exact (sizeof_implies_variable t (struct_member_implies_sizeof fl t H)). Qed.

Theorem variable_implies_struct_member_refuted :
  exists t, accepted PVariable t /\ ~ accepted (PStructMember (FP false)) t.
Proof. exists (SSlice (SPrim KInt32)). split; [reflexivity|discriminate]. Qed.

Theorem return_implies_parameter fl t :
  accepted (PReturn fl) t -> t <> SPrim KVoid -> accepted (PParameter fl) t.
Proof.
  intros H Hnv. revert H. apply shape_implies. destruct fl as [pb [|]]; cbn [shape f_extern].
  - intros [Hv|[Hok _]]; [contradiction|exact Hok].
  - intros H. now apply ret_param_shape.
Qed.

Theorem return_void_is_no_parameter :
  forall fl, accepted (PReturn fl) (SPrim KVoid) /\ ~ accepted (PParameter fl) (SPrim KVoid).
Proof. intros [pb [|]]; split; try reflexivity; discriminate. Qed.

Theorem parameter_implies_return_refuted :
  exists t, accepted (PParameter (FP false)) t /\ ~ accepted (PReturn (FP false)) t.
Proof. exists (SStruct 1%N). split; [reflexivity|discriminate]. Qed.

Theorem extern_parameter_implies_plain pb pb' t :
  accepted (PParameter (FE pb)) t -> accepted (PParameter (FP pb')) t.
Proof. apply shape_implies. cbn [shape f_extern]. intros Hok. now apply (ext_shapes t Hok). Qed.

Theorem extern_constant_implies_plain_refuted :
  exists t, accepted (PConstant (FE false)) t /\ ~ accepted (PConstant (FP false)) t.
Proof. exists (SArraylike (SPrim KInt32)). split; [reflexivity|discriminate]. Qed.

Theorem extern_return_implies_plain_refuted :
  exists t, accepted (PReturn (FE false)) t /\ ~ accepted (PReturn (FP false)) t.
Proof. exists (SPtr (SArraylike (SPrim KInt32))). split; [reflexivity|discriminate]. Qed.

Theorem extern_struct_member_implies_plain_refuted :
  exists t, accepted (PStructMember (FE false)) t /\ ~ accepted (PStructMember (FP false)) t.
Proof. exists (SPtr (SArraylike (SPrim KInt32))). split; [reflexivity|discriminate]. Qed.

(* and `extern` rejects even `bool` *)
Theorem plain_parameter_implies_extern_refuted :
  exists t, accepted (PParameter (FP false)) t /\ legal (PParameter (FE false)) t = [E358].
Proof. exists (SPrim KBool). split; reflexivity. Qed.

Definition plain_flags (fl : dflags) : Prop := f_extern fl = false.

Definition valid_word_size (s : N) : Prop := In s [1; 2; 4; 8; 16]%N.

(* a word declared with one of the five keywords holds its one member exactly when the
   member is not larger *)
Theorem fits_valid_sizes d s : valid_word_size s -> (fits d s <-> (s <= d)%N).
Proof.
  unfold valid_word_size, fits. cbn [In].
  intros [<-|[<-|[<-|[<-|[<-|[]]]]]]; vm_compute Layout.typer_aligned_size; lia.
Qed.

Lemma prim_size_valid k s : prim_size k = Some s -> valid_word_size s.
Proof. destruct k; intros [= <-]; unfold valid_word_size; cbn [In]; auto 7. Qed.

Corollary word_member_accept_iff d fl t :
  plain_flags fl ->
  (forall id b, t = SWord id b -> valid_word_size b) ->
  (accepted (PWordMember d fl) t <->
   wf_spec t /\ exists s, word_member_size t = Some s /\ (s <= d)%N).
Proof.
  intros Hfl Hv. unfold accepted. rewrite legal_accept_iff. unfold spec. rewrite Hfl.
  assert (Hvs : forall s, word_member_size t = Some s -> fits d s <-> (s <= d)%N).
  { intros s Hs. apply fits_valid_sizes. destruct t as [k| |id b| | | | | | | ]; try discriminate Hs.
    - exact (prim_size_valid k s Hs).
    - injection Hs as <-. exact (Hv id b eq_refl). }
  split; [intros [Hwf [_ [s [Hs Hf]]]]|intros [Hwf [s [Hs Hf]]]]; repeat split; try assumption;
    exists s; (split; [assumption|]); now apply (Hvs s Hs).
Qed.

(* Model/Mutability.v carries its own copy of the value_type.rs predicates; [to_mty] takes
   the types of this model to the types of that one. *)

Definition prim_tag (k : prim) : N :=
  match k with
  | KVoid => 0 | KInt8 => 1 | KInt16 => 2 | KInt32 => 3 | KInt64 => 4 | KInt128 => 5
  | KUint8 => 6 | KUint16 => 7 | KUint32 => 8 | KUint64 => 9 | KUint128 => 10
  | KUsize => 11 | KChar8 => 12 | KBool => 13
  end%N.

Fixpoint to_mty (v : vty) : Mutability.mty :=
  match v with
  | VPrim k => Mutability.MPrim (prim_tag k)
  | VArray e len => Mutability.MArray (to_mty e) len
  | VArrayNamed e c => Mutability.MArrayNamed (to_mty e) c
  | VSlice e => Mutability.MSlice (to_mty e)
  | VSlicePointer e => Mutability.MSlicePointer (to_mty e)
  | VEndless e => Mutability.MEndless (to_mty e)
  | VArraylike e => Mutability.MArraylike (to_mty e)
  | VStruct id => Mutability.MStruct id
  | VWord id _ => Mutability.MWord id
  | VUnresolved _ => Mutability.MUnresolved
  | VPointer d => Mutability.MPointer (to_mty d)
  | VView d => Mutability.MView (to_mty d)
  end.

Lemma mut_can_be_element v : Mutability.can_be_element (to_mty v) = can_be_element v.
Proof. destruct v as [k| | | | | | | | | | | ]; try reflexivity. destruct k; reflexivity. Qed.

Lemma mut_inner v : Mutability.is_wellformed_inner (to_mty v) = is_wellformed_inner v.
Proof.
  induction v as [k|e IH len|e IH c|e IH|e IH|e IH|e IH|id|id b|id|d IH|d IH];
    cbn [to_mty Mutability.is_wellformed_inner is_wellformed_inner];
    try reflexivity; try exact IH; try (now rewrite IH, mut_can_be_element).
  destruct k; reflexivity.
Qed.

Theorem mut_is_wellformed v : Mutability.is_wellformed (to_mty v) = is_wellformed v.
Proof.
  destruct v as [k| | | | | | | | | | | ];
    cbn [to_mty Mutability.is_wellformed is_wellformed]; unfold is_wellformed_element;
    try reflexivity; try apply mut_inner; now rewrite mut_inner, mut_can_be_element.
Qed.

Theorem mut_can_be_variable v : Mutability.can_be_variable (to_mty v) = can_be_variable v.
Proof.
  destruct v as [k| | | | | | | | | | | ];
    try (destruct k); unfold Mutability.can_be_variable, can_be_variable;
    try reflexivity; rewrite mut_is_wellformed; reflexivity.
Qed.

Theorem mut_can_be_parameter v : Mutability.can_be_parameter (to_mty v) = can_be_parameter v.
Proof.
  destruct v as [k| | | | | | | | | | | ];
    try (destruct k); unfold Mutability.can_be_parameter, can_be_parameter;
    try reflexivity; rewrite mut_is_wellformed; reflexivity.
Qed.

Theorem mut_can_be_struct_member v :
  Mutability.can_be_struct_member (to_mty v) = can_be_struct_member v.
Proof.
  destruct v as [k| | | | | | | | | | | ];
    try (destruct k); unfold Mutability.can_be_struct_member, can_be_struct_member;
    try reflexivity; rewrite mut_is_wellformed; reflexivity.
Qed.

Example ex_spec_variable :
  spec PVariable (SArrayNamed 7%N 2%N (SPtr (SEndless (SStruct 1%N)))).
Proof. apply legal_accept_iff. reflexivity. Qed.

Example ex_extern_accept :
  accepted (PParameter (FE true)) (SArraylike (SPtr (SArraylike (SPrim KChar8))))
  /\ ext_ok (SArraylike (SPtr (SArraylike (SPrim KChar8)))).
Proof.
  split; [reflexivity|]. now apply ext_okb_iff.
Qed.

Example ex_codes :
  legal PVariable (SArray 2 (SPrim KVoid)) = [E350]
  /\ legal PVariable (SArraylike (SPrim KInt32)) = [E352]
  /\ legal (PConstant (FP false)) (SSlice (SPrim KInt32)) = [E353]
  /\ legal (PParameter (FP false)) (SArray 2 (SPrim KInt32)) = [E354]
  /\ legal (PReturn (FP false)) (SStruct 1%N) = [E351]
  /\ legal (PStructMember (FP false)) (SView (SPrim KInt32)) = [E356]
  /\ legal (PWordMember 4 (FP false)) (SPrim KUsize) = [E356]
  /\ legal (PWordMember 1 (FP false)) (SPrim KInt32) = [Layout.E380]
  /\ legal (PParameter (FE false)) (SPtr (SEndless (SPrim KInt32))) = [E358]
  /\ legal (PReturn (FE false)) (SArraylike (SPrim KInt32)) = [E351]
  /\ legal PSizeOf (SSlice (SPrim KInt32)) = [E359]
  /\ legal (PReturn (FE true)) (SPtr (SArraylike (SArraylike (SPrim KUint8)))) = [E358]
  /\ legal_pinned (PReturn (FE true)) (SPtr (SArraylike (SArraylike (SPrim KUint8)))) = [E_PANIC].
Proof. repeat split; reflexivity. Qed.

Print Assumptions typed_wellformed.
Print Assumptions wellformed_iff_occurrences.
Print Assumptions accepted_everywhere_inner.
Print Assumptions components_do_not_suffice_refuted.
Print Assumptions nested_arraylike_occurrence.
Print Assumptions externalize_assert_holds.
Print Assumptions legal_accept_iff.
Print Assumptions legal_E350_iff.
Print Assumptions legal_E358_iff.
Print Assumptions legal_never_panics.
Print Assumptions legal_outcome_is_legal.
Print Assumptions legal_panic_iff_pinned.
Print Assumptions extern_nested_arraylike_panicked_pinned.
Print Assumptions repair_conservative.
Print Assumptions externalize_assert_holds_pinned.
Print Assumptions legal_classification.
Print Assumptions legal_misplaced.
Print Assumptions accepted_occurrences.
Print Assumptions accepted_array_elements.
Print Assumptions legal_outcome_pub_irrelevant.
Print Assumptions struct_member_implies_variable.
Print Assumptions variable_implies_struct_member_refuted.
Print Assumptions word_member_implies_struct_member.
Print Assumptions struct_member_implies_word_member_refuted.
Print Assumptions struct_member_implies_constant.
Print Assumptions constant_implies_struct_member_refuted.
Print Assumptions struct_member_implies_sizeof.
Print Assumptions sizeof_implies_struct_member_refuted.
Print Assumptions sizeof_implies_variable.
Print Assumptions variable_implies_sizeof_refuted.
Print Assumptions return_implies_parameter.
Print Assumptions return_void_is_no_parameter.
Print Assumptions parameter_implies_return_refuted.
Print Assumptions extern_parameter_implies_plain.
Print Assumptions extern_constant_implies_plain_refuted.
Print Assumptions extern_return_implies_plain_refuted.
Print Assumptions extern_struct_member_implies_plain_refuted.
Print Assumptions plain_parameter_implies_extern_refuted.
Print Assumptions word_member_accept_iff.
Print Assumptions mut_is_wellformed.
Print Assumptions mut_can_be_variable.
Print Assumptions mut_can_be_parameter.
Print Assumptions mut_can_be_struct_member.
