(* The second-generation lexer (Model/LexDelta.v) on the text of the token
   fuzzer (Model/Fuzzer.v): every well-formed atom sequence
   (FuzzerShapeProofs.WF), encoded in UTF-8 ([flatb]), is tokenised without a
   single lexical error, unless the source as a whole is refused (E101, E102,
   E103: [delta_no_error]).

   One iteration of the lexer consumes whole atoms and leaves the encoding of a
   well-formed sequence ([delta_step]).

   Numbers are not lexed again here: the first lexer's token for them
   (FuzzerAlphaProofs.num_step) is carried over by the agreement of the two
   lexers on numeric lexemes (LexAgreeProofs.numeric_agree).  That the fuzzer's
   punctuation is this lexer's table is said there too (FuzzerAlphaProofs.punct_entry),
   since the first lexer's tests are a lookup in the same table.
   Everything is about the CURRENT lexer ([push := dec_push]). *)
From Coq Require Import Ascii String.
From PV Require Import Base.Common Base.IR Base.Tok.
From PV Require Import Model.Fuzzer Proofs.FuzzerShapeProofs.
From PV Require Import Model.LexDelta Proofs.LexDeltaProofs.
From PV Require Model.LexAlpha Proofs.LexAgreeProofs Proofs.FuzzerAlphaProofs.
Open Scope N_scope.

(* [digits] is used through its lemmas only: transparent, conversion would unfold its fuel of 129 *)
Opaque digits.

(* the name exists on both sides: unqualified it is the lexer's *)
Notation fcont := Fuzzer.is_ident_cont.

Lemma fcont_eq x : fcont x = is_ident_cont x.
Proof. reflexivity. Qed.

Definition flatb (A : list atom) : list N := encode (flatc A).
Lemma flatb_cons a A : flatb (a :: A) = encode (spell a) ++ flatb A.
Proof. unfold flatb. cbn [flatc flat_map]. apply encode_app. Qed.

Definition lexes_to (s : step) (k : tkind) (v : Z) (tail : list N) : Prop :=
  srest s = tail /\ exists ty en, act s = ATok k v ty en.

Lemma lexes_to_mk k v ty en r e : lexes_to (mk_step (ATok k v ty en) r e) k v r.
Proof. split; [reflexivity|now exists ty, en]. Qed.

Lemma sfx_head sfx : sfx_ok sfx = true ->
  match sfx_text sfx with [] => True | y :: _ => y = 105 \/ y = 117 end.
Proof. destruct sfx as [t|]; [|exact (fun _ => I)]. destruct t; try discriminate; intros _; cbn; auto. Qed.

(* the texts of numbers are outside the class on which the two lexers differ: only a binary
   literal can be in it, and one written without leading zeros has at most 128 digits *)
Lemma num_not_known b sfx : body_value b < 2 ^ 128 -> sfx_ok sfx = true ->
  LexAgreeProofs.known_bin_leading_zeros (body_text b ++ sfx_text sfx) = false.
Proof.
  intros Hv Hs. pose proof (sfx_head sfx Hs) as Hhd.
  destruct b as [v|u v|v]; cbn [body_text body_value app] in *; [|reflexivity|].
  - destruct (LexAgreeProofs.known_bin_leading_zeros _) eqn:E; [exfalso|reflexivity].
    apply LexAgreeProofs.known_shape in E as (w & E).
    destruct (digits_spec 10 v ltac:(lia) Hv) as (_ & Hall & d & ds & Ed & _). unfold to_decimal in E. rewrite Ed in E, Hall.
    cbn [map app] in E. injection E as _ E. inversion Hall as [|? ? _ Hds]; subst. destruct ds as [|d' ds]; cbn [map app] in E.
    + destruct (sfx_text sfx) as [|y l]; [discriminate|]. injection E as -> _. destruct Hhd; discriminate.
    + injection E as E _. apply Forall_inv in Hds. unfold dec_char in E. lia.
  - destruct (digits_spec 2 v ltac:(lia) Hv) as (_ & Hall & _).
    destruct (LexAlphaProofs.digit_chars LexAlpha.is_bin dec_char 2 2 _ eq_refl eq_refl Hall FuzzerAlphaProofs.bin_digit_char)
      as (Hus & Hstrip & _).
    cbn [LexAgreeProofs.known_bin_leading_zeros]. unfold to_binary. rewrite span_while_all.
    + cbn [fst]. rewrite LexAgreeProofs.bin_digits_strip, Hstrip by exact Hus.
      replace (128 <? _) with false; [reflexivity|]. symmetry. apply N.ltb_ge.
      pose proof (digits_length 2 v 127 ltac:(lia) Hv). unfold LexAlpha.len. rewrite map_length. lia.
    + exact Hus.
    + destruct (sfx_text sfx) as [|y l]; [exact I|]. destruct Hhd as [->| ->]; reflexivity.
Qed.

Lemma num_step f b sfx tail i :
  body_value b < 2 ^ 128 -> sfx_ok sfx = true -> ends_token tail = true ->
  exists x r0, encode (body_text b ++ sfx_text sfx) = x :: r0 /\
  lexes_to (lex_step f x (r0 ++ tail) i) (num_kind b sfx) (Z.of_N (body_value b)) tail.
Proof.
  intros Hv Hs Ht.
  destruct (FuzzerAlphaProofs.num_step b sfx tail Hv Hs (ends_token_spec _ Ht)) as (x & r0 & Htext & ty & n & HA).
  assert (Hcont : forallb is_ident_cont (x :: r0) = true).
  { rewrite <- Htext, forallb_app, body_text_cont by exact Hv. destruct sfx; [apply vt_display_cont|reflexivity]. }
  exists x, r0. split; [rewrite Htext; exact (encode_ascii _ (cont_ascii _ Hcont))|].
  cbn [forallb] in Hcont. apply andb_true_iff in Hcont as [_ Hr0].
  assert (Hx : LexAlpha.is_dec x = true).
  { destruct (body_text_head b Hv) as (x' & r & E & Hx'). rewrite E in Htext. now injection Htext as <- _. }
  pose proof (num_not_known b sfx Hv Hs) as Hk. rewrite Htext in Hk.
  destruct (LexAgreeProofs.numeric_agree f x r0 tail tail i Hx Hr0 Ht Ht Hk) as (k & v & ty' & H1 & H2 & H3 & H4 & _).
  rewrite HA in H1. injection H1 as <- <- <- _.
  split; [exact H2|]. rewrite H4, LexAgreeProofs.payload_act_tok by (destruct sfx, b; discriminate). eauto.
Qed.

(* from [s] to [s'] the literal loop has pushed [k] bytes and recorded neither an error nor the closing quote *)
Definition lit_same (s s' : lit) (k : N) : Prop :=
  ferr s' = ferr s /\ lclosed s' = lclosed s /\ nb s' = nb s + k.

Lemma lit_same_refl s : lit_same s s 0.
Proof. unfold lit_same. repeat split; lia. Qed.
Lemma lit_same_trans s1 s2 s3 k1 k2 : lit_same s1 s2 k1 -> lit_same s2 s3 k2 -> lit_same s1 s3 (k1 + k2).
Proof. unfold lit_same. intros (A1 & B1 & C1) (A2 & B2 & C2). repeat split; try congruence. lia. Qed.
Lemma lit_same_push s v : lit_same s (lit_push v s) 1.
Proof. unfold lit_same, lit_push. cbn. repeat split. Qed.

(* from any state the literal loop reads [seg], pushes [k] bytes, records nothing else,
   and goes on behind it with enough fuel left *)
Definition scan_past (q : N) (au : bool) (seg : list N) (k : N) : Prop :=
  forall fuel s e rest, (length (seg ++ rest) < fuel)%nat ->
  exists fuel' s' e', (length rest < fuel')%nat /\ lit_same s s' k /\
    scan_lit fuel q au s e (seg ++ rest) = scan_lit fuel' q au s' e' rest.

Lemma scan_past_nil q au : scan_past q au [] 0.
Proof. intros fuel s e rest Hf. exists fuel, s, e. repeat split; [exact Hf|lia]. Qed.

Lemma scan_past_app q au seg1 seg2 k1 k2 :
  scan_past q au seg1 k1 -> scan_past q au seg2 k2 -> scan_past q au (seg1 ++ seg2) (k1 + k2).
Proof.
  intros H1 H2 fuel s e rest Hf. rewrite <- app_assoc in *.
  destruct (H1 fuel s e (seg2 ++ rest) Hf) as (f1 & s1 & e1 & Hf1 & Hs1 & E1).
  destruct (H2 f1 s1 e1 rest Hf1) as (f2 & s2 & e2 & Hf2 & Hs2 & E2).
  exists f2, s2, e2. split; [exact Hf2|]. split; [eapply lit_same_trans; eassumption|congruence].
Qed.

Lemma scan_past_plain q au x : (q = 39 \/ q = 34) ->
  (32 <= x <= 126 /\ x <> 92 /\ x <> 39 /\ x <> 34) \/ 128 <= x -> scan_past q au [x] 1.
Proof.
  intros Hq Hx fuel s e rest Hf. destruct fuel as [|f]; [cbn in Hf; lia|].
  cbn [app length] in Hf. exists f, (lit_push x s), (e + 1).
  split; [lia|]. split; [apply lit_same_push|]. cbn [app scan_lit].
  assert (H10 : (x =? 10) = false) by (apply N.eqb_neq; lia).
  assert (H92 : (x =? 92) = false) by (apply N.eqb_neq; lia).
  assert (Hxq : (x =? q) = false) by (apply N.eqb_neq; destruct Hq; subst q; lia).
  rewrite H10, H92, Hxq.
  destruct (N.eqb_spec x 32) as [->|H32]; [reflexivity|]. destruct Hx as [Hx|Hx].
  - replace (is_ascii_graphic x) with true; [reflexivity|]. symmetry. apply N_between_iff. lia.
  - destruct (is_ascii_graphic x); [reflexivity|]. destruct (N.ltb_spec x 128); [lia|reflexivity].
Qed.

Lemma scan_past_high q au bytes : (q = 39 \/ q = 34) -> Forall (fun b => 128 <= b) bytes ->
  scan_past q au bytes (lenN bytes).
Proof.
  intros Hq. induction 1 as [|b bytes Hb _ IH]; [apply scan_past_nil|].
  change (b :: bytes) with ([b] ++ bytes). rewrite lenN_app. change (lenN [b]) with 1.
  apply scan_past_app; [|exact IH]. apply scan_past_plain; [exact Hq|right; exact Hb].
Qed.

(* an escape that pushes one byte or nothing *)
Lemma scan_past_escape q au seg o k : (forall soe rest, scan_escape au soe (seg ++ rest) = (o, soe + 1 + lenN seg, rest)) ->
  seg <> [] -> (forall s, lit_same s (lit_esc o s) k) -> scan_past q au (92 :: seg) k.
Proof.
  intros Hesc Hne Ho fuel s e rest Hf. destruct fuel as [|f]; [cbn in Hf; lia|].
  cbn [app length] in Hf. rewrite app_length in Hf.
  exists f, (lit_esc o s), (e + 1 + lenN seg). split; [destruct seg; [congruence|cbn [length] in Hf; lia]|].
  split; [apply Ho|]. cbn [app scan_lit]. change (92 =? 10) with false. change (92 =? 92) with true. cbn iota.
  rewrite Hesc. reflexivity.
Qed.

Lemma hex_upper_digit h : is_hex_upper h = true -> exists d, hex_digit h = Some d.
Proof.
  intros H%is_hex_upper_iff. rewrite LexAgreeProofs.hex_digit_agree, FuzzerAlphaProofs.is_hex_range by lia. eauto.
Qed.

Lemma hex_lower_digit h : is_hex_lower h = true -> hex_digit h = Some (hex_digit_val h) /\ hex_digit_val h < 16.
Proof.
  unfold is_hex_lower. intros H.
  assert (Hc : In h (str "0123456789abcdef")) by (apply is_hex_lower_iff in H; cbn; lia).
  cbn in Hc. repeat (destruct Hc as [<-|Hc]; [split; reflexivity|]). contradiction.
Qed.

(* the digits of \u{...}, as long as their value stays below 2^32 and the u32 accumulator
   does not wrap (the caller has at most 6 of them) *)
Lemma scan_udigits_hex : forall ds sod cu e rest, forallb is_hex_lower ds = true ->
  horner 16 (map hex_digit_val ds) cu < two32 ->
  scan_udigits sod cu e (ds ++ 125 :: rest) =
    ((if sod <? e + lenN ds then e + lenN ds - sod else 0), horner 16 (map hex_digit_val ds) cu,
     e + lenN ds + 1, rest).
Proof.
  induction ds as [|h ds IH]; intros sod cu e rest Hall Hlt.
  - cbn [app scan_udigits map horner fold_left]. change (hex_digit 125) with (@None N).
    change (125 =? 125) with true. cbn iota. rewrite lenN_nil, N.add_0_r. reflexivity.
  - cbn [forallb] in Hall. apply andb_true_iff in Hall as [Hh Hall].
    destruct (hex_lower_digit h Hh) as [Hd Hd16]. cbn [app scan_udigits map]. rewrite Hd.
    cbn [map horner fold_left] in *. fold (horner 16 (map hex_digit_val ds) (cu * 16 + hex_digit_val h)) in *.
    assert (Hmono : forall l a, a <= horner 16 l a).
    { induction l as [|y l IHl]; intros a; cbn [horner fold_left]; [lia|].
      fold (horner 16 l (a * 16 + y)). specialize (IHl (a * 16 + y)). lia. }
    pose proof (Hmono (map hex_digit_val ds) (cu * 16 + hex_digit_val h)) as Hm.
    assert (Hsh : N.lor (N.shiftl cu 4 mod two32) (hex_digit_val h) = cu * 16 + hex_digit_val h).
    { rewrite N.shiftl_mul_pow2. change (2 ^ 4) with 16. rewrite N.mod_small by (unfold two32 in *; lia).
      apply lor_mul16. exact Hd16. }
    rewrite Hsh, IH by assumption. rewrite lenN_cons.
    replace (e + 1 + lenN ds) with (e + (lenN ds + 1)) by lia. reflexivity.
Qed.

Lemma scalar_value c : scalar c = true -> is_scalar_value c = true /\ c < two32.
Proof.
  intros H. apply scalar_iff in H. unfold is_scalar_value, two32. split; [|lia].
  apply orb_true_iff. destruct H as [H|H]; [left; apply N.ltb_lt; lia|right].
  apply andb_true_iff. split; [apply N.leb_le|apply N.leb_le]; lia.
Qed.

Lemma scan_past_item q au i0 : (q = 39 \/ q = 34) -> fitem_ok i0 = true ->
  (au = false -> match i0 with IUni _ => False | _ => True end) ->
  exists k, scan_past q au (encode (render i0)) k /\
            (citem_ok i0 = true -> k = 1).
Proof.
  intros Hq Hok Hau. pose proof (fitem_ok_inv i0 Hok) as Hi.
  assert (Hasc : (forall c, i0 = IChar c -> c < 128) -> encode (render i0) = render i0) by now apply encode_render.
  (* the escapes are ASCII: their encoding is their text *)
  destruct i0 as [c|c b|h1 h2|ds]; try rewrite Hasc by discriminate; cbn [render]; clear Hasc.
  - (* a character standing for itself *)
    destruct Hi as [Hi|[H128 _]].
    + exists 1. split; [|reflexivity]. rewrite encode_cons_low by lia. apply scan_past_plain; [exact Hq|left; exact Hi].
    + exists (lenN (utf8 c)). split.
      * cbn [encode flat_map]. rewrite app_nil_r. apply scan_past_high; [exact Hq|apply utf8_high, H128].
      * unfold citem_ok. intros H. apply andb_true_iff in H as [_ H]. apply N.ltb_lt in H. lia.
  - (* simple escapes *)
    exists 1. split; [|reflexivity].
    apply (scan_past_escape q au [c] (EPush b) 1); [|discriminate|intros s; apply lit_same_push].
    intros soe rest. change (lenN [c]) with 1. replace (soe + 1 + 1) with (soe + 2) by lia.
    unfold scan_escape. cbn [app]. cbn in Hi.
    repeat (destruct Hi as [Hi|Hi]; [inversion Hi; subst; reflexivity|]). contradiction.
  - (* \xHH *)
    destruct Hi as [H1 H2].
    destruct (hex_upper_digit h1 H1) as [d1 Hd1]. destruct (hex_upper_digit h2 H2) as [d2 Hd2].
    exists 1. split; [|reflexivity].
    apply (scan_past_escape q au [120; h1; h2] (EPush (N.lor (N.shiftl d1 4 mod 256) d2)) 1);
      [|discriminate|intros s; apply lit_same_push].
    intros soe rest. unfold scan_escape. cbn [app]. change (assoc_N 120 simple_escape_table) with (@None N).
    change (120 =? 120) with true. cbn iota. rewrite Hd1, Hd2. f_equal. f_equal. rewrite !lenN_cons, lenN_nil. lia.
  - (* \u{...} *)
    destruct au; [|exfalso; now apply Hau]. destruct Hi as (Hall & Hlen & Hsc). change (FuzzerShapeProofs.lenN ds) with (lenN ds) in Hlen.
    destruct (scalar_value _ Hsc) as [Hsv Hval].
    exists 0. split; [|unfold citem_ok; cbn; now rewrite andb_false_r].
    apply (scan_past_escape q true (117 :: 123 :: ds ++ [125]) ENone 0); [|discriminate|intros s; apply lit_same_refl].
    intros soe rest. unfold scan_escape. cbn [app]. change (assoc_N 117 simple_escape_table) with (@None N).
    change (117 =? 120) with false. change (true && (117 =? 117)) with true. cbn iota.
    change (123 =? 123) with true. cbn iota. rewrite <- app_assoc. cbn [app].
    rewrite scan_udigits_hex by assumption. fold (hexval ds). rewrite Hsv.
    destruct (N.ltb_spec (soe + 2 + 1) (soe + 2 + 1 + lenN ds)) as [_|Hc]; [|lia].
    replace (soe + 2 + 1 + lenN ds - (soe + 2 + 1)) with (lenN ds) by lia.
    destruct (N.leb_spec 1 (lenN ds)) as [_|Hc]; [|lia]. destruct (N.leb_spec (lenN ds) 6) as [_|Hc]; [|lia].
    cbn [andb]. f_equal. f_equal. rewrite !lenN_cons, lenN_app, lenN_cons, lenN_nil. lia.
Qed.

Lemma scan_past_items q : (q = 39 \/ q = 34) -> forall items, forallb fitem_ok items = true ->
  exists k, scan_past q true (encode (renders items)) k.
Proof.
  intros Hq. induction items as [|i0 items IH]; intros Hall; [exists 0; apply scan_past_nil|].
  cbn [forallb] in Hall. apply andb_true_iff in Hall as [Hi Hall].
  destruct (scan_past_item q true i0 Hq Hi ltac:(discriminate)) as (k1 & H1 & _).
  destruct (IH Hall) as (k2 & H2). exists (k1 + k2).
  unfold LexAlphaProofs.renders. cbn [flat_map]. rewrite encode_app. now apply scan_past_app.
Qed.

Lemma lex_literal_closed f is_char q body k tail i :
  (q = 39 \/ q = 34) -> scan_past q (negb is_char) body k -> (length (body ++ q :: tail) < f)%nat ->
  (is_char = true -> k = 1) ->
  exists v, lexes_to (lex_literal f is_char q (body ++ q :: tail) i) (if is_char then KCharLiteral else KStringLiteral) v tail.
Proof.
  intros Hq Hbody Hf Hk. unfold lexes_to, lex_literal.
  destruct (Hbody f lit0 (i + 1) (q :: tail) Hf) as (f' & s' & e' & Hf' & (Hferr & Hcl & Hnb) & ->).
  destruct f' as [|f']; [cbn in Hf'; lia|]. cbn [scan_lit].
  assert (H10 : (q =? 10) = false) by (destruct Hq; subst; reflexivity).
  assert (H92 : (q =? 92) = false) by (destruct Hq; subst; reflexivity).
  rewrite H10, H92, N.eqb_refl. cbn [mk_step srest act].
  unfold finish_lit. cbn [lit_close lclosed ferr nb lastb]. rewrite Hferr. cbn [lit0 ferr].
  destruct is_char; [|eauto 6]. rewrite Hnb, (Hk eq_refl). cbn [lit0 nb]. cbn. eauto 6.
Qed.

Lemma char_step f i0 tail i : citem_ok i0 = true -> (length (encode (render i0) ++ 39%N :: tail) < f)%nat ->
  exists v, lexes_to (lex_step f 39 (encode (render i0) ++ 39 :: tail) i) KCharLiteral v tail.
Proof.
  intros Hok Hf. pose proof Hok as Hc. unfold citem_ok in Hc. apply andb_true_iff in Hc as [Hfi Hshape].
  destruct (scan_past_item 39 false i0 (or_introl eq_refl) Hfi) as (k & Hsp & Hk).
  { intros _. destruct i0; try exact I. discriminate Hshape. }
  exact (lex_literal_closed f true 39 _ k tail i (or_introl eq_refl) Hsp Hf (fun _ => Hk Hok)).
Qed.

Lemma string_step f items tail i : forallb fitem_ok items = true ->
  (length (encode (renders items) ++ 34%N :: tail) < f)%nat ->
  exists v, lexes_to (lex_step f 34 (encode (renders items) ++ 34 :: tail) i) KStringLiteral v tail.
Proof.
  intros Hok Hf. destruct (scan_past_items 34 (or_intror eq_refl) items Hok) as (k & Hsp).
  exact (lex_literal_closed f false 34 _ k tail i (or_intror eq_refl) Hsp Hf ltac:(discriminate)).
Qed.

Lemma encode_quoted q body tail : q < 128 -> encode (q :: body ++ [q]) ++ tail = q :: encode body ++ q :: tail.
Proof.
  intros H. rewrite encode_cons_low, encode_app, (encode_cons_low q []) by exact H. cbn [app]. now rewrite <- app_assoc.
Qed.

Lemma flatb_head a A : atom_ok a = true ->
  exists x t, spell a = x :: t /\ x < 128 /\ is_ident_cont x = wordy a /\
              flatb (a :: A) = x :: encode t ++ flatb A.
Proof.
  intros Hok. destruct (atom_first a Hok) as (x & t & E & Hw & Hx). exists x, t.
  repeat split; try assumption. now rewrite flatb_cons, E, encode_cons_low.
Qed.

Lemma ends_token_flatb A : WF A -> first_wordy A = false -> ends_token (flatb A) = true.
Proof.
  intros HW Hf. destruct A as [|a A]; [reflexivity|].
  destruct (flatb_head a A (WF_head _ _ HW)) as (x & t & _ & _ & Hw & ->).
  cbn [ends_token first_wordy] in *. now rewrite Hw, Hf.
Qed.

Lemma first_punct a A x t : WF (a :: A) -> flatb (a :: A) = x :: t -> is_punct x = true -> x <> 47 ->
  a = APunct x /\ t = flatb A.
Proof.
  intros HW E Hp H47. pose proof (WF_head _ _ HW) as Hok.
  destruct (flatb_head a A Hok) as (x' & t' & Es & _ & _ & Eb). rewrite Eb in E. inversion E; subst x' t.
  destruct (spell_punct a x t' Hok Es Hp H47) as [-> ->]. split; reflexivity.
Qed.

Lemma atom_nonl a : atom_ok a = true -> nl_atom a = false -> nonl (encode (spell a)).
Proof.
  intros Hok Hnl. apply encode_nonl, Forall_forall. intros z Hz. exact (proj1 (atom_ctl a Hok Hnl z Hz)).
Qed.

Definition not10 (z : N) : bool := negb (z =? 10).

Lemma WF_nl A : WF A -> WF (ANl false :: A).
Proof. intros [H1 H2]. split; cbn [forallb adj_ok atom_ok wordy andb negb]; assumption. Qed.

(* skipping to the end of the line ends at the end of the text or in front of a line feed:
   [A'] is [] or begins with [ANl false] (a CR LF atom leaves its CR to the line) *)
Lemma skip_line : forall A p, WF A -> nonl p ->
  exists t A', span_while (fun z => negb (z =? 10)) (p ++ flatb A) = (t, flatb A') /\ WF A'.
Proof.
  induction A as [|a A IH]; intros p HW Hp.
  - exists p, []. split; [exact (span_while_line p [] Hp I)|apply WF_nil].
  - pose proof (WF_tail _ _ HW) as HWt. pose proof (WF_nl A HWt) as HWnl.
    destruct a as [c|cr|c|w|b sfx|i0|items|body];
      try (rewrite flatb_cons, app_assoc; apply IH; [exact HWt|];
           apply nonl_app; [exact Hp|]; apply atom_nonl; [exact (WF_head _ _ HW)|reflexivity]).
    rewrite flatb_cons. destruct cr; cbn [spell encode flat_map utf8 N.ltb N.compare Pos.compare Pos.compare_cont app].
    + exists (p ++ [13]), (ANl false :: A). split; [|exact HWnl].
      change (p ++ 13 :: 10 :: flatb A) with (p ++ [13] ++ 10 :: flatb A). rewrite app_assoc.
      change (flatb (ANl false :: A)) with (10 :: flatb A). apply span_while_line; [|reflexivity].
      apply nonl_app; [exact Hp|repeat constructor; lia].
    + exists p, (ANl false :: A). split; [|exact HWnl].
      change (flatb (ANl false :: A)) with (10 :: flatb A). now apply span_while_line.
Qed.

(* no byte that the main loop tests for, and no key of the punctuation table, starts an identifier *)
Lemma lex_step_ident f x r i : is_ident_start x = true -> lex_step f x r i = lex_ident x r i.
Proof.
  intros Hx.
  assert (Hne : forall c, is_ident_start c = false -> (x =? c) = false).
  { intros c Hc. apply N.eqb_neq. intros ->. congruence. }
  assert (Hp : assoc_N x punct_table = None) by (unfold punct_table; cbn [assoc_N]; now rewrite !Hne by reflexivity).
  unfold lex_step, lex_step_with. rewrite Hp, !Hne by reflexivity. cbn [orb]. now rewrite Hx.
Qed.

Lemma word_ascii w : atom_ok (AWord w) = true -> encode w = w.
Proof. intros Hok. apply encode_ascii, cont_ascii, (wordy_spell_cont (AWord w) Hok eq_refl). Qed.

Lemma lex_step_word f x w tail i : atom_ok (AWord (x :: w)) = true -> ends_token tail = true ->
  lex_step f x (w ++ tail) i =
  let e1 := i + 1 + lenN w in
  match lookup_keyword (x :: w) with
  | Some (k, v, ty) => mk_step (ATok k v ty e1) tail e1
  | None =>
      match tail with
      | y :: r2 => if y =? 33 then mk_step (ATok KBuiltin 0%Z None (e1 + 1)) r2 (e1 + 1)
                   else mk_step (ATok KIdentifier 0%Z None e1) tail e1
      | [] => mk_step (ATok KIdentifier 0%Z None e1) tail e1
      end
  end.
Proof.
  cbn [atom_ok forallb]. intros Hok Ht. apply andb_true_iff in Hok as [Hx Hw]. apply andb_true_iff in Hw as [_ Hw].
  rewrite lex_step_ident by exact Hx. unfold lex_ident. now rewrite span_while_sfx.
Qed.

Definition act_fine (a : action) : Prop :=
  match a with
  | AErr _ _ _ | AFuel => False
  | _ => True
  end.

Definition step_good (s : step) : Prop := act_fine (act s) /\ exists A', srest s = flatb A' /\ WF A'.

Lemma step_good_mk a r e A' : act_fine a -> r = flatb A' -> WF A' -> step_good (mk_step a r e).
Proof. intros Ha -> HW. split; [exact Ha|]. now exists A'. Qed.

Lemma lexes_good s k v A' : lexes_to s k v (flatb A') -> WF A' -> step_good s.
Proof. intros [Hr (ty & en & Ha)] HW. split; [now rewrite Ha|]. now exists A'. Qed.

Theorem delta_step a A f i x r : WF (a :: A) -> flatb (a :: A) = x :: r -> (length r < f)%nat ->
  step_good (lex_step f x r i).
Proof.
  intros HW E Hf. pose proof (WF_head _ _ HW) as Hok. pose proof (WF_tail _ _ HW) as HWt.
  assert (Hends : wordy a = true -> ends_token (flatb A) = true).
  { intros Hw. apply ends_token_flatb; [exact HWt|]. exact (WF_next_not_wordy _ _ HW Hw). }
  rewrite flatb_cons in E. destruct a as [c|cr|c|w|b sfx|i0|items|body]; cbn [atom_ok spell wordy] in *.
  - (* blank *)
    destruct (ws_cases c Hok); subst c; inversion E; subst x r; now apply (step_good_mk ASkip _ _ A).
  - (* line break *)
    destruct cr; inversion E; subst x r.
    + apply (step_good_mk ASkip _ _ (ANl false :: A)); [exact I|reflexivity|exact (WF_nl A HWt)].
    + now apply (step_good_mk ANewline _ _ A).
  - (* punctuation *)
    rewrite encode_cons_low in E by apply (punct_char c Hok). inversion E; subst x r.
    destruct (N.eq_dec c 47) as [->|H47].
    + (* slash *)
      unfold lex_step. rewrite step_slash. unfold slash_arm.
      destruct A as [|a2 A2]; [now apply (step_good_mk _ _ _ [])|].
      destruct (flatb_head a2 A2 (WF_head _ _ HWt)) as (y & t & Es & Hy & _ & Eb).
      rewrite Eb. destruct (N.eqb_spec y 47) as [->|Hy47]; [|now apply (step_good_mk _ _ _ (a2 :: A2))].
      (* the next atom starts with a second slash: a comment *)
      assert (Hnl : nonl (encode t)).
      { assert (Ha2 : nl_atom a2 = false) by (destruct a2 as [| [|] | | | | | |]; try reflexivity; discriminate Es).
        pose proof (atom_nonl a2 (WF_head _ _ HWt) Ha2) as Hn. rewrite Es, encode_cons_low in Hn by lia.
        exact (Forall_inv_tail Hn). }
      destruct (skip_line A2 (encode t) (WF_tail _ _ HWt) Hnl) as (t' & A' & -> & HW').
      now apply (step_good_mk _ _ _ A').
    + destruct (FuzzerAlphaProofs.punct_entry c Hok H47) as (seconds & k1 & Ha & Hsec).
      unfold lex_step. rewrite (step_punct dec_push f c seconds k1 _ i Ha). unfold punct_arm.
      destruct (flatb A) as [|y r'] eqn:EA; [now apply (step_good_mk _ _ _ A)|].
      destruct (assoc_N y seconds) as [k2|] eqn:Hy; [|now apply (step_good_mk _ _ _ A)].
      destruct (Hsec _ _ Hy) as [Hyp Hy47]. destruct A as [|a2 A2]; [discriminate EA|].
      destruct (first_punct a2 A2 y r' HWt EA Hyp Hy47) as [-> ->].
      apply (step_good_mk _ _ _ A2); [exact I|reflexivity|exact (WF_tail _ _ HWt)].
  - (* word *)
    rewrite (word_ascii w Hok) in E. destruct w as [|x0 t]; [discriminate Hok|]. inversion E; subst x r.
    rewrite (lex_step_word f x0 t (flatb A) i Hok (Hends eq_refl)). cbv zeta.
    destruct (lookup_keyword (x0 :: t)) as [[[k v] ty]|]; [now apply (step_good_mk _ _ _ A)|].
    destruct (flatb A) as [|y r2] eqn:EA; [now apply (step_good_mk _ _ _ A)|].
    destruct (N.eqb_spec y 33) as [->|Hy]; [|now apply (step_good_mk _ _ _ A)].
    destruct A as [|a2 A2]; [discriminate EA|].
    destruct (first_punct a2 A2 33 r2 HWt EA eq_refl ltac:(discriminate)) as [-> ->].
    apply (step_good_mk _ _ _ A2); [exact I|reflexivity|exact (WF_tail _ _ HWt)].
  - (* number *)
    apply andb_true_iff in Hok as [Hv Hsfx]. apply N.ltb_lt in Hv.
    destruct (num_step f b sfx (flatb A) i Hv Hsfx (Hends eq_refl)) as (x1 & r1 & Et & H).
    rewrite Et in E. inversion E; subst x r. exact (lexes_good _ _ _ A H HWt).
  - (* char literal *)
    rewrite encode_quoted in E by lia. inversion E; subst x r.
    destruct (char_step f i0 (flatb A) i Hok Hf) as [v H]. exact (lexes_good _ _ _ A H HWt).
  - (* string literal *)
    rewrite encode_quoted in E by lia. inversion E; subst x r.
    destruct (string_step f items (flatb A) i Hok Hf) as [v H]. exact (lexes_good _ _ _ A H HWt).
  - (* comment *)
    rewrite !encode_cons_low in E by lia. inversion E; subst x r.
    assert (Hnl : nonl (encode body)).
    { pose proof (atom_nonl (AComment body) Hok eq_refl) as Hn. cbn [spell] in Hn.
      rewrite !encode_cons_low in Hn by lia. exact (Forall_inv_tail (Forall_inv_tail Hn)). }
    destruct (skip_line A (encode body) HWt Hnl) as (t' & A' & Hsp & HW').
    unfold lex_step. rewrite step_slash. unfold slash_arm. cbn [N.eqb Pos.eqb]. rewrite Hsp. now apply (step_good_mk _ _ _ A').
Qed.

(* whatever the state of the token buffer (capacity, number of tokens, payloads
   and errors so far); [delta_step] rules out [AErr], so the error cap has nothing to drop *)
Theorem delta_loop_no_error cap errcap : forall fuel A pos ln sol ntok npay nerr,
  WF A -> (length (flatb A) < fuel)%nat ->
  lr_prop (fun toks _ _ => forall t, In t toks -> kind t <> KError)
          (lex_loop fuel (flatb A) pos ln sol ntok npay nerr cap errcap).
Proof.
  induction fuel as [|f IH]; intros A pos ln sol ntok npay nerr HW Hf; [lia|].
  unfold lex_loop in *. cbn [lex_loop_with]. destruct (flatb A) as [|x r] eqn:EA.
  - destruct (cap <=? ntok + 1); cbn [lr_prop]; [exact I|intros t []].
  - destruct A as [|a A]; [discriminate EA|]. cbn [length] in Hf.
    destruct (delta_step a A f pos x r HW EA ltac:(lia)) as [Hfine (A' & Hrest & HW')].
    destruct (lex_step_ok f x r pos ltac:(lia)) as (seg & Hr & He & Hact).
    change (lex_step_with dec_push f x r pos) with (lex_step f x r pos).
    remember (lex_step f x r pos) as s eqn:Hs.
    assert (Hlen : (length (flatb A') < f)%nat).
    { rewrite <- Hrest. rewrite Hr in Hf. rewrite app_length in Hf. lia. }
    apply lr_prop_panic. rewrite Hrest.
    destruct (act s) as [| |k v ty en|c st en|] eqn:Ha; cbn [act_fine act_ok] in *; try contradiction.
    + apply IH; assumption.
    + apply IH; assumption.
    + destruct Hact as (_ & _ & Hk).
      destruct ((has_payload k && (MAX_NUM_PAYLOADS <=? npay)) || (cap <=? ntok)); [exact I|].
      apply lr_prop_cons. eapply lr_prop_impl; [|apply IH; eassumption]. cbn beta.
      intros l _ _ Hl t [<-|Ht]; [exact Hk|exact (Hl t Ht)].
Qed.

Lemma lex_delta_global_error src c : lex_delta src = [err_tok0 c] ->
  (c = E101 /\ src = []) \/ (c = E102 /\ MAX_SOURCE_LEN < lenN src) \/ c = E103.
Proof.
  unfold lex_delta, lex_delta_with, lex_result_with. intros H.
  destruct (N.eqb_spec (lenN src) 0) as [H0|H0].
  { left. inversion H. split; [reflexivity|]. destruct src; [reflexivity|rewrite lenN_cons in H0; lia]. }
  destruct (N.ltb_spec MAX_SOURCE_LEN (lenN src)) as [H1|H1].
  { right. left. inversion H. split; [reflexivity|exact H1]. }
  right. right.
  pose proof (lex_loop_all dec_push (token_capacity (lenN src)) (error_capacity (lenN src))
                (S (length src)) src 0 1 0 0 1 0 ltac:(lia)) as Hinv.
  destruct (lex_loop_with dec_push _ _ _ _ _ _ _ _ _ _) as [|p|toks ln sol p]; cbn [lr_all] in Hinv.
  - contradiction.
  - now inversion H.
  - destruct Hinv as (_ & _ & _ & _ & Hl). subst toks. inversion Hl as [|? ? Hx _]; subst. cbn in Hx. lia.
Qed.

Theorem delta_no_error A : WF A ->
  lex_delta (flatb A) = [err_tok0 E101] \/ lex_delta (flatb A) = [err_tok0 E102] \/
  lex_delta (flatb A) = [err_tok0 E103] \/ forall t, In t (lex_delta (flatb A)) -> kind t <> KError.
Proof.
  intros HW. unfold lex_delta, lex_delta_with, lex_result_with.
  destruct (lenN (flatb A) =? 0); [auto|]. destruct (MAX_SOURCE_LEN <? lenN (flatb A)); [auto|].
  pose proof (delta_loop_no_error (token_capacity (lenN (flatb A))) (error_capacity (lenN (flatb A)))
                (S (length (flatb A))) A 0 1 0 0 1 0 HW ltac:(lia)) as H. unfold lex_loop in H.
  destruct (lex_loop_with dec_push _ _ _ _ _ _ _ _ _ _) as [|p|toks ln sol p]; cbn [lr_prop] in H; [contradiction|auto|auto].
Qed.

(* E101 only for the empty text, E102 only beyond 2 GiB, E103 only when the
   tokens do not fit: never below 65535 bytes *)
Corollary delta_no_error_small A : WF A -> A <> [] -> lenN (flatb A) + 2 <= 65536 ->
  forall t, In t (lex_delta (flatb A)) -> kind t <> KError.
Proof.
  intros HW Hne Hlen. destruct (delta_no_error A HW) as [H|[H|[H|H]]]; [| | |exact H]; exfalso.
  - destruct (lex_delta_global_error _ _ H) as [[_ E]|[[E _]|E]]; try discriminate E.
    destruct A as [|a A]; [congruence|].
    destruct (flatb_head a A (WF_head _ _ HW)) as (x & t & _ & _ & _ & Eb). rewrite Eb in E. discriminate.
  - destruct (lex_delta_global_error _ _ H) as [[E _]|[[_ E]|E]]; try discriminate E.
    unfold MAX_SOURCE_LEN in E. lia.
  - exact (no_E103_small (flatb A) Hlen H).
Qed.

Lemma single_tok x r k v : lenN (x :: r) <= MAX_SOURCE_LEN -> lexes_to (lex_step (S (length r)) x r 0) k v [] ->
  exists t, lex_delta (x :: r) = [t] /\ kind t = k /\ value t = v.
Proof.
  intros Hlen [Hrest (ty & en & Hact)].
  assert (E : lex_delta (x :: r) = [mk_tok k v ty 0 en 1 0]).
  { apply (lex_delta_single dec_push x r _ Hlen Hrest). fold lex_step. now rewrite Hact. }
  rewrite E. eexists. split; [reflexivity|]. split; reflexivity.
Qed.

Corollary single_kind x r k v : lenN (x :: r) <= MAX_SOURCE_LEN -> lexes_to (lex_step (S (length r)) x r 0) k v [] ->
  map kind (lex_delta (x :: r)) = [k].
Proof. intros Hlen H. destruct (single_tok x r k v Hlen H) as (t & -> & <- & _). reflexivity. Qed.

(* by the agreement of the two keyword tables: the second lexer knows [return] besides,
   which carries no marker *)
Lemma lookup_none w : has_marker w = true -> w <> [95] -> lookup_keyword w = None.
Proof.
  intros Hm Hne. rewrite LexAgreeProofs.classify_agree. unfold LexAgreeProofs.classify_spec.
  destruct (bytes_eqb w LexAgreeProofs.w_return) eqn:E.
  - apply LexAlphaProofs.str_eqb_eq in E. subst w. discriminate Hm.
  - now apply FuzzerAlphaProofs.classify_none.
Qed.

Lemma small_source s : (1 <= length s <= 1000)%nat -> 0 < lenN (encode s) <= MAX_SOURCE_LEN.
Proof. intros H. pose proof (encode_len s). unfold lenN, MAX_SOURCE_LEN. lia. Qed.

Theorem identifier_lexes w : atom_ok (AWord w) = true -> has_marker w = true -> w <> [95] ->
  lenN (encode w) <= MAX_SOURCE_LEN -> map kind (lex_delta (encode w)) = [KIdentifier].
Proof.
  intros Hok Hm Hne. rewrite (word_ascii w Hok). destruct w as [|x t]; [discriminate Hok|]. intros Hlen.
  apply (single_kind x t _ 0%Z Hlen).
  pose proof (lex_step_word (S (length t)) x t [] 0 Hok eq_refl) as Hstep.
  rewrite app_nil_r, (lookup_none _ Hm Hne) in Hstep. rewrite Hstep. apply lexes_to_mk.
Qed.

Theorem builtin_lexes w : atom_ok (AWord w) = true -> has_marker w = true -> w <> [95] ->
  lenN (encode (w ++ [33])) <= MAX_SOURCE_LEN -> map kind (lex_delta (encode (w ++ [33]))) = [KBuiltin].
Proof.
  intros Hok Hm Hne. rewrite encode_app, (word_ascii w Hok). destruct w as [|x t]; [discriminate Hok|].
  change (encode [33]) with [33]. cbn [app]. intros Hlen. apply (single_kind x (t ++ [33]) _ 0%Z Hlen).
  rewrite (lex_step_word _ x t [33] 0 Hok eq_refl), (lookup_none _ Hm Hne). apply lexes_to_mk.
Qed.

Theorem identifier_placeholder : map kind (lex_delta (encode [95])) = [KPlaceholder] /\
  map kind (lex_delta (encode [95; 33])) = [KPlaceholder; KExclamation].
Proof. vm_compute. split; reflexivity. Qed.

Theorem number_lexes b sfx : body_value b < 2 ^ 128 -> sfx_ok sfx = true ->
  lenN (encode (body_text b ++ sfx_text sfx)) <= MAX_SOURCE_LEN ->
  exists t, lex_delta (encode (body_text b ++ sfx_text sfx)) = [t] /\ kind t = num_kind b sfx /\
            value t = Z.of_N (body_value b).
Proof.
  intros Hv Hs.
  destruct (num_step (length (encode (body_text b ++ sfx_text sfx))) b sfx [] 0 Hv Hs eq_refl) as (x & r0 & -> & H). intros Hlen.
  apply single_tok; [exact Hlen|]. now rewrite app_nil_r in H.
Qed.

Theorem char_lexes i0 : citem_ok i0 = true -> lenN (encode (39 :: render i0 ++ [39])) <= MAX_SOURCE_LEN ->
  map kind (lex_delta (encode (39 :: render i0 ++ [39]))) = [KCharLiteral].
Proof.
  intros Hok. rewrite <- (app_nil_r (encode _)), encode_quoted by lia. intros Hlen.
  destruct (char_step (S (length (encode (render i0) ++ [39]))) i0 [] 0 Hok ltac:(lia)) as [v H].
  exact (single_kind _ _ _ v Hlen H).
Qed.

Theorem string_lexes items : forallb fitem_ok items = true ->
  lenN (encode (34 :: renders items ++ [34])) <= MAX_SOURCE_LEN ->
  map kind (lex_delta (encode (34 :: renders items ++ [34]))) = [KStringLiteral].
Proof.
  intros Hall. rewrite <- (app_nil_r (encode _)), encode_quoted by lia. intros Hlen.
  destruct (string_step (S (length (encode (renders items) ++ [34]))) items [] 0 Hall ltac:(lia)) as [v H].
  exact (single_kind _ _ _ v Hlen H).
Qed.
