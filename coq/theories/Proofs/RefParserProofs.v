(* The reference parser of Model/RefParser.v inverts the printer on the trees of its range
   (the wf_ predicates), which fixes precedence, associativity and nesting.
   [conv p x]: the fuelled call [p] returns [x] for all sufficient fuel; proofs follow the
   printed text through the parser with [conv_step] and [conv_bind].  Expressions go by
   grammar level ([PL lv]: reading the text of [e] at level [lv] comes down to running the
   loop of that level on [e]); [runs] is induction over the successful runs of the
   expression parser, for whoever analyses what the parser returns (RefParserRange,
   DeltaExprProofs). *)
From PV Require Import Base.Common Base.IR Base.Tok Model.RefParser.

Definition conv {A : Type} (p : nat -> option A) (x : A) : Prop :=
  exists n, forall f, n <= f -> p f = Some x.

Lemma conv_ret {A : Type} (x : A) : conv (fun _ => Some x) x.
Proof. exists 0. reflexivity. Qed.

Lemma conv_step {A : Type} (p q : nat -> option A) (x : A) :
  (forall f, p (S f) = q f) -> conv q x -> conv p x.
Proof.
  intros Hpq [n Hn]. exists (S n). intros f Hf.
  destruct f as [|f]; [lia|]. rewrite Hpq. apply Hn. lia.
Qed.

Lemma conv_bind {A B : Type} (p : nat -> option A) (k : nat -> A -> option B) (a : A) (x : B) :
  conv p a -> conv (fun f => k f a) x ->
  conv (fun f => match p f with Some a' => k f a' | None => None end) x.
Proof.
  intros [n Hn] [m Hm]. exists (Nat.max n m). intros f Hf.
  rewrite Hn by lia. apply Hm. lia.
Qed.

Lemma conv_ext {A : Type} (p q : nat -> option A) (x : A) :
  (forall f, p f = q f) -> conv q x -> conv p x.
Proof. intros H [n Hn]. exists n. intros f Hf. rewrite H. now apply Hn. Qed.

Lemma conv_inj {A : Type} (p : nat -> option A) (x y : A) : conv p x -> conv p y -> x = y.
Proof.
  intros [n Hn] [m Hm]. specialize (Hn (Nat.max n m) ltac:(lia)).
  specialize (Hm (Nat.max n m) ltac:(lia)). congruence.
Qed.

Lemma parse_inner_type_S f ts : parse_inner_type (S f) ts =
    match ts with
    | [] => None
    | t :: ts1 =>
      match kind t with
      | KType =>
          match vtype t with
          | Some TyVoid => Some (TVoid, ts1)
          | Some (TyPrim p) => Some (TPrim p, ts1)
          | None => None
          end
      | KIdentifier => Some (TNamed (tok_name t), ts1)
      | KAmpersand =>
          match parse_inner_type f ts1 with
          | Some (d, ts2) => Some (TPointer d, ts2)
          | None => None
          end
      | KParenLeft =>
          match parse_inner_type f ts1 with
          | Some (d, ts2) =>
              match expect isParenRight ts2 with
              | Some ts3 => Some (TView d, ts3)
              | None => None
              end
          | None => None
          end
      | KBracketLeft =>
          match ts1 with
          | [] => None
          | t1 :: ts2 =>
            match kind t1 with
            | KColon =>
                match expect isBracketRight ts2 with
                | Some ts3 =>
                    match parse_inner_type f ts3 with
                    | Some (e, ts4) => Some (TSlice e, ts4)
                    | None => None
                    end
                | None => None
                end
            | KDots =>
                match expect isBracketRight ts2 with
                | Some ts3 =>
                    match parse_inner_type f ts3 with
                    | Some (e, ts4) => Some (TEndless e, ts4)
                    | None => None
                    end
                | None => None
                end
            | KBracketRight =>
                match parse_inner_type f ts2 with
                | Some (e, ts3) => Some (TArraylike e, ts3)
                | None => None
                end
            | KNakedDecimal =>
                match expect isBracketRight ts2 with
                | Some ts3 =>
                    match parse_inner_type f ts3 with
                    | Some (e, ts4) => Some (TArray (Z.modulo (value t1) usize_lim) e, ts4)
                    | None => None
                    end
                | None => None
                end
            | KIdentifier =>
                match expect isBracketRight ts2 with
                | Some ts3 =>
                    match parse_inner_type f ts3 with
                    | Some (e, ts4) => Some (TArrayNamed (tok_name t1) e, ts4)
                    | None => None
                    end
                | None => None
                end
            | _ => None
            end
          end
      | _ => None
      end
    end.
Proof. reflexivity. Qed.

Lemma as_loop_S (f : nat) (acc : expr) (ts : list tok) :
  as_loop (S f) acc ts =
    if isAs (hdk ts) then
      match parse_wellformed_type f (tl ts) with
      | Some (t, ts1) => as_loop f (ETypeCast acc t) ts1
      | None => None
      end
    else Some (acc, ts).
Proof. reflexivity. Qed.

Lemma parse_addition_S (f : nat) (nb : bool) (ts : list tok) :
  parse_addition (S f) nb ts =
    match parse_multiplication f nb ts with
    | Some (e, ts1) => add_loop f nb e ts1
    | None => None
    end.
Proof. reflexivity. Qed.

Lemma add_loop_S (f : nat) (nb : bool) (acc : expr) (ts : list tok) :
  add_loop (S f) nb acc ts =
    match bitop_of (hdk ts) with
    | Some op =>
        (* parse_rest_of_bitwise_expression *)
        if is_binary acc then None else bit_loop f nb op acc (tl ts)
    | None =>
      match shiftop_of (hdk ts) with
      | Some op =>
          (* parse_rest_of_bitshift_operation *)
          if is_binary acc then None
          else match parse_unary f nb (tl ts) with
               | Some (r, ts1) => Some (EBinary op acc r, ts1)
               | None => None
               end
      | None =>
        match addop_of (hdk ts) with
        | Some op =>
            match parse_multiplication f nb (tl ts) with
            | Some (r, ts1) => add_loop f nb (EBinary op acc r) ts1
            | None => None
            end
        | None => Some (acc, ts)
        end
      end
    end.
Proof. reflexivity. Qed.

Lemma bit_loop_S (f : nat) (nb : bool) (op : binop) (acc : expr) (ts : list tok) :
  bit_loop (S f) nb op acc ts =
    match parse_unary f nb ts with
    | Some (r, ts1) =>
        if same_bitop op (hdk ts1) then bit_loop f nb op (EBinary op acc r) (tl ts1)
        else Some (EBinary op acc r, ts1)
    | None => None
    end.
Proof. reflexivity. Qed.

Lemma parse_multiplication_S (f : nat) (nb : bool) (ts : list tok) :
  parse_multiplication (S f) nb ts =
    match parse_singular f nb ts with
    | Some (e, ts1) => mul_loop f nb e ts1
    | None => None
    end.
Proof. reflexivity. Qed.

Lemma mul_loop_S (f : nat) (nb : bool) (acc : expr) (ts : list tok) :
  mul_loop (S f) nb acc ts =
    match mulop_of (hdk ts) with
    | Some op =>
        match parse_singular f nb (tl ts) with
        | Some (r, ts1) => mul_loop f nb (EBinary op acc r) ts1
        | None => None
        end
    | None => Some (acc, ts)
    end.
Proof. reflexivity. Qed.

Lemma parse_singular_S (f : nat) (nb : bool) (ts : list tok) :
  parse_singular (S f) nb ts =
    if isCast (hdk ts) then
      match parse_unary f nb (tl ts) with
      | Some (e, ts1) => as_loop f (EBitCast e) ts1
      | None => None
      end
    else
      match parse_unary f nb ts with
      | Some (e, ts1) => as_loop f e ts1
      | None => None
      end.
Proof. reflexivity. Qed.

Lemma parse_unary_S (f : nat) (nb : bool) (ts : list tok) :
  parse_unary (S f) nb ts =
    match hdk ts with
    | KPipeForType =>
        match parse_wellformed_type f (tl ts) with
        | Some (t, ts1) =>
            match expect isPipe ts1 with
            | Some ts2 => Some (ESizeOf t, ts2)
            | None => None
            end
        | None => None
        end
    | KPipe =>
        match parse_reference f nb (tl ts) with
        | Some (r, ts1) =>
            match expect isPipe ts1 with
            | Some ts2 => Some (ELength r, ts2)
            | None => None
            end
        | None => None
        end
    | KExclamation =>
        match parse_primary f nb (tl ts) with
        | Some (e, ts1) => Some (EUnary BitwiseComplement e, ts1)
        | None => None
        end
    | KMinus =>
        match parse_primary f nb (tl ts) with
        | Some (ESigned v t, ts1) =>
            if (0 <? v)%Z then Some (ESigned (- v) t, ts1)
            else Some (EUnary Negative (ESigned v t), ts1)
        | Some (EBits v t, ts1) =>
            (* commit 4639ff7: the magnitude of i128::MIN only fits a bit literal,
               whatever its spelling or suffix *)
            if (v =? i128_min_abs)%Z then Some (ESigned (- i128_min_abs) t, ts1)
            else Some (EUnary Negative (EBits v t), ts1)
        | Some (e, ts1) => Some (EUnary Negative e, ts1)
        | None => None
        end
    | _ => parse_primary f nb ts
    end.
(* The default branch calls parse_primary once per remaining token kind: cbn refolds these
   calls, which reflexivity alone unfolds and compares one by one. *)
Proof. cbn [parse_unary]. reflexivity. Qed.

Lemma parse_primary_S (f : nat) (nb : bool) (ts : list tok) :
  parse_primary (S f) nb ts =
    match ts with
    | [] => None
    | t :: ts1 =>
      match kind t with
      | KNakedDecimal | KBitInteger | KSuffixedInteger | KCharLiteral | KBool =>
          match literal_of t with
          | Some e => Some (e, ts1)
          | None => None
          end
      | KStringLiteral =>
          let '(bs, ts2) := take_strings ts1 in Some (EString (bytes t ++ bs), ts2)
      | KIdentifier =>
          if isParenLeft (hdk ts1) then
            match expr_list f nb false (tl ts1) with
            | Some (args, ts2) =>
                match expect isParenRight ts2 with
                | Some ts3 => Some (ECall false (tok_name t) args, ts3)
                | None => None
                end
            | None => None
            end
          else if isBraceLeft (hdk ts1) && negb nb then
            match members_loop f nb (tl ts1) with
            | Some (ms, ts2) =>
                match expect isBraceRight ts2 with
                | Some ts3 => Some (EStructural (tok_name t) ms, ts3)
                | None => None
                end
            | None => None
            end
          else
            match steps_loop f nb O ts1 with
            | Some (steps, ts2) => Some (EDeref (Ref 0%N (tok_name t) steps), ts2)
            | None => None
            end
      | KBuiltin =>
          match expect isParenLeft ts1 with
          | Some ts2 =>
              match expr_list f nb false ts2 with
              | Some (args, ts3) =>
                  match expect isParenRight ts3 with
                  | Some ts4 => Some (ECall true (tok_name t) args, ts4)
                  | None => None
                  end
              | None => None
              end
          | None => None
          end
      | KAmpersand =>
          (* parse_addressed_reference: the first `&` is already consumed *)
          match parse_reference f nb ts1 with
          | Some (Ref d b steps, ts2) =>
              if (MAX_ADDRESS_DEPTH <? d + 1)%N then None
              else
                let pointer := EDeref (Ref (d + 1)%N b steps) in
                if isDots (hdk ts2) then
                  match parse_addition f nb (tl ts2) with
                  | Some (off, ts3) => Some (EBinary AdvancePointer pointer off, ts3)
                  | None => None
                  end
                else Some (pointer, ts2)
          | None => None
          end
      | KBracketLeft =>
          match expr_list f nb true ts1 with
          | Some (es, ts2) =>
              match expect isBracketRight ts2 with
              | Some ts3 => Some (EArray es, ts3)
              | None => None
              end
          | None => None
          end
      | KParenLeft =>
          match parse_addition f nb ts1 with
          | Some (e, ts2) =>
              match expect isParenRight ts2 with
              | Some ts3 => Some (EParen e, ts3)
              | None => None
              end
          | None => None
          end
      | _ => None
      end
    end.
Proof. reflexivity. Qed.

Lemma expr_list_S (f : nat) (nb : bool) (br : bool) (ts : list tok) :
  expr_list (S f) nb br ts =
    if is_close br (hdk ts) then Some ([], ts)
    else
      match parse_addition f nb ts with
      | Some (e, ts1) =>
          if isComma (hdk ts1) then
            match expr_list f nb br (tl ts1) with
            | Some (es, ts2) => Some (e :: es, ts2)
            | None => None
            end
          else Some ([e], ts1)
      | None => None
      end.
Proof. reflexivity. Qed.

Lemma members_loop_S (f : nat) (nb : bool) (ts : list tok) :
  members_loop (S f) nb ts =
    if isBraceRight (hdk ts) then Some ([], ts)
    else
      match expect_id ts with
      | Some (n, ts1) =>
          let value :=
            if isColon (hdk ts1) then parse_addition f nb (tl ts1)
            else Some (EDeref (Ref 0%N n []), ts1) in
          match value with
          | Some (e, ts2) =>
              if isComma (hdk ts2) then
                match members_loop f nb (tl ts2) with
                | Some (ms, ts3) => Some ((n, e) :: ms, ts3)
                | None => None
                end
              else Some ([(n, e)], ts2)
          | None => None
          end
      | None => None
      end.
Proof. reflexivity. Qed.

Lemma parse_reference_S (f : nat) (nb : bool) (ts : list tok) :
  parse_reference (S f) nb ts =
    let '(d, ts1) := count_amps ts in
    if (MAX_ADDRESS_DEPTH <? d)%N then None
    else
      match expect_id ts1 with
      | Some (b, ts2) =>
          match steps_loop f nb O ts2 with
          | Some (steps, ts3) => Some (Ref d b steps, ts3)
          | None => None
          end
      | None => None
      end.
Proof. reflexivity. Qed.

Lemma steps_loop_S (f : nat) (nb : bool) (k : nat) (ts : list tok) :
  steps_loop (S f) nb k ts =
    if isBracketLeft (hdk ts) then
      match parse_addition f nb (tl ts) with
      | Some (e, ts1) =>
          match expect isBracketRight ts1 with
          | Some ts2 =>
              if (MAX_REFERENCE_DEPTH <? S k)%nat then None
              else
                match steps_loop f nb (S k) ts2 with
                | Some (ss, ts3) => Some (RsElement e :: ss, ts3)
                | None => None
                end
          | None => None
          end
      | None => None
      end
    else if isDot (hdk ts) then
      match expect_id (tl ts) with
      | Some (m, ts1) =>
          if (MAX_REFERENCE_DEPTH <? S k)%nat then None
          else
            match steps_loop f nb (S k) ts1 with
            | Some (ss, ts2) => Some (RsMember m :: ss, ts2)
            | None => None
            end
      | None => None
      end
    else Some ([], ts).
Proof. reflexivity. Qed.

Lemma parse_statement_S (f : nat) (ts : list tok) :
  parse_statement (S f) ts =
    match ts with
    | [] => None
    | t :: ts1 =>
      match kind t with
      | KBraceLeft =>
          match block_loop f ts1 with
          | Some (ss, ts2) => Some (StBlock ss, ts2)
          | None => None
          end
      | KIf =>
          match parse_comparison f ts1 with
          | Some ((op, l, r), ts2) =>
              match parse_statement f ts2 with
              | Some (th, ts3) =>
                  if isElse (hdk ts3) then
                    match parse_statement f (tl ts3) with
                    | Some (el, ts4) => Some (StIf op l r th (Some el), ts4)
                    | None => None
                    end
                  else Some (StIf op l r th None, ts3)
              | None => None
              end
          | None => None
          end
      | KLoop =>
          match expect isSemicolon ts1 with
          | Some ts2 => Some (StLoop, ts2)
          | None => None
          end
      | KGoto =>
          match expect_id ts1 with
          | Some (l, ts2) =>
              match expect isSemicolon ts2 with
              | Some ts3 => Some (StGoto l, ts3)
              | None => None
              end
          | None => None
          end
      | KVar =>
          match expect_id ts1 with
          | Some (n, ts2) =>
              let otype :=
                if isColon (hdk ts2) then
                  match parse_wellformed_type f (tl ts2) with
                  | Some (t, ts3) => Some (Some t, ts3)
                  | None => None
                  end
                else Some (None, ts2) in
              match otype with
              | Some (ot, ts3) =>
                  let ovalue :=
                    if isAssignment (hdk ts3) then
                      match parse_addition f false (tl ts3) with
                      | Some (e, ts4) => Some (Some e, ts4)
                      | None => None
                      end
                    else Some (None, ts3) in
                  match ovalue with
                  | Some (ov, ts4) =>
                      match expect isSemicolon ts4 with
                      | Some ts5 => Some (StVar n ot ov, ts5)
                      | None => None
                      end
                  | None => None
                  end
              | None => None
              end
          | None => None
          end
      | KIdentifier =>
          if isColon (hdk ts1) then Some (StLabel (tok_name t), tl ts1)
          else if isParenLeft (hdk ts1) then
            match parse_arguments f ts1 with
            | Some (args, ts2) =>
                match expect isSemicolon ts2 with
                | Some ts3 => Some (StCall false (tok_name t) args, ts3)
                | None => None
                end
            | None => None
            end
          else
            match steps_loop f false O ts1 with
            | Some (steps, ts2) =>
                match parse_assign_tail f ts2 with
                | Some (e, ts3) => Some (StAssign (Ref 0%N (tok_name t) steps) e, ts3)
                | None => None
                end
            | None => None
            end
      | KBuiltin =>
          match parse_arguments f ts1 with
          | Some (args, ts2) =>
              match expect isSemicolon ts2 with
              | Some ts3 => Some (StCall true (tok_name t) args, ts3)
              | None => None
              end
          | None => None
          end
      | KAmpersand =>
          match parse_addressed_reference f false ts1 with
          | Some (r, ts2) =>
              match parse_assign_tail f ts2 with
              | Some (e, ts3) => Some (StAssign r e, ts3)
              | None => None
              end
          | None => None
          end
      | _ => None
      end
    end.
Proof. reflexivity. Qed.

Lemma block_loop_S (f : nat) (ts : list tok) :
  block_loop (S f) ts =
    if isBraceRight (hdk ts) then Some ([], tl ts)
    else
      match parse_statement f ts with
      | Some (s, ts1) =>
          match block_loop f ts1 with
          | Some (ss, ts2) => Some (s :: ss, ts2)
          | None => None
          end
      | None => None
      end.
Proof. reflexivity. Qed.

Lemma body_loop_S (f : nat) (ts : list tok) :
  body_loop (S f) ts =
    if isBraceRight (hdk ts) then Some (([], None), tl ts)
    else
      match parse_statement f ts with
      | Some (s, ts1) =>
          if is_return_label s then
            if isBraceRight (hdk ts1) then None   (* MissingReturnValueAfterStatement *)
            else
              match parse_addition f false ts1 with
              | Some (e, ts2) =>
                  match expect isBraceRight ts2 with   (* `;` here is an error as well *)
                  | Some ts3 => Some (([s], Some e), ts3)
                  | None => None
                  end
              | None => None
              end
          else
            match body_loop f ts1 with
            | Some ((ss, rv), ts2) => Some ((s :: ss, rv), ts2)
            | None => None
            end
      | None => None
      end.
Proof. reflexivity. Qed.

Lemma typed_names_S (f : nat) (br : bool) (ts : list tok) :
  typed_names (S f) br ts =
    if is_close_tn br (hdk ts) then Some ([], ts)
    else
      match parse_typed_name f ts with
      | Some (m, ts1) =>
          if isComma (hdk ts1) then
            match typed_names f br (tl ts1) with
            | Some (ms, ts2) => Some (m :: ms, ts2)
            | None => None
            end
          else Some ([m], ts1)
      | None => None
      end.
Proof. reflexivity. Qed.

Lemma decls_loop_S (f : nat) (inner : nat) (ts : list tok) :
  decls_loop (S f) inner ts =
    match ts with
    | [] => Some []
    | _ :: _ =>
        match parse_declaration inner ts with
        | Some (d, ts1) =>
            match decls_loop f inner ts1 with
            | Some ds => Some (d :: ds)
            | None => None
            end
        | None => None
        end
    end.
Proof. reflexivity. Qed.

(* The tokens parse_unary handles itself. *)
Definition unary_op (k : tkind) : bool :=
  match k with KPipeForType | KPipe | KExclamation | KMinus => true | _ => false end.

Lemma parse_unary_prim f nb ts :
  unary_op (hdk ts) = false -> parse_unary (S f) nb ts = parse_primary f nb ts.
Proof. intros H. rewrite parse_unary_S. destruct (hdk ts); try discriminate H; reflexivity. Qed.

(* What parse_unary makes of `-` in front of the primary expression [p]. *)
Definition negated (p : expr) : expr :=
  match p with
  | ESigned v t => if (0 <? v)%Z then ESigned (- v) t else EUnary Negative p
  | EBits v t => if (v =? i128_min_abs)%Z then ESigned (- i128_min_abs) t else EUnary Negative p
  | _ => EUnary Negative p
  end.

(* Induction over the successful runs of the expression parser.  [run p P a r]: the call
   [p] returned [(a, r)] and [P], the claim about runs, holds of it. *)
Definition run {A : Type} (p : option (A * list tok)) (P : A -> list tok -> Prop)
    (a : A) (r : list tok) : Prop :=
  p = Some (a, r) /\ P a r.

Section Runs.
  Variable nb : bool.
  Variables Padd Pmul Psing Pun Pprim : nat -> list tok -> expr -> list tok -> Prop.
  Variables Paddl Pmull Pas : nat -> expr -> list tok -> expr -> list tok -> Prop.
  Variable Pbit : nat -> binop -> expr -> list tok -> expr -> list tok -> Prop.
  Variable Plist : nat -> bool -> list tok -> list expr -> list tok -> Prop.
  Variable Pmem : nat -> list tok -> list (name * expr) -> list tok -> Prop.
  Variable Pref : nat -> list tok -> reference -> list tok -> Prop.
  Variable Psteps : nat -> nat -> list tok -> list step -> list tok -> Prop.

  (* One hypothesis per way in which a function of the block succeeds: the tests taken,
     the calls made, the tree built. *)
  Hypothesis add : forall f ts m ts1 e r,
    run (parse_multiplication f nb ts) (Pmul f ts) m ts1 ->
    run (add_loop f nb m ts1) (Paddl f m ts1) e r -> Padd (S f) ts e r.

  Hypothesis addl_bit : forall f acc ts op e r,
    bitop_of (hdk ts) = Some op -> is_binary acc = false ->
    run (bit_loop f nb op acc (tl ts)) (Pbit f op acc (tl ts)) e r -> Paddl (S f) acc ts e r.
  Hypothesis addl_shift : forall f acc ts op x r,
    bitop_of (hdk ts) = None -> shiftop_of (hdk ts) = Some op -> is_binary acc = false ->
    run (parse_unary f nb (tl ts)) (Pun f (tl ts)) x r -> Paddl (S f) acc ts (EBinary op acc x) r.
  Hypothesis addl_add : forall f acc ts op x ts1 e r,
    bitop_of (hdk ts) = None -> shiftop_of (hdk ts) = None -> addop_of (hdk ts) = Some op ->
    run (parse_multiplication f nb (tl ts)) (Pmul f (tl ts)) x ts1 ->
    run (add_loop f nb (EBinary op acc x) ts1) (Paddl f (EBinary op acc x) ts1) e r ->
    Paddl (S f) acc ts e r.
  Hypothesis addl_stop : forall f acc ts,
    bitop_of (hdk ts) = None -> shiftop_of (hdk ts) = None -> addop_of (hdk ts) = None ->
    Paddl (S f) acc ts acc ts.

  Hypothesis bit_more : forall f op acc ts x ts1 e r,
    run (parse_unary f nb ts) (Pun f ts) x ts1 -> same_bitop op (hdk ts1) = true ->
    run (bit_loop f nb op (EBinary op acc x) (tl ts1)) (Pbit f op (EBinary op acc x) (tl ts1)) e r ->
    Pbit (S f) op acc ts e r.
  Hypothesis bit_stop : forall f op acc ts x ts1,
    run (parse_unary f nb ts) (Pun f ts) x ts1 -> same_bitop op (hdk ts1) = false ->
    Pbit (S f) op acc ts (EBinary op acc x) ts1.

  Hypothesis mul : forall f ts m ts1 e r,
    run (parse_singular f nb ts) (Psing f ts) m ts1 ->
    run (mul_loop f nb m ts1) (Pmull f m ts1) e r -> Pmul (S f) ts e r.
  Hypothesis mull_more : forall f acc ts op x ts1 e r,
    mulop_of (hdk ts) = Some op ->
    run (parse_singular f nb (tl ts)) (Psing f (tl ts)) x ts1 ->
    run (mul_loop f nb (EBinary op acc x) ts1) (Pmull f (EBinary op acc x) ts1) e r ->
    Pmull (S f) acc ts e r.
  Hypothesis mull_stop : forall f acc ts, mulop_of (hdk ts) = None -> Pmull (S f) acc ts acc ts.

  Hypothesis sing_cast : forall f ts x ts1 e r,
    isCast (hdk ts) = true -> run (parse_unary f nb (tl ts)) (Pun f (tl ts)) x ts1 ->
    run (as_loop f (EBitCast x) ts1) (Pas f (EBitCast x) ts1) e r -> Psing (S f) ts e r.
  Hypothesis sing_plain : forall f ts x ts1 e r,
    isCast (hdk ts) = false -> run (parse_unary f nb ts) (Pun f ts) x ts1 ->
    run (as_loop f x ts1) (Pas f x ts1) e r -> Psing (S f) ts e r.
  Hypothesis as_more : forall f acc ts t ts1 e r,
    isAs (hdk ts) = true -> parse_wellformed_type f (tl ts) = Some (t, ts1) ->
    run (as_loop f (ETypeCast acc t) ts1) (Pas f (ETypeCast acc t) ts1) e r -> Pas (S f) acc ts e r.
  Hypothesis as_stop : forall f acc ts, isAs (hdk ts) = false -> Pas (S f) acc ts acc ts.

  Hypothesis un_sizeof : forall f ts t ts1 r,
    hdk ts = KPipeForType -> parse_wellformed_type f (tl ts) = Some (t, ts1) ->
    expect isPipe ts1 = Some r -> Pun (S f) ts (ESizeOf t) r.
  Hypothesis un_length : forall f ts x ts1 r,
    hdk ts = KPipe -> run (parse_reference f nb (tl ts)) (Pref f (tl ts)) x ts1 ->
    expect isPipe ts1 = Some r -> Pun (S f) ts (ELength x) r.
  Hypothesis un_not : forall f ts x r,
    hdk ts = KExclamation -> run (parse_primary f nb (tl ts)) (Pprim f (tl ts)) x r ->
    Pun (S f) ts (EUnary BitwiseComplement x) r.
  Hypothesis un_minus : forall f ts x r,
    hdk ts = KMinus -> run (parse_primary f nb (tl ts)) (Pprim f (tl ts)) x r ->
    Pun (S f) ts (negated x) r.
  Hypothesis un_other : forall f ts e r,
    unary_op (hdk ts) = false -> run (parse_primary f nb ts) (Pprim f ts) e r -> Pun (S f) ts e r.

  Hypothesis prim_literal : forall f t ts e, literal_of t = Some e -> Pprim (S f) (t :: ts) e ts.
  Hypothesis prim_string : forall f t ts bs r,
    kind t = KStringLiteral -> take_strings ts = (bs, r) ->
    Pprim (S f) (t :: ts) (EString (bytes t ++ bs)) r.
  Hypothesis prim_call : forall f t ts args ts2 r,
    kind t = KIdentifier -> isParenLeft (hdk ts) = true ->
    run (expr_list f nb false (tl ts)) (Plist f false (tl ts)) args ts2 ->
    expect isParenRight ts2 = Some r -> Pprim (S f) (t :: ts) (ECall false (tok_name t) args) r.
  Hypothesis prim_structural : forall f t ts ms ts2 r,
    kind t = KIdentifier -> isParenLeft (hdk ts) = false -> isBraceLeft (hdk ts) && negb nb = true ->
    run (members_loop f nb (tl ts)) (Pmem f (tl ts)) ms ts2 ->
    expect isBraceRight ts2 = Some r -> Pprim (S f) (t :: ts) (EStructural (tok_name t) ms) r.
  Hypothesis prim_deref : forall f t ts steps r,
    kind t = KIdentifier -> isParenLeft (hdk ts) = false -> isBraceLeft (hdk ts) && negb nb = false ->
    run (steps_loop f nb 0 ts) (Psteps f 0 ts) steps r ->
    Pprim (S f) (t :: ts) (EDeref (Ref 0%N (tok_name t) steps)) r.
  Hypothesis prim_builtin : forall f t ts ts2 args ts3 r,
    kind t = KBuiltin -> expect isParenLeft ts = Some ts2 ->
    run (expr_list f nb false ts2) (Plist f false ts2) args ts3 ->
    expect isParenRight ts3 = Some r -> Pprim (S f) (t :: ts) (ECall true (tok_name t) args) r.
  Hypothesis prim_amp : forall f t ts d b steps ts2,
    kind t = KAmpersand -> run (parse_reference f nb ts) (Pref f ts) (Ref d b steps) ts2 ->
    (MAX_ADDRESS_DEPTH <? d + 1)%N = false -> isDots (hdk ts2) = false ->
    Pprim (S f) (t :: ts) (EDeref (Ref (d + 1)%N b steps)) ts2.
  Hypothesis prim_advance : forall f t ts d b steps ts2 off r,
    kind t = KAmpersand -> run (parse_reference f nb ts) (Pref f ts) (Ref d b steps) ts2 ->
    (MAX_ADDRESS_DEPTH <? d + 1)%N = false -> isDots (hdk ts2) = true ->
    run (parse_addition f nb (tl ts2)) (Padd f (tl ts2)) off r ->
    Pprim (S f) (t :: ts) (EBinary AdvancePointer (EDeref (Ref (d + 1)%N b steps)) off) r.
  Hypothesis prim_array : forall f t ts es ts2 r,
    kind t = KBracketLeft -> run (expr_list f nb true ts) (Plist f true ts) es ts2 ->
    expect isBracketRight ts2 = Some r -> Pprim (S f) (t :: ts) (EArray es) r.
  Hypothesis prim_paren : forall f t ts e ts2 r,
    kind t = KParenLeft -> run (parse_addition f nb ts) (Padd f ts) e ts2 ->
    expect isParenRight ts2 = Some r -> Pprim (S f) (t :: ts) (EParen e) r.

  Hypothesis list_close : forall f br ts, is_close br (hdk ts) = true -> Plist (S f) br ts [] ts.
  Hypothesis list_more : forall f br ts e ts1 es r,
    is_close br (hdk ts) = false -> run (parse_addition f nb ts) (Padd f ts) e ts1 ->
    isComma (hdk ts1) = true -> run (expr_list f nb br (tl ts1)) (Plist f br (tl ts1)) es r ->
    Plist (S f) br ts (e :: es) r.
  Hypothesis list_last : forall f br ts e ts1,
    is_close br (hdk ts) = false -> run (parse_addition f nb ts) (Padd f ts) e ts1 ->
    isComma (hdk ts1) = false -> Plist (S f) br ts [e] ts1.

  (* The value of member [n]: an expression after `:`, or [n] itself.  (Outside the section
     its first arguments are [nb] and [Padd].) *)
  Definition member_value (f : nat) (n : name) (ts1 : list tok) (e : expr) (ts2 : list tok) : Prop :=
    (isColon (hdk ts1) = true /\ run (parse_addition f nb (tl ts1)) (Padd f (tl ts1)) e ts2) \/
    (isColon (hdk ts1) = false /\ e = EDeref (Ref 0%N n []) /\ ts2 = ts1).

  Hypothesis mem_close : forall f ts, isBraceRight (hdk ts) = true -> Pmem (S f) ts [] ts.
  Hypothesis mem_more : forall f ts n ts1 e ts2 ms r,
    isBraceRight (hdk ts) = false -> expect_id ts = Some (n, ts1) -> member_value f n ts1 e ts2 ->
    isComma (hdk ts2) = true -> run (members_loop f nb (tl ts2)) (Pmem f (tl ts2)) ms r ->
    Pmem (S f) ts ((n, e) :: ms) r.
  Hypothesis mem_last : forall f ts n ts1 e ts2,
    isBraceRight (hdk ts) = false -> expect_id ts = Some (n, ts1) -> member_value f n ts1 e ts2 ->
    isComma (hdk ts2) = false -> Pmem (S f) ts [(n, e)] ts2.

  Hypothesis ref : forall f ts d ts1 b ts2 steps r,
    count_amps ts = (d, ts1) -> (MAX_ADDRESS_DEPTH <? d)%N = false -> expect_id ts1 = Some (b, ts2) ->
    run (steps_loop f nb 0 ts2) (Psteps f 0 ts2) steps r -> Pref (S f) ts (Ref d b steps) r.

  Hypothesis steps_element : forall f k ts e ts1 ts2 ss r,
    isBracketLeft (hdk ts) = true -> run (parse_addition f nb (tl ts)) (Padd f (tl ts)) e ts1 ->
    expect isBracketRight ts1 = Some ts2 -> (MAX_REFERENCE_DEPTH <? S k) = false ->
    run (steps_loop f nb (S k) ts2) (Psteps f (S k) ts2) ss r ->
    Psteps (S f) k ts (RsElement e :: ss) r.
  Hypothesis steps_member : forall f k ts m ts1 ss r,
    isBracketLeft (hdk ts) = false -> isDot (hdk ts) = true -> expect_id (tl ts) = Some (m, ts1) ->
    (MAX_REFERENCE_DEPTH <? S k) = false ->
    run (steps_loop f nb (S k) ts1) (Psteps f (S k) ts1) ss r ->
    Psteps (S f) k ts (RsMember m :: ss) r.
  Hypothesis steps_stop : forall f k ts,
    isBracketLeft (hdk ts) = false -> isDot (hdk ts) = false -> Psteps (S f) k ts [] ts.

  Lemma as_loop_runs f : forall acc ts e r, as_loop f acc ts = Some (e, r) -> Pas f acc ts e r.
  Proof.
    induction f as [|f IH]; intros acc ts e r H; [discriminate H|].
    rewrite as_loop_S in H. destruct (isAs (hdk ts)) eqn:Ea.
    - destruct (parse_wellformed_type f (tl ts)) as [[t ts1]|] eqn:Et; [|discriminate H].
      exact (as_more _ _ _ _ _ _ _ Ea Et (conj H (IH _ _ _ _ H))).
    - injection H as <- <-. now apply as_stop.
  Qed.

  (* The premises of a hypothesis of the section: a test is an assumption, a call is its
     equation with the induction hypothesis for it. *)
  Ltac by_runs :=
    try eassumption;
    (split; [eassumption
            |first [apply as_loop_runs; eassumption
                   |match goal with I : _ |- _ => apply I; eassumption end]]).

  Theorem runs f :
    (forall ts e r, parse_addition f nb ts = Some (e, r) -> Padd f ts e r) /\
    (forall acc ts e r, add_loop f nb acc ts = Some (e, r) -> Paddl f acc ts e r) /\
    (forall op acc ts e r, bit_loop f nb op acc ts = Some (e, r) -> Pbit f op acc ts e r) /\
    (forall ts e r, parse_multiplication f nb ts = Some (e, r) -> Pmul f ts e r) /\
    (forall acc ts e r, mul_loop f nb acc ts = Some (e, r) -> Pmull f acc ts e r) /\
    (forall ts e r, parse_singular f nb ts = Some (e, r) -> Psing f ts e r) /\
    (forall ts e r, parse_unary f nb ts = Some (e, r) -> Pun f ts e r) /\
    (forall ts e r, parse_primary f nb ts = Some (e, r) -> Pprim f ts e r) /\
    (forall br ts es r, expr_list f nb br ts = Some (es, r) -> Plist f br ts es r) /\
    (forall ts ms r, members_loop f nb ts = Some (ms, r) -> Pmem f ts ms r) /\
    (forall ts x r, parse_reference f nb ts = Some (x, r) -> Pref f ts x r) /\
    (forall k ts ss r, steps_loop f nb k ts = Some (ss, r) -> Psteps f k ts ss r).
  Proof.
    induction f as [|f (Iadd & Iaddl & Ibit & Imul & Imull & Ising & Iun & Iprim & Ilist & Imem & Iref & Isteps)];
      [repeat split; intros; discriminate|].
    (* [clear -]: each function keeps the hypotheses about it only (the context is long) *)
    repeat split.
    - clear - add Imul Iaddl. intros ts e r H. rewrite parse_addition_S in H.
      destruct (parse_multiplication f nb ts) as [[m ts1]|] eqn:Em; [|discriminate H].
      eapply add; by_runs.
    - clear - addl_bit addl_shift addl_add addl_stop Ibit Iun Imul Iaddl.
      intros acc ts e r H. rewrite add_loop_S in H.
      destruct (bitop_of (hdk ts)) as [op|] eqn:Eb.
      { destruct (is_binary acc) eqn:Ebin; [discriminate H|]. eapply addl_bit; by_runs. }
      destruct (shiftop_of (hdk ts)) as [op|] eqn:Es.
      { destruct (is_binary acc) eqn:Ebin; [discriminate H|].
        destruct (parse_unary f nb (tl ts)) as [[x ts1]|] eqn:Eu; [|discriminate H].
        injection H as <- <-. eapply addl_shift; by_runs. }
      destruct (addop_of (hdk ts)) as [op|] eqn:Ea.
      + destruct (parse_multiplication f nb (tl ts)) as [[x ts1]|] eqn:Em; [|discriminate H].
        eapply addl_add; by_runs.
      + injection H as <- <-. now apply addl_stop.
    - clear - bit_more bit_stop Iun Ibit. intros op acc ts e r H. rewrite bit_loop_S in H.
      destruct (parse_unary f nb ts) as [[x ts1]|] eqn:Eu; [|discriminate H].
      destruct (same_bitop op (hdk ts1)) eqn:Eb.
      + eapply bit_more; by_runs.
      + injection H as <- <-. eapply bit_stop; by_runs.
    - clear - mul Ising Imull. intros ts e r H. rewrite parse_multiplication_S in H.
      destruct (parse_singular f nb ts) as [[m ts1]|] eqn:Em; [|discriminate H].
      eapply mul; by_runs.
    - clear - mull_more mull_stop Ising Imull. intros acc ts e r H. rewrite mul_loop_S in H.
      destruct (mulop_of (hdk ts)) as [op|] eqn:Eo.
      + destruct (parse_singular f nb (tl ts)) as [[x ts1]|] eqn:Em; [|discriminate H].
        eapply mull_more; by_runs.
      + injection H as <- <-. now apply mull_stop.
    - clear - sing_cast sing_plain as_more as_stop Iun. intros ts e r H. rewrite parse_singular_S in H.
      destruct (isCast (hdk ts)) eqn:Ec.
      + destruct (parse_unary f nb (tl ts)) as [[x ts1]|] eqn:Eu; [|discriminate H].
        eapply sing_cast; by_runs.
      + destruct (parse_unary f nb ts) as [[x ts1]|] eqn:Eu; [|discriminate H].
        eapply sing_plain; by_runs.
    - clear - un_sizeof un_length un_not un_minus un_other Iref Iprim.
      intros ts e r H. destruct (unary_op (hdk ts)) eqn:Eu.
      2: { rewrite (parse_unary_prim _ _ _ Eu) in H. eapply un_other; by_runs. }
      rewrite parse_unary_S in H. destruct (hdk ts) eqn:Ek; try discriminate Eu.
      + (* | reference | *)
        destruct (parse_reference f nb (tl ts)) as [[x ts1]|] eqn:Er; [|discriminate H].
        destruct (expect isPipe ts1) as [ts2|] eqn:Ep; [|discriminate H]. injection H as <- <-.
        eapply un_length; by_runs.
      + (* ! *)
        destruct (parse_primary f nb (tl ts)) as [[x ts1]|] eqn:Ep; [|discriminate H].
        injection H as <- <-. eapply un_not; by_runs.
      + (* - *)
        destruct (parse_primary f nb (tl ts)) as [[x ts1]|] eqn:Ep; [|discriminate H].
        assert (E : Some (negated x, ts1) = Some (e, r)).
        { rewrite <- H. destruct x; cbn [negated]; try reflexivity;
            match goal with |- context [if ?c then _ else _] => destruct c end; reflexivity. }
        injection E as <- <-. eapply un_minus; by_runs.
      + (* |: type | *)
        destruct (parse_wellformed_type f (tl ts)) as [[t ts1]|] eqn:Et; [|discriminate H].
        destruct (expect isPipe ts1) as [ts2|] eqn:Ep; [|discriminate H]. injection H as <- <-.
        eapply un_sizeof; eauto.
    - clear - prim_literal prim_string prim_call prim_structural prim_deref prim_builtin prim_amp
              prim_advance prim_array prim_paren Iadd Ilist Imem Isteps Iref.
      intros ts e r H. destruct ts as [|t ts]; [discriminate H|]. rewrite parse_primary_S in H.
      destruct (kind t) eqn:Ek; try discriminate H;
        try (destruct (literal_of t) eqn:El; [|discriminate H]; injection H as <- <-;
             now apply prim_literal).
      + (* ( *)
        destruct (parse_addition f nb ts) as [[x ts2]|] eqn:Ea; [|discriminate H].
        destruct (expect isParenRight ts2) as [ts3|] eqn:Ep; [|discriminate H]. injection H as <- <-.
        eapply prim_paren; by_runs.
      + (* [ *)
        destruct (expr_list f nb true ts) as [[es ts2]|] eqn:El; [|discriminate H].
        destruct (expect isBracketRight ts2) as [ts3|] eqn:Ep; [|discriminate H]. injection H as <- <-.
        eapply prim_array; by_runs.
      + (* & *)
        destruct (parse_reference f nb ts) as [[[d b steps] ts2]|] eqn:Er; [|discriminate H].
        destruct (MAX_ADDRESS_DEPTH <? d + 1)%N eqn:Ed; [discriminate H|]. cbv zeta in H.
        destruct (isDots (hdk ts2)) eqn:Edots.
        * destruct (parse_addition f nb (tl ts2)) as [[off ts3]|] eqn:Ea; [|discriminate H].
          injection H as <- <-. eapply prim_advance; by_runs.
        * injection H as <- <-. eapply prim_amp; by_runs.
      + (* identifier *)
        destruct (isParenLeft (hdk ts)) eqn:Ep.
        * destruct (expr_list f nb false (tl ts)) as [[args ts2]|] eqn:El; [|discriminate H].
          destruct (expect isParenRight ts2) as [ts3|] eqn:Er; [|discriminate H]. injection H as <- <-.
          eapply prim_call; by_runs.
        * destruct (isBraceLeft (hdk ts) && negb nb) eqn:Eb.
          -- destruct (members_loop f nb (tl ts)) as [[ms ts2]|] eqn:Em; [|discriminate H].
             destruct (expect isBraceRight ts2) as [ts3|] eqn:Er; [|discriminate H]. injection H as <- <-.
             eapply prim_structural; by_runs.
          -- destruct (steps_loop f nb 0 ts) as [[steps ts2]|] eqn:Es; [|discriminate H].
             injection H as <- <-. eapply prim_deref; by_runs.
      + (* builtin *)
        destruct (expect isParenLeft ts) as [ts2|] eqn:Ep; [|discriminate H].
        destruct (expr_list f nb false ts2) as [[args ts3]|] eqn:El; [|discriminate H].
        destruct (expect isParenRight ts3) as [ts4|] eqn:Er; [|discriminate H]. injection H as <- <-.
        eapply prim_builtin; by_runs.
      + (* string *)
        destruct (take_strings ts) as [bs ts2] eqn:Et.
        injection H as <- <-. now apply prim_string.
    - clear - list_close list_more list_last Iadd Ilist. intros br ts es r H. rewrite expr_list_S in H.
      destruct (is_close br (hdk ts)) eqn:Ec.
      { injection H as <- <-. now apply list_close. }
      destruct (parse_addition f nb ts) as [[x ts1]|] eqn:Ea; [|discriminate H].
      destruct (isComma (hdk ts1)) eqn:Ecomma.
      + destruct (expr_list f nb br (tl ts1)) as [[xs ts2]|] eqn:El; [|discriminate H].
        injection H as <- <-. eapply list_more; by_runs.
      + injection H as <- <-. eapply list_last; by_runs.
    - clear - mem_close mem_more mem_last Iadd Imem. intros ts ms r H. rewrite members_loop_S in H.
      destruct (isBraceRight (hdk ts)) eqn:Eb.
      { injection H as <- <-. now apply mem_close. }
      destruct (expect_id ts) as [[n ts1]|] eqn:Eid; [|discriminate H]. cbv zeta in H.
      match type of H with match ?v with _ => _ end = _ => destruct v as [[e ts2]|] eqn:Ev end;
        [|discriminate H].
      assert (Hv : member_value f n ts1 e ts2).
      { unfold member_value. destruct (isColon (hdk ts1)); [left; split; [reflexivity|by_runs]|right].
        injection Ev as <- <-. auto. }
      destruct (isComma (hdk ts2)) eqn:Ecomma.
      + destruct (members_loop f nb (tl ts2)) as [[xs ts3]|] eqn:Em; [|discriminate H].
        injection H as <- <-. eapply mem_more; by_runs.
      + injection H as <- <-. eapply mem_last; eauto.
    - clear - ref Isteps. intros ts x r H. rewrite parse_reference_S in H.
      destruct (count_amps ts) as [d ts1] eqn:Ec.
      destruct (MAX_ADDRESS_DEPTH <? d)%N eqn:Ed; [discriminate H|].
      destruct (expect_id ts1) as [[b ts2]|] eqn:Eid; [|discriminate H].
      destruct (steps_loop f nb 0 ts2) as [[steps ts3]|] eqn:Es; [|discriminate H].
      injection H as <- <-. eapply ref; by_runs.
    - clear - steps_element steps_member steps_stop Iadd Isteps.
      intros k ts ss r H. rewrite steps_loop_S in H. destruct (isBracketLeft (hdk ts)) eqn:Eb.
      { destruct (parse_addition f nb (tl ts)) as [[e ts1]|] eqn:Ea; [|discriminate H].
        destruct (expect isBracketRight ts1) as [ts2|] eqn:Er; [|discriminate H].
        destruct (MAX_REFERENCE_DEPTH <? S k) eqn:Ek; [discriminate H|].
        destruct (steps_loop f nb (S k) ts2) as [[xs ts3]|] eqn:Es; [|discriminate H].
        injection H as <- <-. eapply steps_element; by_runs. }
      destruct (isDot (hdk ts)) eqn:Ed.
      + destruct (expect_id (tl ts)) as [[m ts1]|] eqn:Eid; [|discriminate H].
        destruct (MAX_REFERENCE_DEPTH <? S k) eqn:Ek; [discriminate H|].
        destruct (steps_loop f nb (S k) ts1) as [[xs ts2]|] eqn:Es; [|discriminate H].
        injection H as <- <-. eapply steps_member; by_runs.
      + injection H as <- <-. now apply steps_stop.
  Qed.
End Runs.

(* The bodies of the long parsers under a name: a proof step then mentions the body by
   that name and never copies it. *)
Definition inner_type_body (f : nat) (ts : list tok) :=
  Eval cbn [parse_inner_type] in parse_inner_type (S f) ts.
Definition unary_body (f : nat) (nb : bool) (ts : list tok) :=
  Eval cbn [parse_unary] in parse_unary (S f) nb ts.
Definition primary_body (f : nat) (nb : bool) (ts : list tok) :=
  Eval cbn [parse_primary] in parse_primary (S f) nb ts.
Definition statement_body (f : nat) (ts : list tok) :=
  Eval cbn [parse_statement] in parse_statement (S f) ts.

Lemma parse_inner_type_body f ts : parse_inner_type (S f) ts = inner_type_body f ts.
Proof. apply parse_inner_type_S. Qed.
Lemma parse_unary_body f nb ts : parse_unary (S f) nb ts = unary_body f nb ts.
Proof. apply parse_unary_S. Qed.
Lemma parse_primary_body f nb ts : parse_primary (S f) nb ts = primary_body f nb ts.
Proof. apply parse_primary_S. Qed.
Lemma parse_statement_body f ts : parse_statement (S f) ts = statement_body f ts.
Proof. apply parse_statement_S. Qed.

(* The parser of grammar level [lv] (0 primary, 1 unary, 2 singular, 3 multiplication,
   4 addition) and the loop that runs once its first operand is read. *)
Definition parse_lv (lv : nat) : nat -> bool -> list tok -> option (expr * list tok) :=
  match lv with
  | 0 => parse_primary | 1 => parse_unary | 2 => parse_singular | 3 => parse_multiplication
  | _ => parse_addition
  end.

Definition loop_lv (lv : nat) (f : nat) (nb : bool) (e : expr) (R : list tok)
  : option (expr * list tok) :=
  match lv with
  | 2 => as_loop f e R | 3 => mul_loop f nb e R | 4 => add_loop f nb e R
  | _ => Some (e, R)
  end.

(* Evaluates the parser's tests on the tokens the printer has put at the head of the input;
   for that it also unfolds the named bodies above and parse_declaration_rest. *)
Ltac tkred :=
  cbn [hdk tl kind value vtype bytes mk tk tk_id tk_builtin tk_type tk_sint tk_bits
       isParenLeft isParenRight isBraceLeft isBraceRight isBracketLeft isBracketRight isPipe
       isSemicolon isAssignment isColon isComma isElse isArrow isDots isDot isAs isCast
       isAmpersand isString isPub isExtern isIdentifier is_close is_close_tn
       bitop_of shiftop_of addop_of mulop_of cmpop_of same_bitop binop_eqb
       kind_of_binop kind_of_unop kind_of_cmpop kind_of_skind word_kind
       expect expect_id app andb orb negb is_binary fst snd
       inner_type_body unary_body primary_body statement_body parse_declaration_rest].

(* [lem] is the unfolding equation of the parser called at the head of the goal (applied, not
   rewritten with: a rewrite copies the unfolded body into the proof term). *)
Ltac step lem :=
  cbn [parse_lv loop_lv]; eapply conv_step; [intro; apply lem|]; tkred.

(* Rewriting below the fuel binder. *)
Ltac crw lem :=
  eapply conv_ext; [intro; rewrite lem; reflexivity|].

(* The goal is a parser call followed by what is done with its result; [H] says what
   the call returns. *)
Ltac bind H :=
  eapply conv_bind; [eapply H | ]; tkred.

Lemma tok_name_id n : tok_name (tk_id n) = n.
Proof. apply N2Z.id. Qed.

Lemma tok_name_builtin n : tok_name (tk_builtin n) = n.
Proof. apply N2Z.id. Qed.

Ltac crw_name :=
  eapply conv_ext; [intro; rewrite ?tok_name_id, ?tok_name_builtin; reflexivity|].

Lemma parse_print_inner_type t :
  ty_rng t = true ->
  forall R, conv (fun f => parse_inner_type f (print_type t ++ R)) (t, R).
Proof.
  induction t as [|p|n|len e IH|n e IH|e IH|e IH|e IH|d IH|d IH]; intros Hr R;
    cbn [print_type ty_rng] in *.
  - step parse_inner_type_body. apply conv_ret.
  - step parse_inner_type_body. apply conv_ret.
  - step parse_inner_type_body. crw_name. apply conv_ret.
  - apply andb_prop in Hr as [Hr He]. apply andb_prop in Hr as [H0 H1].
    step parse_inner_type_body. bind (IH He R).
    apply Z.leb_le in H0. apply Z.ltb_lt in H1.
    crw (Z.mod_small len usize_lim (conj H0 H1)). apply conv_ret.
  - step parse_inner_type_body. bind (IH Hr R). crw_name. apply conv_ret.
  - step parse_inner_type_body. bind (IH Hr R). apply conv_ret.
  - step parse_inner_type_body. bind (IH Hr R). apply conv_ret.
  - step parse_inner_type_body. bind (IH Hr R). apply conv_ret.
  - step parse_inner_type_body. bind (IH Hr R). apply conv_ret.
  - step parse_inner_type_body. rewrite <- app_assoc. bind (IH Hr (tk KParenRight :: R)).
    apply conv_ret.
Qed.

Theorem parse_print_type t :
  ty_ok t = true ->
  forall R, conv (fun f => parse_wellformed_type f (print_type t ++ R)) (t, R).
Proof.
  intros Hok R. apply andb_prop in Hok as [Hr Hw]. unfold parse_wellformed_type.
  bind (parse_print_inner_type t Hr R). rewrite Hw. apply conv_ret.
Qed.

Definition step_P (P : expr -> Prop) (s : step) : Prop :=
  match s with RsElement e => P e | RsMember _ => True end.

(* Induction on expressions with the hypothesis for every expression in a list of operands,
   members or steps (the generated principle has none for them). *)
Section expr_ind2.
  Variable P : expr -> Prop.
  Hypothesis HBin : forall op l r, P l -> P r -> P (EBinary op l r).
  Hypothesis HUn : forall op e, P e -> P (EUnary op e).
  Hypothesis HBool : forall b, P (EBool b).
  Hypothesis HSigned : forall v t, P (ESigned v t).
  Hypothesis HBits : forall v t, P (EBits v t).
  Hypothesis HString : forall bs, P (EString bs).
  Hypothesis HArray : forall es, Forall P es -> P (EArray es).
  Hypothesis HStruct : forall n ms, Forall (fun me => P (snd me)) ms -> P (EStructural n ms).
  Hypothesis HParen : forall e, P e -> P (EParen e).
  Hypothesis HDeref : forall d b steps, Forall (step_P P) steps -> P (EDeref (Ref d b steps)).
  Hypothesis HBitCast : forall e, P e -> P (EBitCast e).
  Hypothesis HTypeCast : forall e t, P e -> P (ETypeCast e t).
  Hypothesis HLength : forall d b steps, Forall (step_P P) steps -> P (ELength (Ref d b steps)).
  Hypothesis HSizeOf : forall t, P (ESizeOf t).
  Hypothesis HCall : forall b n args, Forall P args -> P (ECall b n args).

  Fixpoint expr_ind2 (e : expr) : P e :=
    let go_list := Forall_all P expr_ind2 in
    let go_steps := Forall_all (step_P P)
      (fun s => match s return step_P P s with RsElement e' => expr_ind2 e' | RsMember _ => I end) in
    match e with
    | EBinary op l r => HBin op l r (expr_ind2 l) (expr_ind2 r)
    | EUnary op e' => HUn op e' (expr_ind2 e')
    | EBool b => HBool b
    | ESigned v t => HSigned v t
    | EBits v t => HBits v t
    | EString bs => HString bs
    | EArray es => HArray es (go_list es)
    | EStructural n ms =>
        HStruct n ms
          (Forall_all (fun me => P (snd me)) (fun me => expr_ind2 (snd me)) ms)
    | EParen e' => HParen e' (expr_ind2 e')
    | EDeref (Ref d b steps) => HDeref d b steps (go_steps steps)
    | EBitCast e' => HBitCast e' (expr_ind2 e')
    | ETypeCast e' t => HTypeCast e' t (expr_ind2 e')
    | ELength (Ref d b steps) => HLength d b steps (go_steps steps)
    | ESizeOf t => HSizeOf t
    | ECall b n args => HCall b n args (go_list args)
    end.
End expr_ind2.

Lemma stopl_inv lv nb k : stopl lv nb k = true ->
  pstop nb k = true /\ (3 <= lv -> isAs k = false) /\ (4 <= lv -> mulop_of k = None) /\
  (5 <= lv -> addop_of k = None /\ bitop_of k = None /\ shiftop_of k = None).
Proof.
  unfold stopl. intros H.
  apply andb_prop in H as [H H5]. apply andb_prop in H as [H H4]. apply andb_prop in H as [Hp H3].
  split; [exact Hp|]. split; [|split]; intros Hle; apply Nat.ltb_ge in Hle.
  - rewrite Hle in H3. now destruct (isAs k).
  - rewrite Hle in H4. now destruct (mulop_of k).
  - rewrite Hle in H5. destruct (addop_of k), (bitop_of k), (shiftop_of k); try discriminate H5; auto.
Qed.

Lemma stopl_intro lv nb k :
  pstop nb k = true -> (3 <= lv -> isAs k = false) -> (4 <= lv -> mulop_of k = None) ->
  (5 <= lv -> addop_of k = None /\ bitop_of k = None /\ shiftop_of k = None) ->
  stopl lv nb k = true.
Proof.
  intros Hp H3 H4 H5. unfold stopl. rewrite Hp.
  destruct (Nat.ltb_spec lv 3) as [_|G3]; [|rewrite (H3 G3)];
    (destruct (Nat.ltb_spec lv 4) as [_|G4]; [|rewrite (H4 G4)]);
    (destruct (Nat.ltb_spec lv 5) as [_|G5]; [|destruct (H5 G5) as (-> & -> & ->)]); reflexivity.
Qed.

Lemma stopl_mono lv lv' nb k : lv <= lv' -> stopl lv' nb k = true -> stopl lv nb k = true.
Proof.
  intros Hle H. apply stopl_inv in H as (Hp & H3 & H4 & H5).
  apply stopl_intro; [exact Hp|intros G; apply H3|intros G; apply H4|intros G; apply H5]; lia.
Qed.

Lemma stopl_pstop lv nb k : stopl lv nb k = true -> pstop nb k = true.
Proof. intros H. apply stopl_inv in H. apply H. Qed.

Lemma stopl5_top nb e k : stopl 5 nb k = true -> top_stop nb e k = true.
Proof.
  intros H. pose proof H as H'. apply stopl_inv in H' as (Hp & _ & _ & H5).
  destruct (H5 (le_n 5)) as (_ & Hb & _).
  destruct e; cbn [top_stop]; try exact H. destruct op; try exact H; rewrite Hp; cbn [andb];
    try reflexivity; unfold same_bitop; rewrite Hb; reflexivity.
Qed.

Lemma stopl5_redge nb e k : stopl 5 nb k = true -> redge nb e k = true.
Proof.
  intros H. induction e; cbn [redge]; try reflexivity; try assumption.
  destruct op; try assumption. rewrite IHe2. now apply stopl5_top.
Qed.

Lemma stopl5_estop nb e k : stopl 5 nb k = true -> estop nb e k = true.
Proof. intros H. unfold estop. now rewrite stopl5_redge, stopl5_top. Qed.

(* What follows the text of [e] read at level [lv]: the first token of [R] does not continue
   that level, and stops the `..` offsets at the right edge of [e]. *)
Definition okf (lv : nat) (nb : bool) (e : expr) (R : list tok) : bool :=
  stopl lv nb (hdk R) && redge nb e (hdk R).

Lemma okf_full lv nb e R : lv <= 5 -> stopl 5 nb (hdk R) = true -> okf lv nb e R = true.
Proof.
  intros Hle H. unfold okf. now rewrite (stopl_mono lv 5 nb _ Hle H), (stopl5_redge nb e _ H).
Qed.

Lemma top_stop_low nb e k : lvl e <= 4 -> top_stop nb e k = stopl 5 nb k.
Proof.
  intros Hl. destruct e; cbn [top_stop]; try reflexivity.
  destruct op; cbn [lvl] in Hl; try lia; reflexivity.
Qed.

Lemma stopl_1 nb k : stopl 1 nb k = pstop nb k.
Proof. unfold stopl. cbn [Nat.ltb Nat.leb orb]. now rewrite !andb_true_r. Qed.

Lemma pstop_inv nb k : pstop nb k = true ->
  isBracketLeft k = false /\ isDot k = false /\ isParenLeft k = false /\
  (isBraceLeft k && negb nb) = false /\ isString k = false /\ isDots k = false.
Proof.
  unfold pstop. intros H. apply negb_true_iff in H.
  repeat (apply orb_false_iff in H as [H ?]). auto 10.
Qed.

Lemma bitop_cases op : bitop_of (kind_of_binop op) = Some op ->
  op = BitwiseAnd \/ op = BitwiseOr \/ op = BitwiseXor.
Proof. destruct op; cbn; intros H; try discriminate; auto. Qed.

(* A bitwise operator ends every operand below the top level. *)
Lemma bitop_stopl op nb : bitop_of (kind_of_binop op) = Some op ->
  stopl 4 nb (kind_of_binop op) = true.
Proof. intros H. destruct (bitop_cases op H) as [->|[->| ->]]; destruct nb; reflexivity. Qed.

Lemma loop_stop lv nb e R :
  stopl (S lv) nb (hdk R) = true -> conv (fun f => loop_lv lv f nb e R) (e, R).
Proof.
  intros H. apply stopl_inv in H as (_ & H3 & H4 & H5).
  destruct lv as [|[|[|[|[|lv]]]]]; cbn [loop_lv]; try apply conv_ret.
  - step as_loop_S. rewrite (H3 (le_n 3)). apply conv_ret.
  - step mul_loop_S. rewrite (H4 (le_n 4)). apply conv_ret.
  - destruct (H5 (le_n 5)) as (Ha & Hb & Hs). step add_loop_S. rewrite Ha, Hb, Hs. apply conv_ret.
Qed.

(* Reading the text of [e] at grammar level [lv] comes down to running the loop of
   that level on [e], when the next token continues no loop below [lv] and stops the `..`
   offsets at the right edge of [e]: in this form a left-associative chain hands its
   accumulator on. *)
Definition PL lv nb e := forall R x,
  stopl lv nb (hdk R) = true -> redge nb e (hdk R) = true ->
  conv (fun f => loop_lv lv f nb e R) x ->
  conv (fun f => parse_lv lv f nb (print_expr e ++ R)) x.

(* The whole-expression parser gives the text of [e] back (level 5: a bitwise chain or a shift
   may be on top). *)
Definition P5 nb e := forall R, estop nb e (hdk R) = true ->
  conv (fun f => parse_addition f nb (print_expr e ++ R)) (e, R).

(* [e] may be the left operand of the bitwise operator [op]. *)
Definition chain_ok (op : binop) (e : expr) : bool :=
  match e with EBinary op' _ _ => binop_eqb op op' | _ => (lvl e <=? 2)%nat end.

(* [PL] for a left operand of [op]: reading its text up to the operator comes down to running
   bit_loop on it. *)
Definition PC nb e := forall op T x,
  bitop_of (kind_of_binop op) = Some op -> chain_ok op e = true ->
  redge nb e (kind_of_binop op) = true ->
  conv (fun f => bit_loop f nb op e T) x ->
  conv (fun f => parse_addition f nb (print_expr e ++ tk (kind_of_binop op) :: T)) x.

(* The steps of a reference expression parse back: `&x[i] .. off` needs it of its left operand,
   which parse_primary reads as a reference, not as an expression. *)
Definition PD nb e :=
  match e with EDeref (Ref _ _ steps) => Forall (step_P (P5 nb)) steps | _ => True end.

(* What the induction of [expr_all] carries for [e]. *)
Record Pall nb e : Prop := {
  all_PL : forall lv, lvl e <= lv -> lv <= 4 -> PL lv nb e;
  all_P5 : P5 nb e;
  all_PC : PC nb e;
  all_PD : PD nb e }.

(* The tokens that start a primary expression, a unary expression, any expression. *)
Definition pstart (k : tkind) : bool :=
  match k with
  | KNakedDecimal | KBitInteger | KSuffixedInteger | KCharLiteral | KBool | KStringLiteral
  | KIdentifier | KBuiltin | KAmpersand | KBracketLeft | KParenLeft => true
  | _ => false
  end.

Definition ustart (k : tkind) : bool := pstart k || unary_op k.

Definition estart (k : tkind) : bool := ustart k || isCast k.

Lemma pstart_not_op k : pstart k = true -> unary_op k = false.
Proof. destruct k; cbn; intros H; try discriminate H; reflexivity. Qed.

Lemma ustart_nocast k : ustart k = true -> isCast k = false.
Proof. destruct k; cbn; intros H; try reflexivity; discriminate. Qed.

Lemma primary_start f nb ts x : parse_primary f nb ts = Some x -> pstart (hdk ts) = true.
Proof.
  destruct f as [|f]; [discriminate|]. rewrite parse_primary_S.
  destruct ts as [|t ts1]; [discriminate|]. cbn [hdk]. destruct (kind t); try discriminate; reflexivity.
Qed.

Lemma unary_start f nb ts x : parse_unary f nb ts = Some x -> ustart (hdk ts) = true.
Proof.
  destruct f as [|f]; [discriminate|]. unfold ustart.
  destruct (unary_op (hdk ts)) eqn:E; [intros _; apply orb_true_r|].
  rewrite (parse_unary_prim f nb ts E). intros H. now rewrite (primary_start _ _ _ _ H).
Qed.

Lemma expr_start f nb ts x : parse_addition f nb ts = Some x -> estart (hdk ts) = true.
Proof.
  destruct f as [|[|[|f]]]; try discriminate. rewrite parse_addition_S, parse_multiplication_S.
  destruct (parse_singular (S f) nb ts) as [s|] eqn:Es; [intros _|discriminate].
  rewrite parse_singular_S in Es. unfold estart. destruct (isCast (hdk ts)); [apply orb_true_r|].
  destruct (parse_unary f nb ts) as [y|] eqn:Eu; [|discriminate Es]. now rewrite (unary_start _ _ _ _ Eu).
Qed.

Lemma conv_some {A : Type} (p : nat -> option A) (x : A) : conv p x -> exists f, p f = Some x.
Proof. intros [n Hn]. exists n. apply Hn, le_n. Qed.

(* When the next token continues no loop up to [lv], the parser of level [lv] gives [e] back. *)
Lemma PL_read lv nb e R :
  PL lv nb e -> stopl (S lv) nb (hdk R) = true -> redge nb e (hdk R) = true ->
  conv (fun f => parse_lv lv f nb (print_expr e ++ R)) (e, R).
Proof.
  intros H Hst Hed.
  apply H; [exact (stopl_mono _ _ nb _ (Nat.le_succ_diag_r lv) Hst)|exact Hed|apply loop_stop, Hst].
Qed.

(* The parser of level [S lv] calls that of level [lv] and then its own loop. *)
Lemma lift lv nb e : lv <= 3 -> PL lv nb e -> PL (S lv) nb e.
Proof.
  intros H3 H R x Hst Hed Hloop. pose proof (PL_read lv nb e R H Hst Hed) as Hp.
  destruct (conv_some _ _ Hp) as [f0 Hf0].
  destruct lv as [|[|[|[|lv]]]]; [| | | |lia].
  - (* level 1 has no loop: [Hloop] says x = (e, R) *)
    destruct (conv_inj _ _ _ (conv_ret (e, R)) Hloop).
    eapply conv_step; [|exact Hp]. intro f.
    exact (parse_unary_prim _ _ _ (pstart_not_op _ (primary_start _ _ _ _ Hf0))).
  - step parse_singular_S. crw (ustart_nocast _ (unary_start _ _ _ _ Hf0)).
    bind Hp. exact Hloop.
  - step parse_multiplication_S. bind Hp. exact Hloop.
  - step parse_addition_S. bind Hp. exact Hloop.
Qed.

Lemma PL_le nb e lv lv' : lv <= lv' -> lv' <= 4 -> PL lv nb e -> PL lv' nb e.
Proof.
  intros Hle. induction Hle as [|m Hle IH]; intros H4 H; [exact H|].
  apply lift; [lia|apply IH; [lia|exact H]].
Qed.

Lemma PL4_P5 nb e : lvl e <= 4 -> PL 4 nb e -> P5 nb e.
Proof.
  intros Hl H4 R Hes. unfold estop in Hes. apply andb_prop in Hes as [Hre Hstop].
  rewrite (top_stop_low nb e _ Hl) in Hstop.
  exact (PL_read 4 nb e R H4 Hstop Hre).
Qed.

Lemma nonbinary_lvl e : is_binary e = false -> lvl e <= 2.
Proof. destruct e; cbn [is_binary lvl]; intros H; try discriminate H; try lia. destruct (v <? 0)%Z; lia. Qed.

Lemma PC_nonbinary nb e : is_binary e = false -> (lvl e <= 2 -> PL 4 nb e) -> PC nb e.
Proof.
  intros Hnb H4 op T x Hop Hch Hradv Hloop.
  assert (Hl : lvl e <= 2) by (destruct e; try discriminate Hnb; apply Nat.leb_le, Hch).
  apply (H4 Hl); [exact (bitop_stopl op nb Hop)|exact Hradv|].
  step add_loop_S. crw Hop. crw Hnb. exact Hloop.
Qed.

Lemma lvl_le5 e : lvl e <= 5.
Proof. destruct e; cbn [lvl]; try lia. - destruct op; lia. - destruct (v <? 0)%Z; lia. Qed.

(* What has to be shown of [e] itself: the claim of its own level; the rest follows. *)
Lemma Pall_build nb e :
  (lvl e <= 4 -> PL (lvl e) nb e) -> (lvl e = 5 -> P5 nb e) ->
  (is_binary e = true -> PC nb e) -> PD nb e ->
  Pall nb e.
Proof.
  intros HL H5 HC HD.
  assert (A : forall lv, lvl e <= lv -> lv <= 4 -> PL lv nb e).
  { intros lv Hl H4. apply (PL_le nb e (lvl e)); auto. apply HL. lia. }
  split; [exact A| | |exact HD].
  - destruct (Nat.eq_dec (lvl e) 5) as [E|E]; [now apply H5|].
    pose proof (lvl_le5 e). apply PL4_P5; [lia|apply A; lia].
  - destruct (is_binary e) eqn:Eb; [now apply HC|].
    apply PC_nonbinary; [exact Eb|]. intros Hl. apply A; lia.
Qed.

Lemma Pall_nonbinary nb e : is_binary e = false -> PD nb e -> PL (lvl e) nb e -> Pall nb e.
Proof.
  intros Hb HD HL. pose proof (nonbinary_lvl e Hb) as Hl.
  apply Pall_build; auto; [intros E; lia|rewrite Hb; discriminate].
Qed.

Lemma conv_not_close nb ts x : conv (fun f => parse_addition f nb ts) x ->
  isParenRight (hdk ts) = false /\ isBracketRight (hdk ts) = false /\ isBraceRight (hdk ts) = false /\
  isElse (hdk ts) = false.
Proof.
  intros H. destruct (conv_some _ _ H) as [f Hf]. apply expr_start in Hf.
  destruct (hdk ts); try discriminate Hf; auto.
Qed.

(* The printed text as one right-nested list, first token at the head. *)
Ltac appnorm := repeat (rewrite <- ?app_assoc, <- ?app_comm_cons).

(* A separator or closing token ends any expression. *)
Lemma stop_tk nb e k R : (forall nb', stopl 5 nb' k = true) -> estop nb e (hdk (tk k :: R)) = true.
Proof. intros H. apply stopl5_estop, H. Qed.

(* [bind] for an expression followed by such a token. *)
Ltac bind5 H :=
  eapply conv_bind; [eapply H; apply stop_tk; intros []; reflexivity | ]; tkred.

Lemma print_sep_cons {A : Type} (f : A -> list tok) x y l R :
  print_sep f (x :: y :: l) ++ R = f x ++ tk KComma :: print_sep f (y :: l) ++ R.
Proof. cbn [print_sep flat_map]. now rewrite <- !app_assoc. Qed.

(* expr_list on a text that starts with an expression: the closing token is not there. *)
Lemma expr_list_item nb br ts x r y :
  conv (fun f => parse_addition f nb ts) (x, r) ->
  conv (fun f => if isComma (hdk r)
                 then match expr_list f nb br (tl r) with
                      | Some (es, ts2) => Some (x :: es, ts2)
                      | None => None
                      end
                 else Some ([x], r)) y ->
  conv (fun f => expr_list f nb br ts) y.
Proof.
  intros Hx Hy. step expr_list_S. destruct (conv_not_close _ _ _ Hx) as (E1 & E2 & _).
  replace (is_close br (hdk ts)) with false by (destruct br; auto). bind Hx. exact Hy.
Qed.

Lemma expr_list_cons nb br x es X Y :
  P5 nb x -> conv (fun f => expr_list f nb br X) (es, Y) ->
  conv (fun f => expr_list f nb br (print_expr x ++ tk KComma :: X)) (x :: es, Y).
Proof.
  intros Hx Hes. eapply expr_list_item; [apply Hx, stop_tk; intros []; reflexivity|].
  tkred. bind Hes. apply conv_ret.
Qed.

Lemma expr_list_sep nb R es :
  Forall (P5 nb) es ->
  conv (fun f => expr_list f nb false (print_sep print_expr es ++ tk KParenRight :: R))
       (es, tk KParenRight :: R).
Proof.
  induction 1 as [|x xs Hx _ IH].
  - cbn [print_sep app]. step expr_list_S. apply conv_ret.
  - destruct xs as [|y ys].
    + cbn [print_sep flat_map]. appnorm.
      eapply expr_list_item; [apply Hx, stop_tk; intros []; reflexivity|].
      tkred. apply conv_ret.
    + rewrite print_sep_cons. exact (expr_list_cons _ _ _ _ _ _ Hx IH).
Qed.

Lemma expr_list_trail nb es R :
  Forall (P5 nb) es ->
  conv (fun f => expr_list f nb true
                   (flat_map (fun e => print_expr e ++ [tk KComma]) es ++ tk KBracketRight :: R))
       (es, tk KBracketRight :: R).
Proof.
  induction 1 as [|x xs Hx _ IH].
  - cbn [flat_map app]. step expr_list_S. apply conv_ret.
  - cbn [flat_map]. appnorm. exact (expr_list_cons _ _ _ _ _ _ Hx IH).
Qed.

Lemma members_loop_ok ms R :
  Forall (fun me => P5 false (snd me)) ms ->
  conv (fun f => members_loop f false
     (flat_map (fun me => let '(m, e) := me in tk_id m :: tk KColon :: print_expr e ++ [tk KComma]) ms
      ++ tk KBraceRight :: R))
     (ms, tk KBraceRight :: R).
Proof.
  induction ms as [|[m e] ms IH]; intros Hms.
  - cbn [flat_map app]. step members_loop_S. apply conv_ret.
  - inversion Hms as [|? ? Hx Hxs]; subst. cbn [snd] in *. cbn [flat_map]. appnorm.
    step members_loop_S. bind5 Hx. bind (IH Hxs). crw_name. apply conv_ret.
Qed.

Lemma steps_loop_ok nb steps :
  Forall (step_P (P5 nb)) steps ->
  forall k R, k + length steps <= MAX_REFERENCE_DEPTH ->
  isBracketLeft (hdk R) = false -> isDot (hdk R) = false ->
  conv (fun f => steps_loop f nb k (flat_map print_step steps ++ R)) (steps, R).
Proof.
  induction steps as [|s ss IH]; intros Hss k R Hk HB HD.
  - cbn [flat_map app]. step steps_loop_S. rewrite HB, HD. apply conv_ret.
  - inversion Hss as [|? ? Hs Hss']; subst. cbn [length] in Hk.
    assert (El : (MAX_REFERENCE_DEPTH <? S k) = false)
      by (apply Nat.ltb_ge; lia).
    destruct s as [e|m]; cbn [flat_map print_step]; appnorm.
    + step steps_loop_S. bind5 Hs.
      rewrite El. bind (IH Hss' (S k) R ltac:(lia) HB HD). apply conv_ret.
    + step steps_loop_S. rewrite El. bind (IH Hss' (S k) R ltac:(lia) HB HD).
      crw_name. apply conv_ret.
Qed.

Lemma count_amps_repeat n b X :
  count_amps (repeat (tk KAmpersand) n ++ tk_id b :: X) = (N.of_nat n, tk_id b :: X).
Proof.
  induction n as [|n IH].
  - reflexivity.
  - cbn [repeat app count_amps]. tkred. rewrite IH. now rewrite Nat2N.inj_succ.
Qed.

Lemma parse_reference_ok nb d b steps R :
  Forall (step_P (P5 nb)) steps ->
  (d <=? MAX_ADDRESS_DEPTH)%N = true -> (length steps <=? MAX_REFERENCE_DEPTH) = true ->
  isBracketLeft (hdk R) = false -> isDot (hdk R) = false ->
  conv (fun f => parse_reference f nb (print_ref (Ref d b steps) ++ R)) (Ref d b steps, R).
Proof.
  intros Hss Hd Hl HB HD. cbn [print_ref]. appnorm. step parse_reference_S.
  rewrite count_amps_repeat, N2Nat.id.
  assert (E : (MAX_ADDRESS_DEPTH <? d)%N = false) by (apply N.ltb_ge; now apply N.leb_le).
  rewrite E. tkred. apply Nat.leb_le in Hl.
  bind (steps_loop_ok nb steps Hss 0 R ltac:(lia) HB HD). crw_name. apply conv_ret.
Qed.

Lemma print_ref_succ d b steps :
  (1 <=? d)%N = true ->
  print_ref (Ref d b steps) = tk KAmpersand :: print_ref (Ref (N.pred d) b steps).
Proof.
  intros Hd. apply N.leb_le in Hd. cbn [print_ref].
  replace (N.to_nat d) with (S (N.to_nat (N.pred d))) by lia. reflexivity.
Qed.

(* The text of a reference with at least one `&`, its first `&` taken off. *)
Lemma parse_addressed_reference_ok nb d b steps R :
  Forall (step_P (P5 nb)) steps -> wf_ref nb (Ref d b steps) = true -> (1 <=? d)%N = true ->
  isBracketLeft (hdk R) = false -> isDot (hdk R) = false ->
  conv (fun f => parse_addressed_reference f nb (print_ref (Ref (N.pred d) b steps) ++ R))
       (Ref d b steps, R).
Proof.
  intros Hss Hr Ed HB HD. unfold parse_addressed_reference.
  cbn [wf_ref] in Hr. apply andb_prop in Hr as [Hr _]. apply andb_prop in Hr as [Hd Hlen].
  apply N.leb_le in Ed. pose proof Hd as Hd2. apply N.leb_le in Hd2.
  bind (parse_reference_ok nb (N.pred d) b steps R Hss).
  - apply N.leb_le. lia.
  - exact Hlen.
  - exact HB.
  - exact HD.
  - replace (N.pred d + 1)%N with d by lia.
    assert (E : (MAX_ADDRESS_DEPTH <? d)%N = false) by (apply N.ltb_ge; exact Hd2).
    rewrite E. apply conv_ret.
Qed.

Lemma primary_literal f nb t e R :
  literal_of t = Some e -> parse_primary (S f) nb (t :: R) = Some (e, R).
Proof.
  intros H. rewrite parse_primary_S. pose proof H as H'. unfold literal_of in H'.
  destruct (kind t) eqn:K; try discriminate H'; rewrite H; reflexivity.
Qed.

Lemma primary_literal_conv nb t e R :
  literal_of t = Some e -> conv (fun f => parse_primary f nb (t :: R)) (e, R).
Proof.
  intros H. eapply conv_step; [intro f; apply primary_literal; exact H|]. apply conv_ret.
Qed.

Lemma literal_bool (b : bool) : literal_of (mk KBool (if b then 1 else 0)%Z None []) = Some (EBool b).
Proof. destruct b; reflexivity. Qed.

Lemma literal_sint v t :
  (v <=? i128_max)%Z = true -> lit_type_ok_signed t = true ->
  literal_of (tk_sint v t) = Some (ESigned v t).
Proof.
  intros Hm Ht. destruct t as [p|]; unfold literal_of, tk_sint; cbn [kind value vtype mk].
  - cbn [lit_type_ok_signed] in Ht. rewrite Ht, Hm. reflexivity.
  - rewrite Hm. reflexivity.
Qed.

Lemma literal_bits v t :
  lit_type_ok_bits v t = true -> literal_of (tk_bits v t) = Some (EBits v t).
Proof.
  intros Ht. destruct t as [p|]; [|reflexivity].
  destruct p; cbn [lit_type_ok_bits prim_signed] in Ht; try discriminate Ht;
    unfold literal_of, tk_bits; cbn [kind value vtype mk prim_signed andb]; try reflexivity;
    apply Z.ltb_lt in Ht; (replace (v <=? i128_max)%Z with false by (symmetry; apply Z.leb_gt; exact Ht));
    reflexivity.
Qed.

Lemma literal_min t :
  literal_of (tk_sint i128_min_abs t) = Some (EBits i128_min_abs t).
Proof. destruct t as [p|]; [destruct p|]; reflexivity. Qed.

Lemma take_strings_stop R : isString (hdk R) = false -> take_strings R = ([], R).
Proof. destruct R as [|t r]; cbn [hdk take_strings]; [reflexivity|]. intros ->. reflexivity. Qed.

Lemma PL_literal nb t e : literal_of t = Some e -> print_expr e = [t] -> PL 0 nb e.
Proof.
  intros Hlit Hpr R x _ _ Hloop. rewrite Hpr. cbn [app].
  eapply conv_step; [intro f; apply primary_literal; exact Hlit|]. exact Hloop.
Qed.

Lemma PL_string nb bs : PL 0 nb (EString bs).
Proof.
  intros R x Hst _ Hloop.
  destruct (pstop_inv _ _ (stopl_pstop _ _ _ Hst)) as (_ & _ & _ & _ & HS & _).
  cbn [print_expr app]. step parse_primary_body. rewrite (take_strings_stop R HS), app_nil_r.
  exact Hloop.
Qed.

(* The left-associative operators: level 3 (times, divide, modulo) and level 4 (plus, minus). *)
Lemma PL_binop nb op l r lv :
  lvl (EBinary op l r) = lv -> 3 <= lv <= 4 ->
  PL lv nb l -> PL (lv - 1) nb r -> redge nb l (kind_of_binop op) = true -> PL lv nb (EBinary op l r).
Proof.
  intros <- Hlv Hl Hr Hrl R x Hst Hed Hloop. cbn [print_expr]. appnorm.
  destruct op; cbn [lvl] in *; try lia;
    (apply Hl; [destruct nb; reflexivity|exact Hrl|]; first [step mul_loop_S|step add_loop_S];
     bind (PL_read _ nb r R Hr Hst Hed);
     exact Hloop).
Qed.

Lemma binop_eqb_eq a b : binop_eqb a b = true -> a = b.
Proof. destruct a, b; cbn; intros H; try discriminate; reflexivity. Qed.

Lemma same_bitop_self op : bitop_of (kind_of_binop op) = Some op ->
  same_bitop op (kind_of_binop op) = true.
Proof. intros H. destruct (bitop_cases op H) as [->|[->| ->]]; reflexivity. Qed.

Lemma PC_vac nb op l r : bitop_of (kind_of_binop op) = None -> PC nb (EBinary op l r).
Proof.
  intros H op' T x Hop Hch. cbn [chain_ok] in Hch. apply binop_eqb_eq in Hch. congruence.
Qed.

Lemma bin_bit nb op l r :
  bitop_of (kind_of_binop op) = Some op ->
  PC nb l -> PL 1 nb r -> chain_ok op l = true -> redge nb l (kind_of_binop op) = true ->
  Pall nb (EBinary op l r).
Proof.
  intros Hop Hl Hr Hch Hrl. apply Pall_build; [ |intros _|intros _|exact I].
  - destruct (bitop_cases op Hop) as [->|[->| ->]]; cbn [lvl]; lia.
  - intros R Hes. cbn [print_expr]. appnorm. apply Hl; auto.
    assert (Hes' : redge nb r (hdk R) = true /\ pstop nb (hdk R) = true /\ same_bitop op (hdk R) = false).
    { unfold estop in Hes. destruct (bitop_cases op Hop) as [->|[->| ->]];
        cbn [redge top_stop] in Hes; apply andb_prop in Hes as [H1 H2];
        apply andb_prop in H2 as [H2 H3]; apply negb_true_iff in H3; auto. }
    destruct Hes' as (H1 & H2 & H3).
    step bit_loop_S. bind (Hr R (r, R) (eq_trans (stopl_1 nb _) H2) H1 (conv_ret _)).
    rewrite H3. apply conv_ret.
  - intros op2 T x Hop2 Hch2 Hradv Hloop. cbn [chain_ok] in Hch2.
    apply binop_eqb_eq in Hch2. subst op2. cbn [print_expr]. appnorm. apply Hl; auto.
    step bit_loop_S.
    bind (Hr (tk (kind_of_binop op) :: T) (r, tk (kind_of_binop op) :: T)); [| |apply conv_ret|].
    { apply (stopl_mono 1 4); [lia|exact (bitop_stopl op nb Hop)]. }
    { destruct (bitop_cases op Hop) as [->|[->| ->]]; exact Hradv. }
    rewrite (same_bitop_self op Hop). exact Hloop.
Qed.

Lemma bin_shift nb op l r :
  op = ShiftLeft \/ op = ShiftRight ->
  PL 4 nb l -> PL 1 nb r -> is_binary l = false -> redge nb l (kind_of_binop op) = true ->
  P5 nb (EBinary op l r).
Proof.
  intros Hop Hl Hr Hnb Hrl R Hes. cbn [print_expr]. appnorm.
  assert (Hes' : redge nb r (hdk R) = true /\ pstop nb (hdk R) = true).
  { unfold estop in Hes. destruct Hop as [-> | ->]; cbn [redge top_stop] in Hes;
      apply andb_prop in Hes as [H1 H2]; auto. }
  destruct Hes' as (H1 & H2).
  pose proof (Hr R (r, R) (eq_trans (stopl_1 nb _) H2) H1 (conv_ret _)) as Hr'.
  destruct Hop as [-> | ->];
    (apply Hl; [destruct nb; reflexivity|exact Hrl|]; step add_loop_S; rewrite Hnb; bind Hr'; apply conv_ret).
Qed.

(* The `&` production of parse_primary is parse_addressed_reference followed by the
   optional `.. offset`. *)
Lemma parse_primary_amp f nb t ts :
  kind t = KAmpersand ->
  parse_primary (S f) nb (t :: ts) =
    match parse_addressed_reference f nb ts with
    | Some (r, ts2) =>
        if isDots (hdk ts2) then
          match parse_addition f nb (tl ts2) with
          | Some (off, ts3) => Some (EBinary AdvancePointer (EDeref r) off, ts3)
          | None => None
          end
        else Some (EDeref r, ts2)
    | None => None
    end.
Proof.
  intros K. rewrite parse_primary_S, K. unfold parse_addressed_reference.
  destruct (parse_reference f nb ts) as [[[d b steps] ts2]|]; [|reflexivity].
  destruct (MAX_ADDRESS_DEPTH <? d + 1)%N; reflexivity.
Qed.

Lemma amp_primary nb d b steps R x :
  Forall (step_P (P5 nb)) steps -> wf_ref nb (Ref d b steps) = true -> (1 <=? d)%N = true ->
  isBracketLeft (hdk R) = false -> isDot (hdk R) = false ->
  conv (fun f =>
          if isDots (hdk R) then
            match parse_addition f nb (tl R) with
            | Some (off, ts3) => Some (EBinary AdvancePointer (EDeref (Ref d b steps)) off, ts3)
            | None => None
            end
          else Some (EDeref (Ref d b steps), R)) x ->
  conv (fun f => parse_primary f nb (print_ref (Ref d b steps) ++ R)) x.
Proof.
  intros Hss Hwf Hd HB HD Hk. rewrite (print_ref_succ d b steps Hd). appnorm.
  eapply conv_step; [intro f; apply parse_primary_amp; reflexivity|].
  bind (parse_addressed_reference_ok nb d b steps R Hss Hwf Hd HB HD). exact Hk.
Qed.

(* The text of the steps starts with `[`, `.` or, when there are none, the first token of [R]. *)
Lemma steps_hd (p : tkind -> bool) steps R :
  p KBracketLeft = false -> p KDot = false -> p (hdk R) = false ->
  p (hdk (flat_map print_step steps ++ R)) = false.
Proof. intros H1 H2 H3. destruct steps as [|[e|m] ss]; assumption. Qed.

Lemma PL_deref nb d b steps :
  Forall (step_P (P5 nb)) steps -> wf_ref nb (Ref d b steps) = true ->
  PL 0 nb (EDeref (Ref d b steps)).
Proof.
  intros Hss Hwf R x Hst _ Hloop. pose proof (stopl_pstop _ _ _ Hst) as Hok.
  destruct (pstop_inv _ _ Hok) as (HB & HD & HP & HBr & HS & HDots).
  cbn [print_expr]. destruct (1 <=? d)%N eqn:Ed.
  - apply amp_primary; auto. rewrite HDots. exact Hloop.
  - apply N.leb_gt in Ed. assert (d = 0%N) by lia. subst d.
    cbn [print_ref N.to_nat repeat app]. step parse_primary_body.
    rewrite (steps_hd isParenLeft steps R eq_refl eq_refl HP),
      (steps_hd (fun k => isBraceLeft k && negb nb) steps R eq_refl eq_refl HBr).
    cbn [wf_ref] in Hwf. apply andb_prop in Hwf as [Hwf _]. apply andb_prop in Hwf as [_ Hlen].
    apply Nat.leb_le in Hlen.
    bind (steps_loop_ok nb steps Hss 0 R ltac:(lia) HB HD). crw_name. exact Hloop.
Qed.

Lemma PL_advance nb d b steps r :
  Forall (step_P (P5 nb)) steps -> wf_ref nb (Ref d b steps) = true -> (1 <=? d)%N = true ->
  P5 nb r ->
  PL 0 nb (EBinary AdvancePointer (EDeref (Ref d b steps)) r).
Proof.
  intros Hss Hwf Hd Hr R x _ Hok Hloop. cbn [redge] in Hok.
  cbn [print_expr]. appnorm. apply amp_primary; auto. tkred.
  bind (Hr R Hok). exact Hloop.
Qed.

Lemma PL_call nb b n args : Forall (P5 nb) args -> PL 0 nb (ECall b n args).
Proof.
  intros Hargs R x _ _ Hloop. cbn [print_expr]. appnorm. step parse_primary_body.
  destruct b; tkred;
    (bind (expr_list_sep nb R args Hargs); crw_name; exact Hloop).
Qed.

Lemma PL_array nb es : Forall (P5 nb) es -> PL 0 nb (EArray es).
Proof.
  intros Hes R x _ _ Hloop. cbn [print_expr]. appnorm. step parse_primary_body.
  bind (expr_list_trail nb es R Hes). exact Hloop.
Qed.

Lemma PL_structural n ms :
  Forall (fun me => P5 false (snd me)) ms -> PL 0 false (EStructural n ms).
Proof.
  intros Hms R x _ _ Hloop. cbn [print_expr]. appnorm. step parse_primary_body.
  bind (members_loop_ok ms R Hms). crw_name. exact Hloop.
Qed.

Lemma PL_paren nb e : P5 nb e -> PL 0 nb (EParen e).
Proof.
  intros He R x _ _ Hloop. cbn [print_expr]. appnorm. step parse_primary_body.
  bind5 He. exact Hloop.
Qed.

Lemma PL_neg_literal nb v t :
  (v <? 0)%Z = true -> (- i128_max <=? v)%Z = true -> lit_type_ok_signed t = true ->
  PL 1 nb (ESigned v t).
Proof.
  intros Hneg Hmin Ht R x _ _ Hloop. cbn [print_expr]. rewrite Hneg. cbn [app]. step parse_unary_body.
  apply Z.ltb_lt in Hneg. apply Z.leb_le in Hmin.
  assert (Hlit : literal_of (tk_sint (- v) t) = Some (ESigned (- v) t)).
  { apply literal_sint; [apply Z.leb_le; lia | exact Ht]. }
  bind (primary_literal_conv nb _ _ R Hlit).
  replace (0 <? - v)%Z with true by (symmetry; apply Z.ltb_lt; lia).
  rewrite Z.opp_involutive. exact Hloop.
Qed.

(* -2^127: the printed magnitude is a bit literal, which `-` folds back. *)
Lemma PL_min_literal nb t : PL 1 nb (ESigned (- i128_min_abs) t).
Proof.
  intros R x _ _ Hloop. cbn [print_expr]. change (- i128_min_abs <? 0)%Z with true. cbn [app].
  step parse_unary_body. rewrite Z.opp_involutive.
  bind (primary_literal_conv nb _ _ R (literal_min t)).
  change (i128_min_abs =? i128_min_abs)%Z with true. exact Hloop.
Qed.

Lemma PL_unary nb op e :
  PL 0 nb e -> (match op with Negative => negb (is_pos_signed e) | BitwiseComplement => true end) = true ->
  PL 1 nb (EUnary op e).
Proof.
  intros He Hop R x Hst Hed Hloop. cbn [print_expr]. cbn [app]. step parse_unary_body.
  pose proof (PL_read 0 nb e R He Hst Hed) as He'.
  destruct op; tkred; bind He'; [|exact Hloop].
  destruct e; try exact Hloop;
    cbn [is_pos_signed] in Hop; apply negb_true_iff in Hop; rewrite Hop; exact Hloop.
Qed.

Lemma PL_length nb d b steps :
  Forall (step_P (P5 nb)) steps -> wf_ref nb (Ref d b steps) = true ->
  PL 1 nb (ELength (Ref d b steps)).
Proof.
  intros Hss Hwf R x _ _ Hloop. cbn [wf_ref] in Hwf.
  apply andb_prop in Hwf as [Hwf _]. apply andb_prop in Hwf as [Hd Hlen].
  cbn [print_expr]. appnorm. step parse_unary_body.
  bind (parse_reference_ok nb d b steps (tk KPipe :: R) Hss Hd Hlen eq_refl eq_refl).
  exact Hloop.
Qed.

Lemma PL_sizeof nb t : ty_ok t = true -> PL 1 nb (ESizeOf t).
Proof.
  intros Ht R x _ _ Hloop. cbn [print_expr]. appnorm. step parse_unary_body.
  bind (parse_print_type t Ht (tk KPipe :: R)). exact Hloop.
Qed.

Lemma PL_bitcast nb e : PL 1 nb e -> PL 2 nb (EBitCast e).
Proof.
  intros He R x Hst Hed Hloop. cbn [print_expr app]. step parse_singular_S.
  bind (PL_read 1 nb e R He Hst Hed). exact Hloop.
Qed.

Lemma PL_typecast nb e t :
  PL 2 nb e -> redge nb e KAs = true -> ty_ok t = true -> PL 2 nb (ETypeCast e t).
Proof.
  intros He Hre Ht R x _ _ Hloop. cbn [print_expr]. appnorm.
  apply He; [destruct nb; reflexivity|exact Hre|].
  step as_loop_S. bind (parse_print_type t Ht R). exact Hloop.
Qed.

Lemma Forall_forallb {A : Type} (p : A -> bool) (P Q : A -> Prop) l :
  (forall a, P a -> p a = true -> Q a) -> Forall P l -> forallb p l = true -> Forall Q l.
Proof.
  intros HPQ HP Hp. exact (Forall_mp _ _ _ (Forall_impl _ HPQ HP) (proj1 (forallb_Forall p l) Hp)).
Qed.

(* The induction hypothesis of [expr_all]. *)
Definition IHW nb e := wf_expr nb e = true -> Pall nb e.

Lemma IHW_P5 nb e : IHW nb e -> wf_expr nb e = true -> P5 nb e.
Proof. intros IH H. exact (all_P5 _ _ (IH H)). Qed.

Lemma Forall_P5 nb es : Forall (IHW nb) es -> forallb (wf_expr nb) es = true -> Forall (P5 nb) es.
Proof. apply Forall_forallb, IHW_P5. Qed.

Lemma Forall_P5_steps nb steps :
  Forall (step_P (IHW nb)) steps -> forallb (wf_step nb) steps = true -> Forall (step_P (P5 nb)) steps.
Proof. apply Forall_forallb. intros [e|m]; [apply IHW_P5|auto]. Qed.

(* A premise [lvl e <= 4] or [lvl e = 5] of Pall_build that [e] contradicts. *)
Ltac wrong_lvl :=
  let HL := fresh "HL" in intros HL; cbn [lvl] in HL; (discriminate HL || lia).

(* One hypothesis [Hw..] per conjunct of [H : a && b && .. = true]. *)
Ltac split_wf H :=
  repeat match type of H with
         | (_ && _)%bool = true =>
             let H1 := fresh "Hw" in let H2 := fresh "Hw" in
             apply andb_prop in H as [H1 H2]; try split_wf H1; try split_wf H2
         end.

Theorem expr_all nb : forall e, wf_expr nb e = true -> Pall nb e.
Proof.
  induction e as [op l r IHl IHr|op e IHe|b|v t|v t|bs|es IHes|n ms IHms|e IHe|d b steps IHs
                 |e IHe|e t IHe|d b steps IHs|t|b n args IHargs] using expr_ind2;
    intros Hwf; cbn [wf_expr] in Hwf.
  - apply andb_prop in Hwf as [Hwf Hop]. apply andb_prop in Hwf as [Hwl Hwr].
    specialize (IHl Hwl). specialize (IHr Hwr).
    destruct op; split_wf Hop;
      repeat match goal with
             | H : (_ <=? _)%nat = true |- _ => apply Nat.leb_le in H
             | H : negb _ = true |- _ => apply negb_true_iff in H
             end.
    (* the goals are in the order of [binop]: + - * / % (1-5), & | ^ (6-8), << >> (9-10),
       `&x .. e` (11); once 6-8 are closed the shifts are 6-7 and `&x .. e` is 8.  Shifts show
       the whole-expression claim, + - * / % and `&x .. e` that of their level. *)
    6-8: apply bin_bit; auto; [exact (all_PC _ _ IHl)|apply IHr; lia].
    6-7: apply Pall_build; [wrong_lvl|intros _|intros _; now apply PC_vac|exact I].
    1-5: apply Pall_build; [intros _|wrong_lvl|intros _; now apply PC_vac|exact I].
    8: apply Pall_build; [intros _|wrong_lvl|intros _; now apply PC_vac|exact I].
    1-5: apply (PL_binop _ _ _ _ _ eq_refl); cbn [lvl]; [lia|apply IHl|apply IHr|]; auto.
    + apply bin_shift; auto; [apply IHl|apply IHr]; auto; lia.
    + apply bin_shift; auto; [apply IHl|apply IHr]; auto; lia.
    + destruct l as [| | | | | | | | |[d b steps]| | | | |]; try discriminate Hop.
      apply PL_advance; auto; [exact (all_PD _ _ IHl)|exact (all_P5 _ _ IHr)].
  - apply andb_prop in Hwf as [Hwf Hop]. apply andb_prop in Hwf as [Hwe Hl].
    apply Nat.eqb_eq in Hl. apply Pall_nonbinary; [reflexivity|exact I|].
    apply PL_unary; [apply (IHe Hwe); lia|exact Hop].
  - apply Pall_nonbinary; [reflexivity|exact I|].
    eapply PL_literal; [apply literal_bool|reflexivity].
  - apply Pall_nonbinary; [reflexivity|exact I|]. cbn [lvl].
    apply orb_prop in Hwf as [Hwf|Hwf].
    2: { (* i128::MIN *)
      apply andb_prop in Hwf as [Hv Ht]. apply Z.eqb_eq in Hv. subst v. apply PL_min_literal. }
    split_wf Hwf. destruct (v <? 0)%Z eqn:Eneg.
    + apply PL_neg_literal; auto.
    + eapply PL_literal.
      * apply literal_sint; assumption.
      * cbn [print_expr]. rewrite Eneg. reflexivity.
  - split_wf Hwf. apply Pall_nonbinary; [reflexivity|exact I|].
    eapply PL_literal; [apply literal_bits; eauto|reflexivity].
  - apply Pall_nonbinary; [reflexivity|exact I|]. apply PL_string.
  - apply Pall_nonbinary; [reflexivity|exact I|]. apply PL_array. now apply Forall_P5.
  - apply andb_prop in Hwf as [Hnb Hms]. apply negb_true_iff in Hnb. subst nb.
    apply Pall_nonbinary; [reflexivity|exact I|]. apply PL_structural.
    revert IHms Hms. apply Forall_forallb. intros [m e]. apply IHW_P5.
  - apply Pall_nonbinary; [reflexivity|exact I|]. apply PL_paren, (IHe Hwf).
  - assert (Hss : Forall (step_P (P5 nb)) steps).
    { apply Forall_P5_steps; [exact IHs|]. cbn [wf_ref] in Hwf. now apply andb_prop in Hwf as [_ Hwf]. }
    apply Pall_nonbinary; [reflexivity|exact Hss|]. now apply PL_deref.
  - apply andb_prop in Hwf as [Hwe Hl]. apply Nat.leb_le in Hl.
    apply Pall_nonbinary; [reflexivity|exact I|]. apply PL_bitcast. apply (IHe Hwe); lia.
  - split_wf Hwf. apply Pall_nonbinary; [reflexivity|exact I|]. apply PL_typecast; auto.
    apply (IHe ltac:(assumption)); [now apply Nat.leb_le|lia].
  - assert (Hss : Forall (step_P (P5 nb)) steps).
    { apply Forall_P5_steps; [exact IHs|]. cbn [wf_ref] in Hwf. now apply andb_prop in Hwf as [_ Hwf]. }
    apply Pall_nonbinary; [reflexivity|exact I|]. now apply PL_length.
  - apply Pall_nonbinary; [reflexivity|exact I|]. now apply PL_sizeof.
  - apply Pall_nonbinary; [reflexivity|exact I|]. apply PL_call. now apply Forall_P5.
Qed.

(* [estop nb e k]: the token k does not continue the expression e (see the Model). *)
Theorem parse_print_expr_nb nb e :
  wf_expr nb e = true -> forall R, estop nb e (hdk R) = true ->
  conv (fun f => parse_addition f nb (print_expr e ++ R)) (e, R).
Proof. intros Hwf. exact (all_P5 _ _ (expr_all nb e Hwf)). Qed.

(* [stop_expr false R]: the first token of R is none of
     [ . ( { "string" ..   + - * / % & | ^ << >> as
   (end of input is fine). *)
Definition stop_expr (nb : bool) (R : list tok) : bool := stopl 5 nb (hdk R).

Theorem parse_print_expr e R :
  wf_expr false e = true -> stop_expr false R = true ->
  exists n, forall fuel, n <= fuel -> parse_expr fuel (print_expr e ++ R) = Some (e, R).
Proof. intros Hwf Hs. exact (parse_print_expr_nb false e Hwf R (stopl5_estop _ _ _ Hs)). Qed.

Lemma Forall_P5_of_wf nb es : forallb (wf_expr nb) es = true -> Forall (P5 nb) es.
Proof. apply Forall_P5, Forall_forall. intros e _. exact (expr_all nb e). Qed.

Lemma steps_P5_of_wf nb steps : forallb (wf_step nb) steps = true -> Forall (step_P (P5 nb)) steps.
Proof. apply Forall_P5_steps, Forall_forall. intros [e|m] _; [exact (expr_all nb e)|exact I]. Qed.

Theorem parse_print_reference nb r R :
  wf_ref nb r = true -> isBracketLeft (hdk R) = false -> isDot (hdk R) = false ->
  conv (fun f => parse_reference f nb (print_ref r ++ R)) (r, R).
Proof.
  destruct r as [d b steps]. intros Hwf HB HD. cbn [wf_ref] in Hwf.
  apply andb_prop in Hwf as [Hwf Hss]. apply andb_prop in Hwf as [Hd Hl].
  apply parse_reference_ok; auto. now apply steps_P5_of_wf.
Qed.

(* Induction on statements with the hypothesis for every statement of a block; `if` with and
   without `else` apart. *)
Section stmt_ind2.
  Variable P : stmt -> Prop.
  Hypothesis HVar : forall n t v, P (StVar n t v).
  Hypothesis HAssign : forall r v, P (StAssign r v).
  Hypothesis HCall : forall b n args, P (StCall b n args).
  Hypothesis HLoop : P StLoop.
  Hypothesis HGoto : forall l, P (StGoto l).
  Hypothesis HLabel : forall l, P (StLabel l).
  Hypothesis HIf1 : forall op l r th, P th -> P (StIf op l r th None).
  Hypothesis HIf2 : forall op l r th el, P th -> P el -> P (StIf op l r th (Some el)).
  Hypothesis HBlock : forall ss, Forall P ss -> P (StBlock ss).
  Fixpoint stmt_ind2 (s : stmt) : P s :=
    match s with
    | StVar n t v => HVar n t v
    | StAssign r v => HAssign r v
    | StCall b n args => HCall b n args
    | StLoop => HLoop
    | StGoto l => HGoto l
    | StLabel l => HLabel l
    | StIf op l r th None => HIf1 op l r th (stmt_ind2 th)
    | StIf op l r th (Some el) => HIf2 op l r th el (stmt_ind2 th) (stmt_ind2 el)
    | StBlock ss => HBlock ss (Forall_all P stmt_ind2 ss)
    end.
End stmt_ind2.

Lemma stmt_first s X : hdk (print_stmt s ++ X) = first_kind_stmt s.
Proof.
  destruct s; cbn [print_stmt first_kind_stmt]; try reflexivity.
  - destruct r as [[|p] b steps]; [reflexivity|]. cbn [print_ref].
    destruct (N.to_nat (N.pos p)) eqn:E; [lia|reflexivity].
  - unfold print_args. destruct builtin; reflexivity.
Qed.

Lemma first_kind_facts s :
  isBraceRight (first_kind_stmt s) = false /\ isElse (first_kind_stmt s) = false /\
  pstop true (first_kind_stmt s) = true.
Proof.
  destruct s; cbn [first_kind_stmt]; auto.
  - destruct r as [d b steps]. destruct (d =? 0)%N; auto.
  - destruct builtin; auto.
Qed.

Lemma assign_tail_ok v X :
  wf_expr false v = true ->
  conv (fun f => parse_assign_tail f (tk KAssignment :: print_expr v ++ tk KSemicolon :: X)) (v, X).
Proof.
  intros Hv. unfold parse_assign_tail. tkred.
  bind5 (parse_print_expr_nb false v Hv). apply conv_ret.
Qed.

Lemma parse_arguments_ok args X :
  forallb (wf_expr false) args = true ->
  conv (fun f => parse_arguments f (tk KParenLeft :: print_sep print_expr args ++ tk KParenRight :: X))
       (args, X).
Proof.
  intros Hargs. unfold parse_arguments. tkred.
  bind (expr_list_sep false X args (Forall_P5_of_wf _ _ Hargs)).
  apply conv_ret.
Qed.

(* The return value of a body, before its closing brace. *)
Lemma brace_expr e R : wf_expr false e = true ->
  conv (fun f => parse_addition f false (print_expr e ++ tk KBraceRight :: R)) (e, tk KBraceRight :: R).
Proof. intros H. apply (parse_print_expr_nb false e H), stop_tk. intros []; reflexivity. Qed.

Definition print_rv (rv : option expr) : list tok :=
  match rv with Some e => print_expr e | None => [] end.

Lemma body_tail_not_else rest rv R :
  opt_ok (wf_expr false) rv = true ->
  isElse (hdk (flat_map print_stmt rest ++ print_rv rv ++ tk KBraceRight :: R)) = false.
Proof.
  intros Hrv. destruct rest as [|s2 rest2].
  - cbn [flat_map app]. destruct rv as [e|]; cbn [print_rv]; [|reflexivity].
    apply (conv_not_close _ _ _ (brace_expr e R Hrv)).
  - cbn [flat_map]. appnorm. rewrite stmt_first. apply first_kind_facts.
Qed.

(* The claim of [stmt_all], as induction hypothesis for the statements of a block. *)
Definition PS (s : stmt) : Prop :=
  wf_stmt s = true ->
  forall R, (open_if s = true -> isElse (hdk R) = false) ->
  conv (fun f => parse_statement f (print_stmt s ++ R)) (s, R).

Lemma block_loop_ok ss R :
  Forall PS ss -> forallb wf_stmt ss = true ->
  conv (fun f => block_loop f (flat_map print_stmt ss ++ tk KBraceRight :: R)) (ss, R).
Proof.
  induction 1 as [|s ss Hs _ IH]; intros Hwf.
  - cbn [flat_map app]. step block_loop_S. apply conv_ret.
  - cbn [forallb] in Hwf. apply andb_prop in Hwf as [Hw1 Hw2]. cbn [flat_map]. appnorm.
    step block_loop_S.
    rewrite stmt_first, (proj1 (first_kind_facts s)).
    bind (Hs Hw1).
    { intros _. exact (body_tail_not_else ss None R eq_refl). }
    bind (IH Hw2). apply conv_ret.
Qed.

Lemma cmp_stop op e X : estop true e (hdk (tk (kind_of_cmpop op) :: X)) = true.
Proof. apply stopl5_estop. destruct op; reflexivity. Qed.

Lemma cmpop_of_kind op : cmpop_of (kind_of_cmpop op) = Some op.
Proof. destruct op; reflexivity. Qed.

Lemma parse_comparison_ok op l r X :
  wf_expr true l = true -> wf_expr true r = true -> estop true r (hdk X) = true ->
  conv (fun f => parse_comparison f (print_expr l ++ tk (kind_of_cmpop op) :: print_expr r ++ X))
       ((op, l, r), X).
Proof.
  intros Hl Hr HX. unfold parse_comparison.
  bind (parse_print_expr_nb true l Hl _ (cmp_stop op l (print_expr r ++ X))). rewrite cmpop_of_kind.
  bind (parse_print_expr_nb true r Hr X HX). apply conv_ret.
Qed.

Theorem stmt_all : forall s, PS s.
Proof.
  induction s as [n t v|r v|b n args| |l|l|op l r th IHth|op l r th el IHth IHel|ss IHss]
    using stmt_ind2; intros Hwf R Hfollow; cbn [wf_stmt] in Hwf.
  - apply andb_prop in Hwf as [Ht Hv]. cbn [print_stmt].
    destruct t as [t|], v as [e|]; cbn [app opt_ok] in *; appnorm; step parse_statement_body.
    1,2: eapply conv_bind; [bind (parse_print_type t Ht); apply conv_ret|]; tkred.
    1,3: eapply conv_bind; [bind5 (parse_print_expr_nb false e Hv); apply conv_ret|]; tkred.
    all: crw_name; apply conv_ret.
  - apply andb_prop in Hwf as [Hr Hv]. destruct r as [d b steps]. cbn [print_stmt]. appnorm.
    destruct (1 <=? d)%N eqn:Ed.
    + rewrite (print_ref_succ d b steps Ed). appnorm. step parse_statement_body.
      bind (parse_addressed_reference_ok false d b steps
              (tk KAssignment :: print_expr v ++ tk KSemicolon :: R)); auto.
      { apply steps_P5_of_wf. cbn [wf_ref] in Hr. now apply andb_prop in Hr as [_ Hr]. }
      bind (assign_tail_ok v R Hv). apply conv_ret.
    + apply N.leb_gt in Ed. assert (d = 0%N) by lia. subst d.
      cbn [print_ref N.to_nat repeat app]. appnorm. step parse_statement_body.
      rewrite (steps_hd isColon), (steps_hd isParenLeft) by reflexivity.
      cbn [wf_ref] in Hr. apply andb_prop in Hr as [Hr Hss]. apply andb_prop in Hr as [_ Hlen].
      apply Nat.leb_le in Hlen.
      bind (steps_loop_ok false steps (steps_P5_of_wf _ _ Hss) 0
              (tk KAssignment :: print_expr v ++ tk KSemicolon :: R) ltac:(lia) eq_refl eq_refl).
      bind (assign_tail_ok v R Hv). crw_name. apply conv_ret.
  - cbn [print_stmt]. unfold print_args. appnorm. step parse_statement_body.
    destruct b; tkred;
      (bind (parse_arguments_ok args (tk KSemicolon :: R) Hwf); crw_name; apply conv_ret).
  - cbn [print_stmt app]. step parse_statement_body. apply conv_ret.
  - cbn [print_stmt app]. step parse_statement_body. crw_name. apply conv_ret.
  - cbn [print_stmt app]. step parse_statement_body. crw_name. apply conv_ret.
  - (* StIf without else *)
    split_wf Hwf. cbn [print_stmt]. rewrite app_nil_r. appnorm. step parse_statement_body.
    bind (parse_comparison_ok op l r (print_stmt th ++ R)); try assumption.
    { now rewrite stmt_first. }
    bind (IHth ltac:(assumption) R). { intros _. apply Hfollow. reflexivity. }
    rewrite (Hfollow eq_refl). apply conv_ret.
  - (* StIf with else *)
    split_wf Hwf. cbn [print_stmt]. appnorm. step parse_statement_body.
    match goal with H : negb (open_if th) = true |- _ => apply negb_true_iff in H; rename H into Hopen end.
    bind (parse_comparison_ok op l r (print_stmt th ++ tk KElse :: print_stmt el ++ R)); try assumption.
    { now rewrite stmt_first. }
    bind (IHth ltac:(assumption) (tk KElse :: print_stmt el ++ R)).
    { intros Ho. rewrite Hopen in Ho. discriminate Ho. }
    bind (IHel ltac:(assumption) R). { intros Ho. apply Hfollow. exact Ho. }
    apply conv_ret.
  - cbn [print_stmt]. appnorm. step parse_statement_body.
    bind (block_loop_ok ss R IHss Hwf). apply conv_ret.
Qed.

(* A statement ending in an `if` without `else` must not be followed by `else`. *)
Theorem parse_print_stmt s R :
  wf_stmt s = true -> (open_if s = true -> isElse (hdk R) = false) ->
  exists n, forall fuel, n <= fuel -> parse_statement fuel (print_stmt s ++ R) = Some (s, R).
Proof. intros Hwf Hf. exact (stmt_all s Hwf R Hf). Qed.

Lemma body_loop_ok ss : forall rv R,
  forallb wf_stmt ss = true -> opt_ok (wf_expr false) rv = true ->
  body_shape ss (match rv with Some _ => true | None => false end) = true ->
  conv (fun f => body_loop f (flat_map print_stmt ss ++ print_rv rv ++ tk KBraceRight :: R))
       ((ss, rv), R).
Proof.
  induction ss as [|s rest IH]; intros rv R Hwf Hrv Hshape.
  - cbn [body_shape] in Hshape. destruct rv; [discriminate Hshape|].
    cbn [flat_map print_rv app]. step body_loop_S. apply conv_ret.
  - cbn [forallb] in Hwf. apply andb_prop in Hwf as [Hw1 Hw2]. cbn [flat_map]. appnorm.
    step body_loop_S.
    rewrite stmt_first, (proj1 (first_kind_facts s)).
    bind (stmt_all s Hw1). { intros _. apply body_tail_not_else, Hrv. }
    cbn [body_shape] in Hshape. destruct (is_return_label s) eqn:Eret.
    + apply andb_prop in Hshape as [Hhas Hrest]. destruct rest; [|discriminate Hrest].
      destruct rv as [e|]; [|discriminate Hhas]. cbn [flat_map print_rv app opt_ok] in *.
      destruct (conv_not_close _ _ _ (brace_expr e R Hrv)) as (_ & _ & E3 & _).
      rewrite E3. bind (brace_expr e R Hrv). apply conv_ret.
    + bind (IH rv R Hw2 Hrv Hshape). apply conv_ret.
Qed.

Lemma parse_typed_name_ok n t X :
  ty_ok t = true ->
  conv (fun f => parse_typed_name f (tk_id n :: tk KColon :: print_type t ++ X)) ((n, t), X).
Proof.
  intros Ht. unfold parse_typed_name. tkred. bind (parse_print_type t Ht X).
  crw_name. apply conv_ret.
Qed.

Lemma typed_names_sep ps R :
  forallb wf_typed_name ps = true ->
  conv (fun f => typed_names f false (print_sep print_typed_name ps ++ tk KParenRight :: R))
       (ps, tk KParenRight :: R).
Proof.
  induction ps as [|[n t] ps IH]; cbn [forallb]; intros Hps.
  - cbn [print_sep app]. step typed_names_S. apply conv_ret.
  - apply andb_prop in Hps as [Hx Hxs]. destruct ps as [|y ys].
    + cbn [print_sep flat_map print_typed_name]. appnorm. step typed_names_S.
      bind (parse_typed_name_ok n t). { exact Hx. } apply conv_ret.
    + rewrite print_sep_cons. cbn [print_typed_name]. appnorm. step typed_names_S.
      bind (parse_typed_name_ok n t). { exact Hx. } bind (IH Hxs). apply conv_ret.
Qed.

Lemma typed_names_trail ms R :
  forallb wf_typed_name ms = true ->
  conv (fun f => typed_names f true
                   (flat_map (fun m => print_typed_name m ++ [tk KComma]) ms ++ tk KBraceRight :: R))
       (ms, tk KBraceRight :: R).
Proof.
  induction ms as [|[n t] ms IH]; intros Hms.
  - cbn [flat_map app]. step typed_names_S. apply conv_ret.
  - cbn [forallb] in Hms. apply andb_prop in Hms as [Hx Hxs].
    unfold wf_typed_name in Hx; cbn [snd] in Hx.
    cbn [flat_map print_typed_name]. appnorm. step typed_names_S.
    bind (parse_typed_name_ok n t). { exact Hx. }
    bind (IH Hxs). apply conv_ret.
Qed.

Lemma parse_struct_members_ok ms R :
  forallb wf_typed_name ms = true ->
  conv (fun f => parse_struct_members f
                   (tk KBraceLeft :: flat_map (fun m => print_typed_name m ++ [tk KComma]) ms
                    ++ tk KBraceRight :: R))
       (ms, R).
Proof.
  intros Hms. unfold parse_struct_members. tkred. bind (typed_names_trail ms R Hms). apply conv_ret.
Qed.

Lemma parse_declaration_flags f pub ext X :
  isPub (hdk X) = false -> isExtern (hdk X) = false ->
  parse_declaration f (print_flags pub ext ++ X) = parse_declaration_rest f pub ext X.
Proof.
  intros Hp He. unfold parse_declaration, print_flags.
  destruct pub, ext; cbn [app hdk tl kind tk mk isPub isExtern]; rewrite ?Hp, ?He; reflexivity.
Qed.

(* The optional `-> type` of a function head. *)
Lemma parse_ret_ok ret Y :
  ty_ok ret = true -> isArrow (hdk Y) = false ->
  let X := (if is_tvoid ret then [] else tk KArrow :: print_type ret) ++ Y in
  conv (fun f => if isArrow (hdk X) then parse_wellformed_type f (tl X) else Some (TVoid, X)) (ret, Y).
Proof.
  intros Ht HY X. subst X. destruct ret; cbn [is_tvoid app]; tkred; try exact (parse_print_type _ Ht Y).
  rewrite HY. apply conv_ret.
Qed.

Theorem parse_print_decl d R :
  wf_decl d = true -> conv (fun f => parse_declaration f (print_decl d ++ R)) (d, R).
Proof.
  intros Hwf. destruct d as [bs|pub ext n t v|pub ext n ps ret body|pub ext k n ms];
    cbn [wf_decl] in Hwf; cbn [print_decl]; appnorm.
  2-4: eapply conv_ext;
    [intro f; apply parse_declaration_flags; try reflexivity; destruct k; reflexivity|].
  - (* import: the parser reads `pub`/`extern` and drops them; none are printed *)
    unfold parse_declaration. tkred.
    rewrite Hwf. apply conv_ret.
  - apply andb_prop in Hwf as [Ht Hv]. tkred.
    bind (parse_typed_name_ok n t). { exact Ht. }
    bind (assign_tail_ok v R Hv). apply conv_ret.
  - apply andb_prop in Hwf as [Hwf Hbody]. apply andb_prop in Hwf as [Hps Hret].
    tkred.
    bind (typed_names_sep ps). { exact Hps. }
    bind (parse_ret_ok ret). { exact Hret. } { destruct body as [[]|]; reflexivity. }
    destruct body as [[ss rv]|]; cbn [print_body app]; appnorm; tkred.
    + cbn [opt_ok wf_body] in Hbody. apply andb_prop in Hbody as [Hb Hshape].
      apply andb_prop in Hb as [Hss Hrv].
      bind (body_loop_ok ss rv R Hss Hrv Hshape). crw_name. apply conv_ret.
    + crw_name. apply conv_ret.
  - apply andb_prop in Hwf as [Hms Hk].
    destruct k; tkred; appnorm; tkred.
    2: { destruct ms; [|discriminate Hk]. crw_name. apply conv_ret. }
    all: bind (parse_struct_members_ok ms R Hms); crw_name; apply conv_ret.
Qed.

Lemma decls_loop_ok ds :
  wf_module ds = true ->
  exists n, forall f i, n <= f -> n <= i -> decls_loop f i (print_module ds) = Some ds.
Proof.
  unfold wf_module, print_module. induction ds as [|d ds IH]; intros Hwf.
  - exists 1. intros f i Hf _. destruct f; [lia|reflexivity].
  - cbn [forallb] in Hwf. apply andb_prop in Hwf as [Hd Hds].
    destruct (IH Hds) as [n Hn].
    destruct (parse_print_decl d (flat_map print_decl ds) Hd) as [m Hm].
    exists (S (Nat.max n m)). intros f i Hf Hi. destruct f as [|f]; [lia|].
    cbn [flat_map]. rewrite decls_loop_S.
    (* the text of [d] is not empty: parse_declaration fails on no tokens *)
    destruct (print_decl d ++ flat_map print_decl ds); [discriminate (Hm m (le_n m))|].
    rewrite Hm by lia. rewrite Hn by lia. reflexivity.
Qed.

Theorem parse_print_module ds :
  wf_module ds = true ->
  exists n, forall fuel, n <= fuel -> parse_module fuel (print_module ds) = Some ds.
Proof.
  intros Hwf. destruct (decls_loop_ok ds Hwf) as [n Hn]. exists n. intros fuel Hf.
  unfold parse_module. now apply Hn.
Qed.

Corollary print_parse_idempotent ds :
  wf_module ds = true ->
  exists n, forall fuel, n <= fuel ->
    option_map print_module (parse_module fuel (print_module ds)) = Some (print_module ds).
Proof.
  intros Hwf. destruct (parse_print_module ds Hwf) as [n Hn]. exists n. intros fuel Hf.
  now rewrite Hn.
Qed.

Module Examples.
  Import Coq.Strings.String.StringSyntax.
  Local Open Scope N_scope.
  Definition a := tk_id 1. Definition b := tk_id 2. Definition c := tk_id 3. Definition x := tk_id 4.
  Definition va := EDeref (Ref 0 1 []). Definition vb := EDeref (Ref 0 2 []).
  Definition vc := EDeref (Ref 0 3 []). Definition vx := EDeref (Ref 0 4 []).
  Definition semi := tk KSemicolon.
  Definition num (v : Z) := mk KNakedDecimal v None [].
  Definition i32 := tk_type (TyPrim Int32).
  Definition u8 := tk_type (TyPrim Uint8).

  (* a - b - c = (a - b) - c *)
  Example ex_sub_left_assoc :
    parse_expr 20 [a; tk KMinus; b; tk KMinus; c; semi]
    = Some (EBinary Subtract (EBinary Subtract va vb) vc, [semi]).
  Proof. reflexivity. Qed.

  (* a * b + c = (a * b) + c ;  a + b * c = a + (b * c) *)
  Example ex_mul_add :
    parse_expr 20 [a; tk KTimes; b; tk KPlus; c; semi]
    = Some (EBinary Add (EBinary Multiply va vb) vc, [semi]).
  Proof. reflexivity. Qed.
  Example ex_add_mul :
    parse_expr 20 [a; tk KPlus; b; tk KTimes; c; semi]
    = Some (EBinary Add va (EBinary Multiply vb vc), [semi]).
  Proof. reflexivity. Qed.

  (* a / b % c = (a / b) % c *)
  Example ex_div_mod :
    parse_expr 20 [a; tk KDivide; b; tk KModulo; c; semi]
    = Some (EBinary Modulo (EBinary Divide va vb) vc, [semi]).
  Proof. reflexivity. Qed.

  (* a << b ; a << b << c stops after the first shift (the caller then fails on `<<`) *)
  Example ex_shift :
    parse_expr 20 [a; tk KShiftLeft; b; semi] = Some (EBinary ShiftLeft va vb, [semi]).
  Proof. reflexivity. Qed.
  Example ex_shift_no_chain :
    parse_expr 20 [a; tk KShiftLeft; b; tk KShiftLeft; c; semi]
    = Some (EBinary ShiftLeft va vb, [tk KShiftLeft; c; semi]).
  Proof. reflexivity. Qed.

  (* a & b & c = (a & b) & c ; mixing needs parentheses *)
  Example ex_and_chain :
    parse_expr 20 [a; tk KAmpersand; b; tk KAmpersand; c; semi]
    = Some (EBinary BitwiseAnd (EBinary BitwiseAnd va vb) vc, [semi]).
  Proof. reflexivity. Qed.
  Example ex_and_or_rejected :
    parse_statement 20 [x; tk KAssignment; a; tk KAmpersand; b; tk KPipe; c; semi] = None.
  Proof. reflexivity. Qed.
  Example ex_add_and_rejected :
    parse_expr 20 [a; tk KPlus; b; tk KAmpersand; c; semi] = None.
  Proof. reflexivity. Qed.
  Example ex_and_add_rejected :
    parse_statement 20 [x; tk KAssignment; a; tk KAmpersand; b; tk KPlus; c; semi] = None.
  Proof. reflexivity. Qed.
  Example ex_and_paren :
    parse_expr 20 [a; tk KAmpersand; tk KParenLeft; b; tk KPipe; c; tk KParenRight; semi]
    = Some (EBinary BitwiseAnd va (EParen (EBinary BitwiseOr vb vc)), [semi]).
  Proof. reflexivity. Qed.

  (* unary minus folds into a decimal literal; otherwise it is a Unary node; the operand is
     a PRIMARY expression: `- - 5` and `-|a|` are syntax errors *)
  Example ex_neg_literal : parse_expr 20 [tk KMinus; num 5; semi] = Some (ESigned (-5) None, [semi]).
  Proof. reflexivity. Qed.
  Example ex_neg_zero :
    parse_expr 20 [tk KMinus; num 0; semi] = Some (EUnary Negative (ESigned 0 None), [semi]).
  Proof. reflexivity. Qed.
  Example ex_neg_var : parse_expr 20 [tk KMinus; a; semi] = Some (EUnary Negative va, [semi]).
  Proof. reflexivity. Qed.
  Example ex_neg_neg : parse_expr 20 [tk KMinus; tk KMinus; num 5; semi] = None.
  Proof. reflexivity. Qed.
  Example ex_neg_length : parse_expr 20 [tk KMinus; tk KPipe; a; tk KPipe; semi] = None.
  Proof. reflexivity. Qed.
  Example ex_a_minus_5 :
    parse_expr 20 [a; tk KMinus; num 5; semi] = Some (EBinary Subtract va (ESigned 5 None), [semi]).
  Proof. reflexivity. Qed.
  Example ex_a_minus_minus_5 :
    parse_expr 20 [a; tk KMinus; tk KMinus; num 5; semi]
    = Some (EBinary Subtract va (ESigned (-5) None), [semi]).
  Proof. reflexivity. Qed.
  (* 2^127 does not fit i128: bit literal; 5u8 is a bit literal, 5i32 a signed one *)
  Example ex_big_decimal :
    parse_expr 20 [num (2 ^ 127); semi] = Some (EBits (2 ^ 127) None, [semi]).
  Proof. reflexivity. Qed.
  Example ex_suffixes :
    parse_expr 20 [tk KBracketLeft; mk KSuffixedInteger 5 (Some (TyPrim Uint8)) []; tk KComma;
                   mk KSuffixedInteger 5 (Some (TyPrim Int32)) []; tk KBracketRight; semi]
    = Some (EArray [EBits 5 (Some Uint8); ESigned 5 (Some Int32)], [semi]).
  Proof. reflexivity. Qed.

  (* i128::MIN (commit 4639ff7): `-` folds a bit literal of value 2^127, keeping its suffix *)
  Example ex_neg_min :
    parse_expr 20 [tk KMinus; mk KSuffixedInteger (2 ^ 127) (Some (TyPrim Int128)) []; semi]
    = Some (ESigned (- 2 ^ 127) (Some Int128), [semi]).
  Proof. reflexivity. Qed.
  Example ex_neg_min_hex_u8 :
    parse_expr 20 [tk KMinus; mk KBitInteger (2 ^ 127) None []; tk KPlus; tk KMinus;
                   mk KSuffixedInteger (2 ^ 127) (Some (TyPrim Uint8)) []; semi]
    = Some (EBinary Add (ESigned (- 2 ^ 127) None) (ESigned (- 2 ^ 127) (Some Uint8)), [semi]).
  Proof. reflexivity. Qed.
  Example ex_neg_min_roundtrip :
    parse_expr 20 (print_expr (ESigned (- 2 ^ 127) (Some Uint8)) ++ [semi])
    = Some (ESigned (- 2 ^ 127) (Some Uint8), [semi]).
  Proof. reflexivity. Qed.

  (* casts bind tighter than `*`; `cast` applies to the unary expression only *)
  Example ex_casts :
    parse_expr 20 [tk KCast; a; tk KAs; i32; tk KAs; u8; tk KTimes; b; semi]
    = Some (EBinary Multiply (ETypeCast (ETypeCast (EBitCast va) (TPrim Int32)) (TPrim Uint8)) vb,
            [semi]).
  Proof. reflexivity. Qed.
  Example ex_as_after_and_rejected :
    parse_statement 20 [x; tk KAssignment; a; tk KAmpersand; b; tk KAs; i32; semi] = None.
  Proof. reflexivity. Qed.

  (* `&x .. offset` is a primary expression whose offset is a whole expression *)
  Example ex_advance :
    parse_expr 20 [tk KAmpersand; x; tk KDots; a; tk KPlus; b; semi]
    = Some (EBinary AdvancePointer (EDeref (Ref 1 4 [])) (EBinary Add va vb), [semi]).
  Proof. reflexivity. Qed.
  Example ex_advance_then_cast :
    parse_expr 20 [tk KAmpersand; x; tk KDots; a; tk KAmpersand; b; tk KAs; i32; semi]
    = Some (ETypeCast (EBinary AdvancePointer (EDeref (Ref 1 4 [])) (EBinary BitwiseAnd va vb))
                      (TPrim Int32), [semi]).
  Proof. reflexivity. Qed.

  (* adjacent string literals are concatenated; trailing commas are accepted *)
  Example ex_strings :
    parse_expr 20 [tk_id 9; tk KParenLeft; mk KStringLiteral 0 None [65]; mk KStringLiteral 0 None [66];
                   tk KComma; tk KParenRight; semi]
    = Some (ECall false 9 [EString [65; 66]], [semi]).
  Proof. reflexivity. Qed.

  (* structural literal, field-init shorthand *)
  Example ex_structural :
    parse_expr 20 [tk_id 9; tk KBraceLeft; tk_id 1; tk KComma; tk_id 2; tk KColon; num 7; tk KBraceRight; semi]
    = Some (EStructural 9 [(1, va); (2, ESigned 7 None)], [semi]).
  Proof. reflexivity. Qed.

  (* `if`: the brace after the condition starts the then-branch, never a structural literal,
     not even inside parentheses or call arguments *)
  Example ex_if_brace :
    parse_statement 20 [tk KIf; a; tk KEquals; b; tk KBraceLeft; tk KBraceRight; semi]
    = Some (StIf Equals va vb (StBlock []) None, [semi]).
  Proof. reflexivity. Qed.
  Example ex_if_structural_in_parens_rejected :
    parse_statement 30 [tk KIf; a; tk KEquals; tk KParenLeft; b; tk KBraceLeft; tk KBraceRight;
                        tk KParenRight; tk KBraceLeft; tk KBraceRight] = None.
  Proof. reflexivity. Qed.
  (* `==` exists only in the condition of an `if` *)
  Example ex_equals_not_expr : parse_expr 20 [a; tk KEquals; b; semi] = Some (va, [tk KEquals; b; semi]).
  Proof. reflexivity. Qed.
  (* dangling else goes to the inner if *)
  Example ex_dangling_else :
    parse_statement 30 [tk KIf; a; tk KEquals; b; tk KIf; b; tk KAngleLeft; c; tk KLoop; semi;
                        tk KElse; tk KGoto; x; semi]
    = Some (StIf Equals va vb (StIf IsLess vb vc StLoop (Some (StGoto 4))) None, []).
  Proof. reflexivity. Qed.
  (* a then-branch starting with `&` continues the comparison *)
  Example ex_then_amp_rejected :
    parse_statement 30 [tk KIf; a; tk KEquals; b; tk KAmpersand; x; tk KAssignment; num 1; semi] = None.
  Proof. reflexivity. Qed.

  Example ex_types :
    parse_wellformed_type 20 [tk KAmpersand; tk KBracketLeft; tk KBracketRight; tk KBracketLeft; num 3;
                              tk KBracketRight; tk_id 7; semi]
    = Some (TPointer (TArraylike (TArray 3 (TNamed 7))), [semi]).
  Proof. reflexivity. Qed.
  Example ex_type_slice_of_slice_illformed :
    parse_wellformed_type 20 [tk KBracketLeft; tk KColon; tk KBracketRight; tk KBracketLeft; tk KColon;
                              tk KBracketRight; u8; semi] = None.
  Proof. reflexivity. Qed.
  Example ex_type_len_truncated :
    parse_wellformed_type 20 [tk KBracketLeft; num (2 ^ 64 + 3); tk KBracketRight; u8]
    = Some (TArray 3 (TPrim Uint8), []).
  Proof. reflexivity. Qed.

  (* `return:` is a label; the value follows it, without `;`, as the last thing of the body *)
  Example ex_return :
    parse_module 30 [tk KFn; tk_id 5; tk KParenLeft; tk KParenRight; tk KArrow; i32; tk KBraceLeft;
                     tk_id name_return; tk KColon; a; tk KPlus; num 1; tk KBraceRight]
    = Some [DFn false false 5 [] (TPrim Int32)
              (Some ([StLabel name_return], Some (EBinary Add va (ESigned 1 None))))].
  Proof. reflexivity. Qed.
  Example ex_return_semicolon_rejected :
    parse_module 30 [tk KFn; tk_id 5; tk KParenLeft; tk KParenRight; tk KArrow; i32; tk KBraceLeft;
                     tk_id name_return; tk KColon; a; semi; tk KBraceRight] = None.
  Proof. reflexivity. Qed.
  (* flags on an import are accepted and dropped *)
  Example ex_pub_import :
    parse_module 30 [tk KPub; tk KImport; mk KStringLiteral 0 None [97]; semi] = Some [DImport [97]].
  Proof. reflexivity. Qed.

  (* one whole small module: well-formed, parses back from its printed tokens *)
  Definition m1 : list decl :=
    [DFn true false 5 [(1, TPrim Int32); (2, TSlice (TPrim Uint8))] (TPrim Int32)
       (Some ([StVar 3 (Some (TPrim Int32))
                 (Some (EBinary Add va (EBinary Multiply (ESigned (-2) None)
                                          (ECall false 7 [vb; EString [104; 105]]))));
               StIf IsLess vc (ESigned 0 None)
                 (StBlock [StAssign (Ref 0 3 [RsElement va; RsMember 9]) (EArray [va; vb]); StGoto 0])
                 (Some (StCall true 8 []));
               StAssign (Ref 2 3 []) (EBinary BitwiseOr (EBinary BitwiseOr va (EUnary BitwiseComplement vb))
                                                        (ELength (Ref 0 2 [])));
               StLabel name_return],
              Some (EStructural 4 [(1, va); (2, EParen (EBinary ShiftLeft va (ESizeOf (TNamed 4))))])));
     DImport [97; 98];
     DStruct false true SkOpaque 4 [];
     DStruct true false SkWord32 6 [(1, TPrim Uint8); (2, TArray 3 (TPrim Uint8))];
     DConst false false 9 (TPointer (TArraylike (TNamed 4))) (ETypeCast (EBitCast va) (TPrim Usize));
     DFn false true 10 [] TVoid None].

  Example ex_m1_wf : wf_module m1 = true.
  Proof. reflexivity. Qed.
  Example ex_m1_roundtrip : parse_module 40 (print_module m1) = Some m1.
  Proof. reflexivity. Qed.
  Example ex_show :
    show_module [DConst true false 9 (TArray 2 (TPrim Uint8)) (EArray [EBits 255 None; EBits 97 (Some Char8)])]
    = s2l "(const (flags pub) n9 (array 2 u8) (arr (bits 255 _) (bits 97 char8)))" ++ [10].
  Proof. reflexivity. Qed.

  (* trees outside the range of the parser do not parse back *)
  Example ex_not_wf :
    wf_expr false (EBinary Multiply (EBinary Add va vb) vc) = false /\
    parse_expr 20 (print_expr (EBinary Multiply (EBinary Add va vb) vc) ++ [semi])
    = Some (EBinary Add va (EBinary Multiply vb vc), [semi]).
  Proof. split; vm_compute; reflexivity. Qed.
End Examples.

Print Assumptions parse_print_type.
Print Assumptions parse_print_expr.
Print Assumptions parse_print_stmt.
Print Assumptions parse_print_decl.
Print Assumptions parse_print_module.
Print Assumptions print_parse_idempotent.
