(* The range of the reference parser: every tree it returns satisfies the wf_ predicates
   of Model/RefParser.v (given tokens with payloads in range), hence parses back from its
   printed tokens.  [Res P ts p]: if the payloads of the tokens [ts] are in range, so are
   those of the tokens a result of the call [p] leaves, and the result satisfies [P]; types,
   statements and declarations are followed through the parser's code with [Res_bind],
   [Res_expect] and, where a token is dropped, [Res_tl]; expressions by induction over their
   runs (RefParserProofs.runs), where a result carries its grammar level ([ERes]) and what its
   right edge needs of the next token ([edge]). *)
From PV Require Import Base.Common Base.IR Base.Tok Model.RefParser Proofs.RefParserProofs.

Definition OK (ts : list tok) : Prop := toks_ok ts = true.

Lemma OK_tl ts : OK ts -> OK (tl ts).
Proof.
  unfold OK, toks_ok. destruct ts as [|t r]; [auto|]. cbn [forallb tl]. intros H.
  now apply andb_prop in H as [_ H].
Qed.

Lemma OK_cons t r : OK (t :: r) -> tok_ok t = true /\ OK r.
Proof. unfold OK, toks_ok. cbn [forallb]. intros H. now apply andb_prop in H. Qed.

Lemma expect_OK p ts r : expect p ts = Some r -> OK ts -> OK r.
Proof.
  unfold expect. destruct ts as [|t ts']; [discriminate|]. destruct (p (kind t)); [|discriminate].
  intros [= <-] H. now apply OK_cons in H as [_ H].
Qed.

Lemma expect_id_OK ts n r : expect_id ts = Some (n, r) -> OK ts -> OK r.
Proof.
  unfold expect_id. destruct ts as [|t ts']; [discriminate|].
  destruct (isIdentifier (kind t)); [|discriminate].
  intros [= _ <-] H. now apply OK_cons in H as [_ H].
Qed.

Definition Res {A : Type} (P : A -> list tok -> Prop) (ts : list tok) (p : option (A * list tok))
  : Prop :=
  forall a r, p = Some (a, r) -> OK ts -> OK r /\ P a r.

Lemma Res_ret {A : Type} (P : A -> list tok -> Prop) a r : P a r -> Res P r (Some (a, r)).
Proof. intros H a' r' [= <- <-] Hok. auto. Qed.

Lemma Res_none {A : Type} (P : A -> list tok -> Prop) ts : Res P ts None.
Proof. intros a r H. discriminate H. Qed.

Lemma Res_tl {A : Type} (P : A -> list tok -> Prop) ts p : Res P (tl ts) p -> Res P ts p.
Proof. intros H a r E Hok. exact (H a r E (OK_tl _ Hok)). Qed.

Lemma Res_bind {A B : Type} (P : A -> list tok -> Prop) (Q : B -> list tok -> Prop) ts
    (p : option (A * list tok)) (k : A -> list tok -> option (B * list tok)) :
  Res P ts p -> (forall a r, P a r -> Res Q r (k a r)) ->
  Res Q ts (match p with Some (a, r) => k a r | None => None end).
Proof.
  intros Hp Hk b r' E Hok. destruct p as [[a r]|]; [|discriminate E].
  destruct (Hp a r eq_refl Hok) as [Hok1 HP]. exact (Hk a r HP b r' E Hok1).
Qed.

Lemma Res_expect {B : Type} (Q : B -> list tok -> Prop) q ts (k : list tok -> option (B * list tok)) :
  (forall ts', Res Q ts' (k ts')) ->
  Res Q ts (match expect q ts with Some ts' => k ts' | None => None end).
Proof.
  intros Hk b r E Hok. destruct (expect q ts) as [ts'|] eqn:Ee; [|discriminate E].
  exact (Hk ts' b r E (expect_OK _ _ _ Ee Hok)).
Qed.

Lemma expect_id_res ts : Res (fun _ _ => True) ts (expect_id ts).
Proof. intros n r H Hok. exact (conj (expect_id_OK _ _ _ H Hok) I). Qed.

Lemma parse_inner_type_res f : forall ts, Res (fun t _ => ty_rng t = true) ts (parse_inner_type f ts).
Proof.
  induction f as [|f IH]; intros ts; [apply Res_none|].
  (* a type constructor applied to the type read last *)
  assert (Hlast : forall (C : ty -> ty) ts', (forall e, ty_rng e = true -> ty_rng (C e) = true) ->
    Res (fun t _ => ty_rng t = true) ts'
        (match parse_inner_type f ts' with Some (e, r) => Some (C e, r) | None => None end)).
  { intros C ts' HC. eapply Res_bind; [apply IH|]. intros e r He. apply Res_ret. auto. }
  rewrite parse_inner_type_S. destruct ts as [|t ts1]; [apply Res_none|]. apply Res_tl.
  destruct (kind t); try apply Res_none; try (apply Res_ret; reflexivity);
    try (apply Hlast; auto; fail).
  - (* ( T ) *)
    eapply Res_bind; [apply IH|]. intros d ts2 Hd.
    apply Res_expect. intros ts3. apply Res_ret. exact Hd.
  - (* [ .. ] T *)
    destruct ts1 as [|t1 ts2]; [apply Res_none|]. apply Res_tl.
    destruct (kind t1); try apply Res_none;
      try (apply Res_expect; intros ts3); apply Hlast; auto.
    (* [N]T: the length is reduced modulo 2^64 *)
    intros e He. cbn [ty_rng]. rewrite He.
    pose proof (Z.mod_pos_bound (value t1) usize_lim ltac:(reflexivity)) as [B1 B2].
    apply Z.leb_le in B1. apply Z.ltb_lt in B2. now rewrite B1, B2.
  - destruct (vtype t) as [[|p]|]; [apply Res_ret; auto..|apply Res_none].
Qed.

Lemma parse_wellformed_type_res f ts : Res (fun t _ => ty_ok t = true) ts (parse_wellformed_type f ts).
Proof.
  unfold parse_wellformed_type. eapply Res_bind; [apply parse_inner_type_res|]. intros t r Ht.
  destruct (ty_wellformed t) eqn:Hw; [|apply Res_none]. apply Res_ret. unfold ty_ok.
  now rewrite Ht, Hw.
Qed.

Lemma isAs_eq k : isAs k = true -> k = KAs.
Proof. destruct k; cbn; intros H; try discriminate H; reflexivity. Qed.

Lemma pstop_as nb : pstop nb KAs = true. Proof. destruct nb; reflexivity. Qed.

Lemma bitop_of_inv k op : bitop_of k = Some op ->
  kind_of_binop op = k /\ bitop_of (kind_of_binop op) = Some op /\ forall nb, pstop nb k = true.
Proof. destruct k; cbn; intros [= <-]; repeat split; intros []; reflexivity. Qed.

Lemma shiftop_of_inv k op : shiftop_of k = Some op ->
  kind_of_binop op = k /\ (op = ShiftLeft \/ op = ShiftRight) /\ forall nb, pstop nb k = true.
Proof. destruct k; cbn; intros [= <-]; repeat split; auto; intros []; reflexivity. Qed.

Lemma addop_of_inv k op : addop_of k = Some op ->
  kind_of_binop op = k /\ (op = Add \/ op = Subtract) /\ forall nb, pstop nb k = true.
Proof. destruct k; cbn; intros [= <-]; repeat split; auto; intros []; reflexivity. Qed.

Lemma mulop_of_inv k op : mulop_of k = Some op ->
  kind_of_binop op = k /\ (op = Multiply \/ op = Divide \/ op = Modulo) /\ forall nb, pstop nb k = true.
Proof. destruct k; cbn; intros [= <-]; repeat split; auto; intros []; reflexivity. Qed.

Lemma same_bitop_inv op k : same_bitop op k = true -> kind_of_binop op = k.
Proof.
  unfold same_bitop. destruct (bitop_of k) eqn:E; [|discriminate]. intros H.
  apply binop_eqb_eq in H. subst. now apply bitop_of_inv in E as [E _].
Qed.

Lemma binop_eqb_refl op : binop_eqb op op = true.
Proof. destruct op; reflexivity. Qed.

Lemma wf_neg nb e :
  wf_expr nb e = true -> lvl e = 0 -> is_pos_signed e = false ->
  wf_expr nb (EUnary Negative e) = true.
Proof. intros H1 H2 H3. cbn [wf_expr]. now rewrite H1, H2, H3. Qed.

Lemma wf_signed_intro nb v t :
  (- i128_max <= v)%Z -> (v <= i128_max)%Z -> lit_type_ok_signed t = true ->
  wf_expr nb (ESigned v t) = true.
Proof.
  intros H1 H2 H3. cbn [wf_expr]. apply Z.leb_le in H1, H2. now rewrite H1, H2, H3.
Qed.

Lemma wf_signed_pos nb v t :
  wf_expr nb (ESigned v t) = true -> (0 <? v)%Z = true ->
  (v <= i128_max)%Z /\ lit_type_ok_signed t = true.
Proof.
  cbn [wf_expr]. intros H Hv. apply Z.ltb_lt in Hv. apply orb_prop in H as [H|H].
  - apply andb_prop in H as [H Ht]. apply andb_prop in H as [_ Hhi]. apply Z.leb_le in Hhi. auto.
  - apply andb_prop in H as [H _]. apply Z.eqb_eq in H. unfold i128_min_abs in H. lia.
Qed.

Lemma literal_wf nb t e :
  tok_ok t = true -> literal_of t = Some e ->
  wf_expr nb e = true /\ lvl e = 0 /\ forall k, redge nb e k = true.
Proof.
  unfold tok_ok, literal_of.
  destruct (kind t); intros Hok H; try discriminate H.
  - apply andb_prop in Hok as [H0 H1]. pose proof H0 as H0'. apply Z.leb_le in H0'.
    destruct (value t <=? i128_max)%Z eqn:Em; injection H as <-.
    + repeat split.
      * apply Z.leb_le in Em. apply wf_signed_intro; [unfold i128_max; lia|exact Em|reflexivity].
      * cbn [lvl]. replace (value t <? 0)%Z with false; [reflexivity|]. symmetry. apply Z.ltb_ge. lia.
    + repeat split; cbn [wf_expr lvl lit_type_ok_bits]. now rewrite H0, H1.
  - apply andb_prop in Hok as [H0 H1]. injection H as <-.
    repeat split; cbn [wf_expr lvl lit_type_ok_bits]. now rewrite H0, H1.
  - apply andb_prop in Hok as [Hok Hty]. apply andb_prop in Hok as [H0 H1].
    pose proof H0 as H0'. apply Z.leb_le in H0'.
    destruct (vtype t) as [[|p]|]; try discriminate H.
    destruct (prim_signed p && (value t <=? i128_max)%Z) eqn:Es; injection H as <-.
    + apply andb_prop in Es as [Es Em].
      repeat split.
      * apply Z.leb_le in Em. apply wf_signed_intro; [unfold i128_max; lia|exact Em|exact Es].
      * cbn [lvl]. replace (value t <? 0)%Z with false; [reflexivity|]. symmetry. apply Z.ltb_ge. lia.
    + repeat split; cbn [wf_expr lvl]. rewrite H0, H1. cbn [andb].
      destruct p; try discriminate Hty; cbn [lit_type_ok_bits prim_signed] in *; try reflexivity;
        cbn [andb] in Es; apply Z.leb_gt in Es; apply Z.ltb_lt; exact Es.
  - apply andb_prop in Hok as [H0 H1]. injection H as <-.
    repeat split; cbn [wf_expr lvl lit_type_ok_bits]. rewrite H0, H1.
    replace (value t <? u128_lim)%Z with true; [reflexivity|].
    symmetry. apply Z.ltb_lt. apply Z.ltb_lt in H1. unfold u128_lim. lia.
  - injection H as <-. repeat split.
Qed.

Lemma string_tok_ok t : tok_ok t = true -> isString (kind t) = true ->
  forallb (fun b => (b <? 256)%N) (bytes t) = true.
Proof. unfold tok_ok. destruct (kind t); try discriminate. auto. Qed.

Lemma take_strings_ok ts : forall bs r,
  OK ts -> take_strings ts = (bs, r) -> forallb (fun b => (b <? 256)%N) bs = true /\ OK r.
Proof.
  induction ts as [|t ts IH]; intros bs r Hok H; cbn [take_strings] in H.
  - injection H as <- <-. auto.
  - destruct (isString (kind t)) eqn:Es.
    + destruct (take_strings ts) as [bs' r'] eqn:E. injection H as <- <-.
      apply OK_cons in Hok as [Ht Hok]. destruct (IH bs' r' Hok eq_refl) as [H1 H2].
      split; [|exact H2]. now rewrite forallb_app, H1, (string_tok_ok t Ht Es).
    + injection H as <- <-. auto.
Qed.

Lemma count_amps_ok ts : forall d r, OK ts -> count_amps ts = (d, r) -> OK r.
Proof.
  induction ts as [|t ts IH]; intros d r Hok H; cbn [count_amps] in H.
  - now injection H as <- <-.
  - destruct (isAmpersand (kind t)).
    + destruct (count_amps ts) as [d' r'] eqn:E. injection H as <- <-.
      apply OK_cons in Hok as [_ Hok]. eapply IH; eauto.
    + now injection H as <- <-.
Qed.

Lemma wf_ref_intro nb d b steps :
  (d <= MAX_ADDRESS_DEPTH)%N -> length steps <= MAX_REFERENCE_DEPTH ->
  forallb (wf_step nb) steps = true -> wf_ref nb (Ref d b steps) = true.
Proof.
  intros Hd Hl Hs. cbn [wf_ref]. rewrite Hs. apply N.leb_le in Hd. apply Nat.leb_le in Hl.
  now rewrite Hd, Hl.
Qed.

Lemma wf_ref_succ nb d b steps :
  wf_ref nb (Ref d b steps) = true -> (MAX_ADDRESS_DEPTH <? d + 1)%N = false ->
  wf_ref nb (Ref (d + 1) b steps) = true.
Proof.
  intros Hwf Ed. apply N.ltb_ge in Ed. cbn [wf_ref] in Hwf.
  apply andb_prop in Hwf as [Hwf Hss]. apply andb_prop in Hwf as [_ Hlen].
  apply wf_ref_intro; [exact Ed|now apply Nat.leb_le|exact Hss].
Qed.

Lemma wf_bit nb op acc x :
  bitop_of (kind_of_binop op) = Some op -> wf_expr nb acc = true -> wf_expr nb x = true ->
  lvl x <= 1 -> chain_ok op acc = true -> redge nb acc (kind_of_binop op) = true ->
  wf_expr nb (EBinary op acc x) = true.
Proof.
  intros Hop Hwf Hwf1 Hl1 Hch Hre. apply Nat.leb_le in Hl1. unfold chain_ok in Hch.
  destruct (bitop_cases op Hop) as [->|[->| ->]]; cbn [wf_expr]; now rewrite Hwf, Hwf1, Hl1, Hre, Hch.
Qed.

(* Results of the expression parser.  [edge]: the `..` offsets at the right edge of [e] are
   whole expressions, and a token that ends a primary expression ends them; [ERes]: a
   result of the parser of level [lv]; [FRes]: a result of parse_addition, whose top operator
   may be a bitwise chain or a shift. *)
Definition edge nb (e : expr) (r : list tok) : Prop :=
  pstop nb (hdk r) = true -> redge nb e (hdk r) = true.

Definition ERes nb lv (e : expr) (r : list tok) : Prop :=
  wf_expr nb e = true /\ lvl e <= lv /\ edge nb e r.

Definition FRes nb (e : expr) (r : list tok) : Prop :=
  wf_expr nb e = true /\ (pstop nb (hdk r) = true -> estop nb e (hdk r) = true).

Lemma ERes_weaken nb lv lv' e r : lv <= lv' -> ERes nb lv e r -> ERes nb lv' e r.
Proof. intros Hle (H1 & H2 & H3). repeat split; auto. lia. Qed.

Lemma edge_trivial nb e r : (forall k, redge nb e k = true) -> edge nb e r.
Proof. intros H _. apply H. Qed.

Lemma negated_res nb x r : ERes nb 0 x r -> ERes nb 1 (negated x) r.
Proof.
  intros (Hwf1 & Hl1 & He1). assert (Hl0 : lvl x = 0) by lia.
  destruct x as [| | |v t|v t| | | | | | | | | |]; cbn [negated];
    try (split; [|split; [cbn [lvl]; lia|intros Hps; cbn [redge]; exact (He1 Hps)]];
         apply wf_neg; [exact Hwf1|exact Hl0|reflexivity]).
  - (* ESigned *)
    destruct (0 <? v)%Z eqn:Ev.
    + destruct (wf_signed_pos nb v t Hwf1 Ev) as (Hhi & Ht). apply Z.ltb_lt in Ev.
      split; [|split; [|intros _; reflexivity]].
      * apply wf_signed_intro; [lia|lia|exact Ht].
      * cbn [lvl]. destruct (- v <? 0)%Z; lia.
    + split; [|split; [cbn [lvl]; lia|intros _; reflexivity]].
      apply wf_neg; [exact Hwf1|exact Hl0|exact Ev].
  - (* EBits: the magnitude of i128::MIN *)
    destruct (v =? i128_min_abs)%Z eqn:Ev.
    + apply Z.eqb_eq in Ev. subst v.
      split; [|split; [|intros _; reflexivity]].
      2: { cbn [lvl]. match goal with |- (if ?b then _ else _) <= _ => destruct b; lia end. }
      cbn [wf_expr] in Hwf1 |- *. apply andb_prop in Hwf1 as [_ Ht].
      change (- i128_min_abs =? - i128_min_abs)%Z with true.
      replace (lit_type_ok_min t) with true; [apply orb_true_r|].
      destruct t as [[]|]; try reflexivity; discriminate Ht.
    + split; [|split; [cbn [lvl]; lia|intros _; reflexivity]].
      apply wf_neg; [exact Hwf1|exact Hl0|exact Ev].
Qed.

(* The next token continues none of the loops up to level [lv] (`as`, then `* / %`). *)
Definition after lv (k : tkind) : Prop :=
  match lv with
  | 0 | 1 => True
  | 2 => isAs k = false
  | _ => isAs k = false /\ mulop_of k = None
  end.

(* What is claimed of the successful runs of each function of the expression parser, on
   tokens with payloads in range ([QL lv]: the parser of level [lv]).  A loop claims what the
   parser of its level does, given what holds of its accumulator.  The arguments are those [runs]
   passes, less the fuel; not every claim needs all of them. *)
Definition QL lv nb (ts : list tok) e r := OK ts -> OK r /\ ERes nb lv e r /\ after lv (hdk r).
Definition Qadd nb (ts : list tok) e r := OK ts -> OK r /\ FRes nb e r.
Definition Qas nb acc ts e r := ERes nb 2 acc ts -> QL 2 nb ts e r.
Definition Qmull nb acc ts e r := ERes nb 3 acc ts -> after 2 (hdk ts) -> QL 3 nb ts e r.
Definition Qaddl nb acc ts e r := ERes nb 4 acc ts -> after 3 (hdk ts) -> Qadd nb ts e r.
Definition Qbit nb op acc ts e r :=
  bitop_of (kind_of_binop op) = Some op -> wf_expr nb acc = true ->
  chain_ok op acc = true -> redge nb acc (kind_of_binop op) = true -> Qadd nb ts e r.
Definition Qlist nb (br : bool) (ts : list tok) es r := OK ts -> OK r /\ forallb (wf_expr nb) es = true.
Definition Qmem nb (ts : list tok) ms r :=
  OK ts -> OK r /\ forallb (fun me : name * expr => let '(_, e) := me in wf_expr nb e) ms = true.
Definition Qref nb (ts : list tok) x r := OK ts -> OK r /\ wf_ref nb x = true.
Definition Qsteps nb k (ts : list tok) ss r :=
  k <= MAX_REFERENCE_DEPTH -> OK ts ->
  OK r /\ forallb (wf_step nb) ss = true /\ k + length ss <= MAX_REFERENCE_DEPTH.

Lemma member_value_wf nb f n ts1 e ts2 :
  member_value nb (fun _ => Qadd nb) f n ts1 e ts2 -> OK ts1 -> OK ts2 /\ wf_expr nb e = true.
Proof.
  intros [[_ [_ Ha]]|(_ & -> & ->)] Hok; [|auto].
  destruct (Ha (OK_tl _ Hok)) as (H1 & H2 & _). auto.
Qed.

Theorem expr_range nb f :
  (forall ts, Res (FRes nb) ts (parse_addition f nb ts)) /\
  (forall br ts, Res (fun es _ => forallb (wf_expr nb) es = true) ts (expr_list f nb br ts)) /\
  (forall ts, Res (fun x _ => wf_ref nb x = true) ts (parse_reference f nb ts)) /\
  (forall ts, Res (fun ss _ => forallb (wf_step nb) ss = true /\ length ss <= MAX_REFERENCE_DEPTH) ts
                  (steps_loop f nb 0 ts)).
Proof.
  (* [H]: what [runs] concludes from the claims [Q..] below, for every function of the block *)
  eassert (H : forall f : nat, _); [clear f|].
  apply (runs nb (fun _ => Qadd nb) (fun _ => QL 3 nb) (fun _ => QL 2 nb) (fun _ => QL 1 nb)
              (fun _ => QL 0 nb) (fun _ => Qaddl nb) (fun _ => Qmull nb) (fun _ => Qas nb)
              (fun _ => Qbit nb) (fun _ => Qlist nb) (fun _ => Qmem nb) (fun _ => Qref nb)
              (fun _ => Qsteps nb)).
  - (* parse_addition *)
    intros f ts m ts1 e r [_ Hm] [_ Hl] Hok. destruct (Hm Hok) as (Hok1 & He & Haft).
    apply Hl; auto. eapply ERes_weaken; [|exact He]. lia.
  - (* add_loop: bitwise chain *)
    intros f acc ts op e r Eb Ebin [_ Hb] (Hwf & Hl & He) Haft Hok.
    destruct (bitop_of_inv _ _ Eb) as (Ek & Hop & Hp).
    apply Hb; [exact Hop|exact Hwf| | |exact (OK_tl _ Hok)].
    + destruct acc; cbn [is_binary] in Ebin; try discriminate Ebin; cbn [chain_ok];
        apply Nat.leb_le; apply nonbinary_lvl; reflexivity.
    + rewrite Ek. apply He. apply Hp.
  - (* add_loop: shift *)
    intros f acc ts op x r Eb Es Ebin [_ Hu] (Hwf & Hl & He) Haft Hok.
    destruct (shiftop_of_inv _ _ Es) as (Ek & Hop & Hp).
    destruct (Hu (OK_tl _ Hok)) as (Hok1 & (Hwf1 & Hl1 & He1) & _).
    pose proof (nonbinary_lvl _ Ebin) as Hl2.
    assert (Hre : redge nb acc (kind_of_binop op) = true) by (rewrite Ek; apply He; apply Hp).
    repeat split; [exact Hok1| |].
    + apply Nat.leb_le in Hl1, Hl2.
      destruct Hop as [-> | ->]; cbn [wf_expr]; now rewrite Hwf, Hwf1, Ebin, Hl1, Hl2, Hre.
    + intros Hps. unfold estop. destruct Hop as [-> | ->]; cbn [redge top_stop];
        rewrite (He1 Hps), Hps; reflexivity.
  - (* add_loop: + - *)
    intros f acc ts op x ts1 e r Eb Es Ea [_ Hm] [_ Hal] (Hwf & Hl & He) Haft Hok.
    destruct (addop_of_inv _ _ Ea) as (Ek & Hop & Hp).
    destruct (Hm (OK_tl _ Hok)) as (Hok1 & (Hwf1 & Hl1 & He1) & Haft1).
    assert (Hre : redge nb acc (kind_of_binop op) = true) by (rewrite Ek; apply He; apply Hp).
    apply Hal; [|exact Haft1|exact Hok1].
    repeat split.
    + apply Nat.leb_le in Hl1, Hl.
      destruct Hop as [-> | ->]; cbn [wf_expr]; now rewrite Hwf, Hwf1, Hl1, Hl, Hre.
    + destruct Hop as [-> | ->]; cbn [lvl]; lia.
    + intros Hps. destruct Hop as [-> | ->]; cbn [redge]; exact (He1 Hps).
  - (* add_loop: stop *)
    intros f acc ts Eb Es Ea (Hwf & Hl & He) [Has Hmul] Hok. repeat split; [exact Hok|exact Hwf|].
    intros Hps. unfold estop. rewrite (He Hps). rewrite (top_stop_low nb acc _ Hl).
    apply stopl_intro; auto.
  - (* bit_loop: same operator again *)
    intros f op acc ts x ts1 e r [_ Hu] E1 [_ Hbl] Hop Hwf Hch Hre Hok.
    destruct (Hu Hok) as (Hok1 & (Hwf1 & Hl1 & He1) & _). pose proof (same_bitop_inv _ _ E1) as Ek.
    apply Hbl; [exact Hop|now apply wf_bit| | |exact (OK_tl _ Hok1)].
    + cbn [chain_ok]. apply binop_eqb_refl.
    + assert (Hp : pstop nb (hdk ts1) = true).
      { rewrite <- Ek. apply (bitop_of_inv _ _ Hop). }
      specialize (He1 Hp). rewrite <- Ek in He1.
      destruct (bitop_cases op Hop) as [->|[->| ->]]; cbn [redge]; exact He1.
  - (* bit_loop: stop *)
    intros f op acc ts x ts1 [_ Hu] E1 Hop Hwf Hch Hre Hok.
    destruct (Hu Hok) as (Hok1 & (Hwf1 & Hl1 & He1) & _).
    repeat split; [exact Hok1|now apply wf_bit|].
    intros Hps. unfold estop.
    destruct (bitop_cases op Hop) as [->|[->| ->]]; cbn [redge top_stop];
      rewrite (He1 Hps), Hps, E1; reflexivity.
  - (* parse_multiplication *)
    intros f ts m ts1 e r [_ Hs] [_ Hml] Hok. destruct (Hs Hok) as (Hok1 & He & Has).
    apply Hml; auto. eapply ERes_weaken; [|exact He]. lia.
  - (* mul_loop: * / % *)
    intros f acc ts op x ts1 e r Em [_ Hs] [_ Hml] (Hwf & Hl & He) Has Hok.
    destruct (mulop_of_inv _ _ Em) as (Ek & Hop & Hp).
    destruct (Hs (OK_tl _ Hok)) as (Hok1 & (Hwf1 & Hl1 & He1) & Has1).
    assert (Hre : redge nb acc (kind_of_binop op) = true) by (rewrite Ek; apply He; apply Hp).
    apply Hml; [|exact Has1|exact Hok1].
    repeat split.
    + apply Nat.leb_le in Hl1, Hl.
      destruct Hop as [-> | [-> | ->]]; cbn [wf_expr]; now rewrite Hwf, Hwf1, Hl1, Hl, Hre.
    + destruct Hop as [-> | [-> | ->]]; cbn [lvl]; lia.
    + intros Hps. destruct Hop as [-> | [-> | ->]]; cbn [redge]; exact (He1 Hps).
  - (* mul_loop: stop *)
    intros f acc ts Em (Hwf & Hl & He) Has Hok. repeat split; auto.
  - (* parse_singular: cast *)
    intros f ts x ts1 e r Ec [_ Hu] [_ Has] Hok.
    destruct (Hu (OK_tl _ Hok)) as (Hok1 & (Hwf1 & Hl1 & He1) & _).
    apply Has; [|exact Hok1]. repeat split; [|cbn [lvl]; lia|intros Hps; cbn [redge]; exact (He1 Hps)].
    cbn [wf_expr]. apply Nat.leb_le in Hl1. now rewrite Hwf1, Hl1.
  - (* parse_singular *)
    intros f ts x ts1 e r Ec [_ Hu] [_ Has] Hok. destruct (Hu Hok) as (Hok1 & He & _).
    apply Has; [|exact Hok1]. eapply ERes_weaken; [|exact He]. lia.
  - (* as_loop: as type *)
    intros f acc ts t ts1 e r Eas Et [_ IH] (Hwf & Hl & He) Hok.
    destruct (parse_wellformed_type_res f _ _ _ Et (OK_tl _ Hok)) as [Hok' Ht].
    apply IH; [|exact Hok']. split; [|split; [cbn [lvl]; lia|intros _; reflexivity]].
    cbn [wf_expr]. rewrite Hwf, Ht. apply Nat.leb_le in Hl. rewrite Hl.
    unfold edge in He. rewrite (isAs_eq _ Eas) in He. rewrite (He (pstop_as nb)). reflexivity.
  - (* as_loop: stop *)
    intros f acc ts Eas He Hok. exact (conj Hok (conj He Eas)).
  - (* |: type | *)
    intros f ts t ts1 r Ek Et Ep Hok.
    destruct (parse_wellformed_type_res f _ _ _ Et (OK_tl _ Hok)) as [Hok' Ht].
    pose proof (expect_OK _ _ _ Ep Hok'). repeat split; auto; cbn [lvl]; lia.
  - (* | reference | *)
    intros f ts x ts1 r Ek [_ Hr] Ep Hok. destruct (Hr (OK_tl _ Hok)) as [Hok1 Hwf1].
    pose proof (expect_OK _ _ _ Ep Hok1). repeat split; auto; cbn [lvl]; lia.
  - (* ! *)
    intros f ts x r Ek [_ Hp] Hok. destruct (Hp (OK_tl _ Hok)) as (Hok1 & (Hwf1 & Hl1 & He1) & _).
    repeat split; [exact Hok1| |cbn [lvl]; lia|intros Hps; cbn [redge]; exact (He1 Hps)].
    cbn [wf_expr]. assert (lvl x = 0) as -> by lia. now rewrite Hwf1.
  - (* - *)
    intros f ts x r Ek [_ Hp] Hok. destruct (Hp (OK_tl _ Hok)) as (Hok1 & He & _).
    exact (conj Hok1 (conj (negated_res nb x r He) I)).
  - (* parse_unary: a primary expression *)
    intros f ts e r Eu [_ Hp] Hok. destruct (Hp Hok) as (Hok1 & He & _).
    exact (conj Hok1 (conj (ERes_weaken nb 0 1 e r (Nat.le_0_l 1) He) I)).
  - (* literal *)
    intros f t ts e El Hok. apply OK_cons in Hok as [Ht Hok].
    destruct (literal_wf nb t e Ht El) as (H1 & H2 & H3).
    repeat split; auto; [lia|]. intros _. apply H3.
  - (* string *)
    intros f t ts bs r Ek Et Hok. apply OK_cons in Hok as [Ht Hok].
    destruct (take_strings_ok ts bs r Hok Et) as [H1 H2].
    repeat split; auto.
    cbn [wf_expr]. now rewrite forallb_app, (string_tok_ok t Ht (f_equal isString Ek)), H1.
  - (* call *)
    intros f t ts args ts2 r Ek Ep [_ Hl] Er Hok. apply OK_cons in Hok as [_ Hok].
    destruct (Hl (OK_tl _ Hok)) as (Hok1 & Hwf1). pose proof (expect_OK _ _ _ Er Hok1).
    repeat split; auto.
  - (* structural literal *)
    intros f t ts ms ts2 r Ek Ep Eb [_ Hm] Er Hok. apply OK_cons in Hok as [_ Hok].
    destruct (Hm (OK_tl _ Hok)) as (Hok1 & Hwf1). pose proof (expect_OK _ _ _ Er Hok1).
    apply andb_prop in Eb as [_ Eb].
    repeat split; auto. cbn [wf_expr]. now rewrite Eb, Hwf1.
  - (* reference *)
    intros f t ts steps r Ek Ep Eb [_ Hs] Hok. apply OK_cons in Hok as [_ Hok].
    destruct (Hs (Nat.le_0_l _) Hok) as (Hok1 & Hwf1 & Hlen).
    repeat split; auto. cbn [wf_expr]. apply wf_ref_intro; auto; lia.
  - (* builtin call *)
    intros f t ts ts2 args ts3 r Ek Ep [_ Hl] Er Hok. apply OK_cons in Hok as [_ Hok].
    destruct (Hl (expect_OK _ _ _ Ep Hok)) as (Hok1 & Hwf1). pose proof (expect_OK _ _ _ Er Hok1).
    repeat split; auto.
  - (* &reference *)
    intros f t ts d b steps ts2 Ek [_ Hr] Ed Edots Hok. apply OK_cons in Hok as [_ Hok].
    destruct (Hr Hok) as (Hok2 & Hwf2).
    repeat split; auto. cbn [wf_expr]. now apply wf_ref_succ.
  - (* &reference .. offset *)
    intros f t ts d b steps ts2 off r Ek [_ Hr] Ed Edots [_ Ha] Hok. apply OK_cons in Hok as [_ Hok].
    destruct (Hr Hok) as (Hok2 & Hwf2). destruct (Ha (OK_tl _ Hok2)) as (Hok3 & Hwf3 & He3).
    repeat split; [exact Hok3| |cbn [lvl]; lia|intros Hps; cbn [redge]; exact (He3 Hps)].
    cbn [wf_expr]. rewrite (wf_ref_succ _ _ _ _ Hwf2 Ed), Hwf3.
    replace (1 <=? d + 1)%N with true; [reflexivity|]. symmetry. apply N.leb_le. lia.
  - (* array *)
    intros f t ts es ts2 r Ek [_ Hl] Er Hok. apply OK_cons in Hok as [_ Hok].
    destruct (Hl Hok) as (Hok1 & Hwf1). pose proof (expect_OK _ _ _ Er Hok1).
    repeat split; auto.
  - (* parentheses *)
    intros f t ts e ts2 r Ek [_ Ha] Er Hok. apply OK_cons in Hok as [_ Hok].
    destruct (Ha Hok) as (Hok1 & Hwf1 & _). pose proof (expect_OK _ _ _ Er Hok1).
    repeat split; auto.
  - (* expr_list *)
    intros f br ts Ec Hok. split; [exact Hok|reflexivity].
  - intros f br ts e ts1 es r Ec [_ Ha] Ecomma [_ Hl] Hok. destruct (Ha Hok) as (Hok1 & Hwf1 & _).
    destruct (Hl (OK_tl _ Hok1)) as (Hok2 & Hwf2).
    split; [exact Hok2|]. cbn [forallb]. now rewrite Hwf1, Hwf2.
  - intros f br ts e ts1 Ec [_ Ha] Ecomma Hok. destruct (Ha Hok) as (Hok1 & Hwf1 & _).
    split; [exact Hok1|]. cbn [forallb]. now rewrite Hwf1.
  - (* members_loop *)
    intros f ts Eb Hok. split; [exact Hok|reflexivity].
  - intros f ts n ts1 e ts2 ms r Eb Eid Hv Ecomma [_ Hm] Hok.
    destruct (member_value_wf _ _ _ _ _ _ Hv (expect_id_OK _ _ _ Eid Hok)) as [Hok2 Hwf2].
    destruct (Hm (OK_tl _ Hok2)) as (Hok3 & Hwf3).
    split; [exact Hok3|]. cbn [forallb]. now rewrite Hwf2, Hwf3.
  - intros f ts n ts1 e ts2 Eb Eid Hv Ecomma Hok.
    destruct (member_value_wf _ _ _ _ _ _ Hv (expect_id_OK _ _ _ Eid Hok)) as [Hok2 Hwf2].
    split; [exact Hok2|]. cbn [forallb]. now rewrite Hwf2.
  - (* parse_reference *)
    intros f ts d ts1 b ts2 steps r Ec Ed Eid [_ Hs] Hok.
    pose proof (count_amps_ok _ _ _ Hok Ec) as Hok1.
    destruct (Hs (Nat.le_0_l _) (expect_id_OK _ _ _ Eid Hok1)) as (Hok3 & Hwf3 & Hlen).
    split; [exact Hok3|]. apply N.ltb_ge in Ed. apply wf_ref_intro; [exact Ed|lia|exact Hwf3].
  - (* steps_loop *)
    intros f k ts e ts1 ts2 ss r Eb [_ Ha] Er Ek [_ Hs] Hk Hok.
    destruct (Ha (OK_tl _ Hok)) as (Hok1 & Hwf1 & _).
    apply Nat.ltb_ge in Ek.
    destruct (Hs Ek (expect_OK _ _ _ Er Hok1)) as (Hok3 & Hwf3 & Hlen).
    split; [exact Hok3|]. cbn [forallb wf_step length]. rewrite Hwf1, Hwf3. split; [reflexivity|lia].
  - intros f k ts m ts1 ss r Eb Ed Eid Ek [_ Hs] Hk Hok.
    apply Nat.ltb_ge in Ek.
    destruct (Hs Ek (expect_id_OK _ _ _ Eid (OK_tl _ Hok))) as (Hok3 & Hwf3 & Hlen).
    split; [exact Hok3|]. cbn [forallb wf_step length]. rewrite Hwf3. split; [reflexivity|lia].
  - intros f k ts Eb Ed Hk Hok. split; [exact Hok|]. split; [reflexivity|]. cbn [length]. lia.
  - (* the statement, from [H] *)
    destruct (H f) as (Ha & _ & _ & _ & _ & _ & _ & _ & Hl & _ & Hr & Hs).
    refine (conj Ha (conj Hl (conj Hr _))).
    intros ts ss r E. exact (Hs 0 ts ss r E (Nat.le_0_l _)).
Qed.

Lemma parse_expression_res f ts : Res (fun e _ => wf_expr false e = true) ts (parse_addition f false ts).
Proof. intros e r H Hok. destruct (proj1 (expr_range false f) ts e r H Hok) as (H1 & H2 & _). auto. Qed.

Lemma parse_arguments_res f ts : Res (fun args _ => forallb (wf_expr false) args = true) ts (parse_arguments f ts).
Proof.
  unfold parse_arguments. apply Res_expect. intros ts1.
  eapply Res_bind; [apply expr_range|]. intros args ts2 Hwf.
  apply Res_expect. intros ts3. apply Res_ret. exact Hwf.
Qed.

Lemma parse_assign_tail_res f ts : Res (fun e _ => wf_expr false e = true) ts (parse_assign_tail f ts).
Proof.
  unfold parse_assign_tail. apply Res_expect. intros ts1.
  eapply Res_bind; [apply parse_expression_res|]. intros e ts2 Hwf.
  apply Res_expect. intros ts3. apply Res_ret. exact Hwf.
Qed.

Lemma parse_comparison_res f ts :
  Res (fun x r => let '(_, l, r0) := x in wf_expr true l = true /\ FRes true r0 r)
      ts (parse_comparison f ts).
Proof.
  unfold parse_comparison.
  eapply Res_bind; [apply expr_range|]. intros l ts1 [Hwf1 _].
  destruct (cmpop_of (hdk ts1)) as [op|]; [|apply Res_none]. apply Res_tl.
  eapply Res_bind; [apply expr_range|]. intros r0 ts2 H2.
  apply Res_ret. exact (conj Hwf1 H2).
Qed.

Lemma parse_addressed_reference_res f nb ts :
  Res (fun x _ => let '(Ref d _ _) := x in wf_ref nb x = true /\ (1 <= d)%N) ts
      (parse_addressed_reference f nb ts).
Proof.
  unfold parse_addressed_reference.
  eapply Res_bind; [apply expr_range|]. intros [d b steps] ts1 Hwf1.
  destruct (MAX_ADDRESS_DEPTH <? d + 1)%N eqn:Ed; [apply Res_none|]. apply Res_ret.
  split; [now apply wf_ref_succ|lia].
Qed.

(* An optional clause: present when the test [c] on the next token says so. *)
Lemma Res_opt {A : Type} (P : A -> bool) (c : bool) (p : option (A * list tok)) ts :
  Res (fun a _ => P a = true) (tl ts) p ->
  Res (fun o _ => opt_ok P o = true) ts
      (if c then match p with Some (a, r) => Some (Some a, r) | None => None end else Some (None, ts)).
Proof.
  intros Hp. destruct c; [|now apply Res_ret]. apply Res_tl.
  eapply Res_bind; [exact Hp|]. intros a r H. apply Res_ret. exact H.
Qed.

(* The statement parser also tells the kind of its first token and whether the statement
   ends in an `if` without `else` that the next token does not continue. *)
Definition SRes (ts : list tok) (s : stmt) (r : list tok) : Prop :=
  wf_stmt s = true /\ hdk ts = first_kind_stmt s /\ (open_if s = true -> isElse (hdk r) = false).

Theorem stmt_range f :
  (forall ts, Res (SRes ts) ts (parse_statement f ts)) /\
  (forall ts, Res (fun ss _ => forallb wf_stmt ss = true) ts (block_loop f ts)).
Proof.
  induction f as [|f [Hs Hb]]; [split; intros; apply Res_none|]. split; intros ts.
  - rewrite parse_statement_S. destruct ts as [|t ts1]; [apply Res_none|]. apply Res_tl.
    destruct (kind t) eqn:Ek; try apply Res_none.
    + (* { *)
      eapply Res_bind; [apply Hb|]. intros ss ts2 Hwf. apply Res_ret.
      repeat split; auto. discriminate.
    + (* & *)
      eapply Res_bind; [apply parse_addressed_reference_res|].
      intros [d b steps] ts2 (Hwf2 & Hd).
      eapply Res_bind; [apply parse_assign_tail_res|]. intros e ts3 Hwf3.
      apply Res_ret. repeat split.
      * cbn [wf_stmt]. now rewrite Hwf2, Hwf3.
      * cbn [hdk first_kind_stmt]. destruct d; [lia|exact Ek].
      * discriminate.
    + (* var *)
      eapply Res_bind; [apply expect_id_res|]. intros n ts2 _. cbv zeta.
      eapply Res_bind; [exact (Res_opt ty_ok _ _ ts2 (parse_wellformed_type_res f _))|].
      intros ot ts3 Hot.
      eapply Res_bind; [exact (Res_opt (wf_expr false) _ _ ts3 (parse_expression_res f _))|].
      intros ov ts4 Hov. apply Res_expect. intros ts5. apply Res_ret.
      repeat split; auto; [|discriminate].
      cbn [wf_stmt]. now rewrite Hot, Hov.
    + (* if *)
      eapply Res_bind; [apply parse_comparison_res|].
      intros [[op l] r0] ts2 (Hwl & Hwr & Her).
      eapply Res_bind; [apply Hs|]. intros th ts3 (Hwth & Hfk & Hopen).
      assert (Hes : estop true r0 (first_kind_stmt th) = true).
      { rewrite <- Hfk. apply Her. rewrite Hfk. apply first_kind_facts. }
      destruct (isElse (hdk ts3)) eqn:Eelse.
      * apply Res_tl. eapply Res_bind; [apply Hs|]. intros el ts4 (Hwel & _ & Hopen2).
        apply Res_ret. repeat split; [|exact Ek|exact Hopen2].
        cbn [wf_stmt]. rewrite Hwl, Hwr, Hwth, Hes, Hwel.
        destruct (open_if th); [|reflexivity]. discriminate (Hopen eq_refl).
      * apply Res_ret. repeat split; [|exact Ek|intros _; exact Eelse].
        cbn [wf_stmt]. now rewrite Hwl, Hwr, Hwth, Hes.
    + (* goto *)
      eapply Res_bind; [apply expect_id_res|]. intros l ts2 _.
      apply Res_expect. intros ts3. apply Res_ret.
      repeat split; auto. discriminate.
    + (* loop *)
      apply Res_expect. intros ts2. apply Res_ret.
      repeat split; auto. discriminate.
    + (* identifier *)
      destruct (isColon (hdk ts1)) eqn:Ecol.
      { apply Res_tl, Res_ret. repeat split; auto. discriminate. }
      destruct (isParenLeft (hdk ts1)) eqn:Epar.
      * eapply Res_bind; [apply parse_arguments_res|]. intros args ts2 Hwf2.
        apply Res_expect. intros ts3. apply Res_ret.
        repeat split; auto. discriminate.
      * eapply Res_bind; [apply expr_range|]. intros steps ts2 (Hwf2 & Hlen).
        eapply Res_bind; [apply parse_assign_tail_res|]. intros e ts3 Hwf3.
        apply Res_ret. repeat split; auto; [|discriminate].
        cbn [wf_stmt]. rewrite Hwf3, wf_ref_intro; auto. lia.
    + (* builtin *)
      eapply Res_bind; [apply parse_arguments_res|]. intros args ts2 Hwf2.
      apply Res_expect. intros ts3. apply Res_ret.
      repeat split; auto. discriminate.
  - rewrite block_loop_S.
    destruct (isBraceRight (hdk ts)); [now apply Res_tl, Res_ret|].
    eapply Res_bind; [apply Hs|]. intros s ts1 (Hwf1 & _).
    eapply Res_bind; [apply Hb|]. intros ss ts2 Hwf2. apply Res_ret.
    cbn [forallb]. now rewrite Hwf1, Hwf2.
Qed.

Lemma body_loop_res f : forall ts, Res (fun b _ => wf_body b = true) ts (body_loop f ts).
Proof.
  induction f as [|f IH]; intros ts; [apply Res_none|]. rewrite body_loop_S.
  destruct (isBraceRight (hdk ts)); [now apply Res_tl, Res_ret|].
  eapply Res_bind; [apply (proj1 (stmt_range f))|]. intros s ts1 (Hwf1 & _).
  destruct (is_return_label s) eqn:Eret.
  - destruct (isBraceRight (hdk ts1)); [apply Res_none|].
    eapply Res_bind; [apply parse_expression_res|]. intros e ts2 Hwf2.
    apply Res_expect. intros ts3. apply Res_ret.
    unfold wf_body. cbn [forallb opt_ok body_shape]. now rewrite Hwf1, Hwf2, Eret.
  - eapply Res_bind; [apply IH|]. intros [ss rv] ts2 Hwf2. apply Res_ret.
    unfold wf_body in *. cbn [forallb body_shape]. rewrite Hwf1, Eret.
    exact Hwf2.
Qed.

Lemma parse_typed_name_res f ts : Res (fun m _ => wf_typed_name m = true) ts (parse_typed_name f ts).
Proof.
  unfold parse_typed_name.
  eapply Res_bind; [apply expect_id_res|]. intros n ts1 _.
  apply Res_expect. intros ts2.
  eapply Res_bind; [apply parse_wellformed_type_res|]. intros t ts3 H. apply Res_ret.
  exact H.
Qed.

Lemma typed_names_res f : forall br ts,
  Res (fun ms _ => forallb wf_typed_name ms = true) ts (typed_names f br ts).
Proof.
  induction f as [|f IH]; intros br ts; [apply Res_none|]. rewrite typed_names_S.
  destruct (is_close_tn br (hdk ts)); [now apply Res_ret|].
  eapply Res_bind; [apply parse_typed_name_res|]. intros m ts1 Hwf1.
  destruct (isComma (hdk ts1)).
  - apply Res_tl. eapply Res_bind; [apply IH|]. intros ms ts2 Hwf2. apply Res_ret.
    cbn [forallb]. now rewrite Hwf1, Hwf2.
  - apply Res_ret. cbn [forallb]. now rewrite Hwf1.
Qed.

Lemma parse_struct_members_res f ts :
  Res (fun ms _ => forallb wf_typed_name ms = true) ts (parse_struct_members f ts).
Proof.
  unfold parse_struct_members. apply Res_expect. intros ts1.
  eapply Res_bind; [apply typed_names_res|]. intros ms ts2 Hwf.
  apply Res_expect. intros ts3. apply Res_ret. exact Hwf.
Qed.

Lemma struct_decl_res f pub ext k n ts :
  k <> SkOpaque ->
  Res (fun d _ => wf_decl d = true) ts
      (match parse_struct_members f ts with
       | Some (ms, ts4) => Some (DStruct pub ext k n ms, ts4)
       | None => None
       end).
Proof.
  intros Hk. eapply Res_bind; [apply parse_struct_members_res|].
  intros ms ts4 H2. apply Res_ret. cbn [wf_decl]. rewrite H2. now destruct k.
Qed.

Lemma parse_declaration_rest_res f pub ext ts :
  Res (fun d _ => wf_decl d = true) ts (parse_declaration_rest f pub ext ts).
Proof.
  unfold parse_declaration_rest. destruct ts as [|t ts2]; [apply Res_none|]. apply Res_tl.
  destruct (kind t) eqn:Ek; try apply Res_none.
  (* word8 ... word128 *)
  5-9: cbn [word_kind]; (eapply Res_bind; [apply expect_id_res|]); intros n ts3 _;
    apply struct_decl_res; discriminate.
  - (* fn *)
    eapply Res_bind; [apply expect_id_res|]. intros n ts3 _.
    apply Res_expect. intros ts4.
    eapply Res_bind; [apply typed_names_res|]. intros ps ts5 Hps.
    apply Res_expect. intros ts6. cbv zeta.
    eapply Res_bind with (P := fun ret _ => ty_ok ret = true).
    { destruct (isArrow (hdk ts6)); [apply Res_tl, parse_wellformed_type_res|now apply Res_ret]. }
    intros ret ts7 Hret. destruct (isSemicolon (hdk ts7)).
    + apply Res_tl, Res_ret. cbn [wf_decl opt_ok]. now rewrite Hps, Hret.
    + apply Res_expect. intros ts8.
      eapply Res_bind; [apply body_loop_res|]. intros b ts9 Hb. apply Res_ret.
      cbn [wf_decl opt_ok]. now rewrite Hps, Hret, Hb.
  - (* const *)
    eapply Res_bind; [apply parse_typed_name_res|]. intros [n ty0] ts3 Hwf3.
    eapply Res_bind; [apply parse_assign_tail_res|]. intros e ts4 Hwf4.
    apply Res_ret. cbn [wf_decl]. unfold wf_typed_name in Hwf3.
    cbn [snd] in Hwf3. now rewrite Hwf3, Hwf4.
  - (* import *)
    destruct ts2 as [|s0 ts3]; [apply Res_none|]. apply Res_tl.
    destruct (isString (kind s0) && utf8_valid (bytes s0)) eqn:Es; [|apply Res_none].
    apply Res_expect. intros ts4. apply Res_ret.
    cbn [wf_decl]. now apply andb_prop in Es as [_ Es].
  - (* struct *)
    eapply Res_bind; [apply expect_id_res|]. intros n ts3 _.
    destruct (isSemicolon (hdk ts3)).
    + now apply Res_tl, Res_ret.
    + apply struct_decl_res. discriminate.
Qed.

Lemma parse_declaration_res f ts : Res (fun d _ => wf_decl d = true) ts (parse_declaration f ts).
Proof.
  unfold parse_declaration. cbv zeta.
  destruct (isPub (hdk ts)); [apply Res_tl|];
    (destruct (isExtern (hdk _)); [apply Res_tl|]); apply parse_declaration_rest_res.
Qed.

Lemma decls_loop_wf f : forall inner ts ds,
  OK ts -> decls_loop f inner ts = Some ds -> wf_module ds = true.
Proof.
  induction f as [|f IH]; intros inner ts ds Hok H; [discriminate H|].
  rewrite decls_loop_S in H. destruct ts as [|t ts']; [injection H as <-; reflexivity|].
  destruct (parse_declaration inner (t :: ts')) as [[d ts1]|] eqn:Ed; [|discriminate H].
  destruct (parse_declaration_res _ _ _ _ Ed Hok) as [Hok1 Hwf1].
  destruct (decls_loop f inner ts1) as [ds'|] eqn:E; [|discriminate H]. injection H as <-.
  unfold wf_module in *. cbn [forallb]. rewrite Hwf1. exact (IH _ _ _ Hok1 E).
Qed.

Theorem parse_wf fuel ts ds :
  toks_ok ts = true -> parse_module fuel ts = Some ds -> wf_module ds = true.
Proof. intros Hok H. unfold parse_module in H. eapply decls_loop_wf; eauto. Qed.

Theorem parse_expr_wf fuel ts e r :
  toks_ok ts = true -> parse_expr fuel ts = Some (e, r) -> wf_expr false e = true.
Proof. intros Hok H. exact (proj2 (parse_expression_res fuel ts e r H Hok)). Qed.

Theorem parse_statement_range fuel ts s r :
  toks_ok ts = true -> parse_statement fuel ts = Some (s, r) -> wf_stmt s = true.
Proof. intros Hok H. exact (proj1 (proj2 (proj1 (stmt_range fuel) ts s r H Hok))). Qed.

Theorem parse_print_parse fuel ts ds :
  toks_ok ts = true -> parse_module fuel ts = Some ds ->
  exists n, forall fuel', n <= fuel' -> parse_module fuel' (print_module ds) = Some ds.
Proof. intros Hok H. apply parse_print_module. eapply parse_wf; eauto. Qed.

Print Assumptions parse_wf.
Print Assumptions parse_print_parse.
