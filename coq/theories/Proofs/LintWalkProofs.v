(* Proofs about Model/LintWalk.v.  The specification is the list of literal
   occurrences of a declaration ([occs_decl]: position, kind, value, type, in source
   order).  The traversal of linter.rs visits exactly that list, so L1142 is the range
   test evaluated at each typed occurrence; L1800 is raised exactly for a loop that
   opens a block that is directly a branch of an [if].  The pinned traversal and a
   traversal that skips parentheses miss literals.  A typed bit literal directly under
   a negation gets the range test [max + 1 < v] at a signed type, so that -0x80 as i8
   is not flagged; the walk from before that repair flagged it. *)
From PV Require Import Base.Common Model.LintWalk.

(* Expressions are nested in lists of expressions, of members and of reference steps: the
   hypothesis for such a list says that the predicate holds of the expressions in it. *)
Section expr_ind2.
  Variable P : expr -> Prop.
  Definition in_member (m : member) : Prop := match m with MkMember e => P e end.
  Definition in_step (s : refstep) : Prop := match s with RElement a => P a | _ => True end.
  Hypothesis HBinary : forall l r, P l -> P r -> P (EBinary l r).
  Hypothesis HUnary : forall op e, P e -> P (EUnary op e).
  Hypothesis HBool : P EBool.
  Hypothesis HSigned : forall v ty p, P (ESigned v ty p).
  Hypothesis HBit : forall v ty p, P (EBit v ty p).
  Hypothesis HString : P EString.
  Hypothesis HArray : forall els, Forall P els -> P (EArray els).
  Hypothesis HStructural : forall ms, Forall in_member ms -> P (EStructural ms).
  Hypothesis HParen : forall e, P e -> P (EParen e).
  Hypothesis HDeref : forall r, Forall in_step r -> P (EDeref r).
  Hypothesis HAutocoerce : forall e, P e -> P (EAutocoerce e).
  Hypothesis HBitCast : forall e, P e -> P (EBitCast e).
  Hypothesis HTypeCast : forall e, P e -> P (ETypeCast e).
  Hypothesis HLength : forall r, Forall in_step r -> P (ELengthOfArray r).
  Hypothesis HSizeOf : P ESizeOf.
  Hypothesis HCall : forall args, Forall P args -> P (ECall args).
  Hypothesis HPoison : P EPoison.

  Fixpoint expr_ind2 (e : expr) : P e :=
    let go_exprs := Forall_all P expr_ind2 in
    let go_steps := Forall_all in_step
      (fun s => match s return in_step s with RElement a => expr_ind2 a | _ => I end) in
    match e with
    | EBinary l r => HBinary l r (expr_ind2 l) (expr_ind2 r)
    | EUnary op e1 => HUnary op e1 (expr_ind2 e1)
    | EBool => HBool
    | ESigned v ty p => HSigned v ty p
    | EBit v ty p => HBit v ty p
    | EString => HString
    | EArray els => HArray els (go_exprs els)
    | EStructural ms =>
        HStructural ms
          (Forall_all in_member (fun m => match m return in_member m with MkMember e1 => expr_ind2 e1 end) ms)
    | EParen e1 => HParen e1 (expr_ind2 e1)
    | EDeref r => HDeref r (go_steps r)
    | EAutocoerce e1 => HAutocoerce e1 (expr_ind2 e1)
    | EBitCast e1 => HBitCast e1 (expr_ind2 e1)
    | ETypeCast e1 => HTypeCast e1 (expr_ind2 e1)
    | ELengthOfArray r => HLength r (go_steps r)
    | ESizeOf => HSizeOf
    | ECall args => HCall args (go_exprs args)
    | EPoison => HPoison
    end.
End expr_ind2.

(* Statements, with a predicate for the statement lists that [lint_stmts] walks: the
   rest of a block after its first statement, and a function body.  The five cases in
   which the walk returns nothing come first, so that a proof can dispose of them together. *)
Section stmts_ind.
  Variables (P : stmt -> Prop) (Ps : list stmt -> Prop).
  Hypothesis HGoto : P SGoto.
  Hypothesis HLabel : P SLabel.
  Hypothesis HPoison : P SPoison.
  Hypothesis HBlockNil : forall loc, P (SBlock (MkBlock [] loc)).
  Hypothesis HNil : Ps [].
  Hypothesis HLoop : forall loc, P (SLoop loc).
  Hypothesis HDeclaration : forall v, P (SDeclaration v).
  Hypothesis HAssignment : forall r v, P (SAssignment r v).
  Hypothesis HMethodCall : forall args, P (SMethodCall args).
  Hypothesis HIf : forall c t e,
    P t -> match e return Prop with Some (MkElse b _) => P b | None => True end -> P (SIf c t e).
  Hypothesis HBlockCons : forall s ss loc, P s -> Ps ss -> P (SBlock (MkBlock (s :: ss) loc)).
  Hypothesis HCons : forall s ss, P s -> Ps ss -> Ps (s :: ss).

  Fixpoint stmt_ind2 (s : stmt) : P s :=
    let go := list_ind Ps HNil (fun x xs => HCons x xs (stmt_ind2 x)) in
    match s with
    | SDeclaration v => HDeclaration v
    | SAssignment r v => HAssignment r v
    | SMethodCall args => HMethodCall args
    | SLoop loc => HLoop loc
    | SGoto => HGoto
    | SLabel => HLabel
    | SIf c t e =>
        HIf c t e (stmt_ind2 t)
          match e as o
                return match o return Prop with Some (MkElse b _) => P b | None => True end with
          | Some (MkElse b _) => stmt_ind2 b
          | None => I
          end
    | SBlock (MkBlock [] loc) => HBlockNil loc
    | SBlock (MkBlock (x :: xs) loc) => HBlockCons x xs loc (stmt_ind2 x) (go xs)
    | SPoison => HPoison
    end.

  Lemma stmts_ind : (forall s, P s) /\ (forall l, Ps l).
  Proof. split; [exact stmt_ind2|]. induction l; auto using stmt_ind2. Qed.
End stmts_ind.

Lemma flat_map_map_Forall {A B C} (Q : A -> Prop) (h : B -> C) (f : A -> list C) (g : A -> list B) l :
  Forall Q l -> (forall x, Q x -> f x = map h (g x)) -> flat_map f l = map h (flat_map g l).
Proof.
  intros H Hfg. induction H as [|x xs Hx _ IH]; [reflexivity|].
  cbn [flat_map]. now rewrite map_app, IH, (Hfg x Hx).
Qed.

Lemma visits_of_app a b : visits_of (a ++ b) = visits_of a ++ visits_of b.
Proof. unfold visits_of. apply flat_map_app. Qed.

Lemma lint_block_cons s1 others loc st :
  lint_block (MkBlock (s1 :: others) loc) st =
  let st1 := MkState None (match st_naked st with
                           | Some loc_cond => Some (loc_cond, loc)
                           | None => None
                           end) in
  let '(st2, ev1) := lint_stmt s1 st1 in
  let '(st4, ev2) := lint_stmts others (MkState (st_naked st2) None) in
  (st4, ev1 ++ ev2).
Proof. reflexivity. Qed.

Lemma lint_block_nil loc st : lint_block (MkBlock [] loc) st = (st, []).
Proof. reflexivity. Qed.

Lemma lint_stmt_block b st : lint_stmt (SBlock b) st = lint_block b st.
Proof. reflexivity. Qed.

Lemma lint_stmt_if c t e st :
  lint_stmt (SIf c t e) st =
  let ev0 := lint_expr (cmp_left c) ++ lint_expr (cmp_right c) in
  let '(st2, ev1) := lint_stmt t (MkState (Some (cmp_loc c)) None) in
  let '(st3, ev2) :=
    match e with
    | Some (MkElse b loc_else) => lint_stmt b (MkState (Some loc_else) (st_first st2))
    | None => (st2, [])
    end in
  (MkState None (st_first st3), ev0 ++ ev1 ++ ev2).
Proof. reflexivity. Qed.

Definition occ_ev (o : litocc) : lintev := EvLiteral (oc_pos o) (oc_kind o) (oc_val o) (oc_ty o).

Lemma visits_of_occ_ev l : visits_of (map occ_ev l) = l.
Proof.
  unfold visits_of. induction l as [|o l IH]; [reflexivity|].
  cbn [map flat_map occ_ev ev_occ app]. rewrite IH. now destruct o.
Qed.

Lemma l1800s_occ_ev l : flat_map ev_l1800 (map occ_ev l) = [].
Proof. induction l as [|o l IH]; [reflexivity|exact IH]. Qed.

Lemma lint_occs : forall e, lint_expr e = map occ_ev (occs_expr e).
Proof.
  apply expr_ind2; cbn [lint_expr occs_expr]; try reflexivity; try (intros; assumption).
  (* left: Binary, Unary, then the five cases over a list: Array and Call, then Structural, Deref,
     LengthOfArray *)
  3, 7: (intros l IH; apply (flat_map_map_Forall _ _ _ _ _ IH); trivial).
  3-5: (intros l IH; apply (flat_map_map_Forall _ _ _ _ _ IH); intros []; trivial).
  - intros l r IHl IHr. now rewrite map_app, IHl, IHr.
  - intros op e IH. destruct op; [|exact IH]. destruct e; try exact IH.
    destruct ty; [reflexivity|exact IH].
Qed.

(* The argument list of a call and the steps of a reference are linted as [ECall args]
   and [EDeref r] are: the next two lemmas serve them as well. *)
Lemma visits_expr e : visits_of (lint_expr e) = occs_expr e.
Proof. rewrite lint_occs. apply visits_of_occ_ev. Qed.

Lemma l1800s_expr e : flat_map ev_l1800 (lint_expr e) = [].
Proof. rewrite lint_occs. apply l1800s_occ_ev. Qed.

Lemma visits_option o : visits_of (lint_option o) = occs_option o.
Proof. destruct o; [apply visits_expr|reflexivity]. Qed.

Lemma l1800s_option o : flat_map ev_l1800 (lint_option o) = [].
Proof. destruct o; [apply l1800s_expr|reflexivity]. Qed.

(* what a statement reports because of the state it is entered in *)
Definition head_part (s : stmt) (st : lstate) : list (N * N * N) :=
  match s with
  | SLoop l =>
      match st_first st with Some (c, b) => [(l, c, b)] | None => [] end
  | SBlock (MkBlock (SLoop l :: _) loc) =>
      match st_naked st with Some c => [(l, c, loc)] | None => [] end
  | _ => []
  end.

Lemma head_part_branch c t : head_part t (MkState (Some c) None) = first_loop c t.
Proof. destruct t as [ | | | | | | | [[|[] ?] ?] | ]; reflexivity. Qed.

Lemma head_part_default s st :
  st_naked st = None -> st_first st = None -> head_part s st = [].
Proof.
  intros Hn Hf. destruct s as [ | | | | | | | [[|[] ?] ?] | ]; cbn [head_part]; try reflexivity.
  - now rewrite Hf.
  - now rewrite Hn.
Qed.

(* The first statement of a block is entered in the state that makes it report what the
   block has to. *)
Lemma head_part_block s ss loc st :
  head_part s (MkState None (match st_naked st with Some c => Some (c, loc) | None => None end)) =
  head_part (SBlock (MkBlock (s :: ss) loc)) st.
Proof.
  destruct s as [ | | | | | | | [[|[] ?] ?] | ]; try reflexivity.
  cbn [head_part st_first]. destruct (st_naked st); reflexivity.
Qed.

(* What a statement emits and how it leaves the state.  Whatever the state, the literal
   visits are the statement's literals; L1800 is reported where the state on entry calls
   for it ([head_part]) and where the [if]s inside the statement do; a field of the state
   that is None on entry is None on exit. *)
Lemma lint_stmt_spec :
  (forall s st, let '(st', ev) := lint_stmt s st in
     visits_of ev = occs_stmt s /\
     flat_map ev_l1800 ev = head_part s st ++ l1800_spec_stmt s /\
     (st_naked st = None -> st_naked st' = None) /\
     (st_first st = None -> st_first st' = None)) /\
  (forall l st, let '(st', ev) := lint_stmts l st in
     visits_of ev = flat_map occs_stmt l /\
     (st_naked st = None -> st_first st = None ->
      flat_map ev_l1800 ev = flat_map l1800_spec_stmt l /\ st_naked st' = None /\ st_first st' = None)).
Proof.
  apply stmts_ind. 1-5: (intros; repeat split; trivial).
  - intros loc st. cbn [lint_stmt head_part l1800_spec_stmt occs_stmt].
    destruct (st_first st) as [[c b]|] eqn:Hf; cbn [st_naked st_first]; auto.
  - intros v st. cbn [lint_stmt head_part l1800_spec_stmt occs_stmt].
    rewrite l1800s_option, visits_option. auto.
  - intros r v st. cbn [lint_stmt head_part l1800_spec_stmt occs_stmt].
    change (lint_reference r) with (lint_expr (EDeref r)).
    rewrite flat_map_app, visits_of_app, !l1800s_expr, !visits_expr. auto.
  - intros args st. cbn [lint_stmt head_part l1800_spec_stmt occs_stmt].
    change (flat_map lint_expr args) with (lint_expr (ECall args)).
    rewrite l1800s_expr, visits_expr. auto.
  - intros c t e IHt IHe st. rewrite lint_stmt_if. cbn zeta.
    specialize (IHt (MkState (Some (cmp_loc c)) None)).
    destruct (lint_stmt t (MkState (Some (cmp_loc c)) None)) as [st2 ev1].
    destruct IHt as [V1 [H1 [_ H1f]]]. rewrite (H1f eq_refl).
    destruct e as [[b l]|].
    + specialize (IHe (MkState (Some l) None)).
      destruct (lint_stmt b (MkState (Some l) None)) as [st3 ev2].
      destruct IHe as [V2 [H2 [_ H2f]]].
      cbn [st_naked st_first head_part l1800_spec_stmt occs_stmt app] in *.
      split; [|split; [|auto]].
      * rewrite !visits_of_app, !visits_expr, V1, V2. now rewrite <- app_assoc.
      * rewrite !flat_map_app, !l1800s_expr, H1, H2, !head_part_branch. now rewrite !app_assoc.
    + cbn [st_naked st_first head_part l1800_spec_stmt occs_stmt app].
      split; [|split; [|auto]].
      * rewrite !visits_of_app, !visits_expr, V1. now rewrite !app_nil_r, <- app_assoc.
      * rewrite !flat_map_app, !l1800s_expr, H1, head_part_branch. now rewrite !app_nil_r.
  - intros s ss loc IHs IHss st. rewrite lint_stmt_block, lint_block_cons. cbn zeta.
    match goal with |- context [lint_stmt s ?st1] =>
      specialize (IHs st1); destruct (lint_stmt s st1) as [st2 ev1] end.
    destruct IHs as [V1 [H1e [H1n _]]]. specialize (H1n eq_refl).
    specialize (IHss (MkState (st_naked st2) None)).
    destruct (lint_stmts ss (MkState (st_naked st2) None)) as [st4 ev2].
    destruct IHss as [V2 IHss]. destruct (IHss H1n eq_refl) as [H2 [H2n H2f]].
    cbn [occs_stmt l1800_spec_stmt flat_map].
    split; [now rewrite visits_of_app, V1, V2|]. split; [|auto].
    rewrite flat_map_app, H1e, H2, <- app_assoc. f_equal.
    apply head_part_block.
  - intros s ss IHs IHss st. cbn [lint_stmts flat_map].
    specialize (IHs st). destruct (lint_stmt s st) as [st' ev].
    destruct IHs as [V1 [H1 [H1n H1f]]].
    specialize (IHss st'). destruct (lint_stmts ss st') as [st'' ev'].
    destruct IHss as [V2 IHss].
    split; [now rewrite visits_of_app, V1, V2|]. intros Hn Hf.
    destruct (IHss (H1n Hn) (H1f Hf)) as [H2 [H2n H2f]].
    rewrite flat_map_app, H1, H2, (head_part_default s st Hn Hf). auto.
Qed.

Lemma lint_stmt_final_state s st :
  (st_naked st = None -> st_naked (fst (lint_stmt s st)) = None) /\
  (st_first st = None -> st_first (fst (lint_stmt s st)) = None).
Proof. pose proof (proj1 lint_stmt_spec s st) as H. destruct (lint_stmt s st). apply H. Qed.

Lemma lint_decl_in_default d :
  visits_of (snd (lint_decl_in d st_default)) = occs_decl d /\
  flat_map ev_l1800 (snd (lint_decl_in d st_default)) = l1800_spec d /\
  fst (lint_decl_in d st_default) = st_default.
Proof.
  destruct d as [v|[body|]| | | | ]; try (repeat split; reflexivity).
  - cbn [lint_decl_in fst snd l1800_spec occs_decl]. now rewrite l1800s_expr, visits_expr.
  - cbn [lint_decl_in l1800_spec occs_decl]. unfold lint_fbody.
    pose proof (proj2 lint_stmt_spec (fb_statements body) st_default) as H.
    destruct (lint_stmts (fb_statements body) st_default) as [[n f] ev1].
    destruct H as [V H]. destruct (H eq_refl eq_refl) as [H1 [Hn Hf]].
    cbn [fst snd st_naked st_first] in *. subst n f.
    rewrite flat_map_app, visits_of_app, V, H1, l1800s_option, visits_option, app_nil_r. auto.
Qed.

(* The linter looks at exactly the integer literals of the declaration, each
   once, in source order, with the kind, value and type of the literal. *)
Theorem lint_visits_are_occurrences : forall d, lint_visits d = occs_decl d.
Proof. intros d. apply lint_decl_in_default. Qed.

(* the type a literal is checked against is the literal's own value_type *)
Theorem lint_type_is_literal_type : forall d, lint_events d = literals_of_decl d.
Proof. intros d. unfold lint_events, literals_of_decl. now rewrite lint_visits_are_occurrences. Qed.

Theorem lint_reaches_every_literal :
  forall d, map fst (lint_events d) = map fst (literals_of_decl d).
Proof. intros d. now rewrite lint_type_is_literal_type. Qed.

Corollary lint_positions_spec :
  forall d, lint_positions d = map fst (typed_literals (literals_of_decl d)).
Proof. intros d. unfold lint_positions, lint_checked. now rewrite lint_type_is_literal_type. Qed.

Lemma typed_literals_all_typed l :
  Forall (fun x => snd x <> None) l -> map fst (typed_literals l) = map fst l.
Proof.
  intros H. induction H as [|[p [t|]] xs Hx _ IH]; [reflexivity| |].
  - unfold typed_literals in *. cbn [flat_map snd fst app map]. now rewrite IH.
  - now elim Hx.
Qed.

(* when every literal carries a type (the case after successful type inference:
   resolver.rs rejects a literal without one), every visit is range-tested *)
Corollary lint_positions_all_typed d :
  Forall (fun x => snd x <> None) (literals_of_decl d) ->
  lint_positions d = map fst (literals_of_decl d).
Proof.
  intros H. rewrite lint_positions_spec. now apply typed_literals_all_typed.
Qed.

(* L1142 is raised exactly at the typed literal occurrences that fail the range
   test: none is missed ("always"), nothing else is reported ("never"). *)
Theorem l1142_characterisation oor d :
  l1142 oor d = flat_map (occ_l1142 oor) (occs_decl d).
Proof. unfold l1142. now rewrite lint_visits_are_occurrences. Qed.

Corollary l1142_always oor d o t :
  In o (occs_decl d) -> oc_ty o = Some t -> oor (oc_kind o) (oc_val o) t = true ->
  In (oc_pos o) (l1142 oor d).
Proof.
  intros Hin Hty Hoor. rewrite l1142_characterisation. apply in_flat_map.
  exists o. split; [assumption|]. unfold occ_l1142. rewrite Hty, Hoor. now left.
Qed.

Corollary l1142_never oor d p :
  In p (l1142 oor d) ->
  exists o t, In o (occs_decl d) /\ oc_pos o = p /\ oc_ty o = Some t /\
              oor (oc_kind o) (oc_val o) t = true.
Proof.
  rewrite l1142_characterisation. intros H. apply in_flat_map in H.
  destruct H as [o [Hin Hp]]. unfold occ_l1142 in Hp.
  destruct (oc_ty o) as [t|] eqn:Hty; [|contradiction].
  destruct (oor (oc_kind o) (oc_val o) t) eqn:Hoor; [|contradiction].
  destruct Hp as [Hp|[]]. exists o, t. auto.
Qed.

Corollary l1142_all_out_of_range oor d :
  (forall k v t, oor k v t = true) -> l1142 oor d = lint_positions d.
Proof.
  intros Hall. unfold l1142, lint_positions, lint_checked, lint_events, typed_literals.
  induction (lint_visits d) as [|o os IH]; [reflexivity|].
  cbn [flat_map map]. rewrite map_app, IH. f_equal.
  unfold occ_l1142, occ_key. cbn [snd fst]. destruct (oc_ty o) as [t|]; [|reflexivity].
  now rewrite Hall.
Qed.

Definition is_neg_bit (op : unop) (e : expr) : bool :=
  match op, e with
  | UNegative, EBit _ (Some _) _ => true
  | _, _ => false
  end.

(* "the literal o occurs in expression position in ..." with one rule per place
   an expression can sit in the AST of common.rs.  A typed bit literal that is
   directly the operand of a negation occurs there with the kind KNegBit
   (OI_negbit) and not with the kind KBit (the side condition of OI_unary). *)
Inductive occ_in_expr : litocc -> expr -> Prop :=
| OI_signed v ty p : occ_in_expr (MkOcc p KSigned v ty) (ESigned v ty p)
| OI_bit v ty p : occ_in_expr (MkOcc p KBit v ty) (EBit v ty p)
| OI_negbit v t p :
    occ_in_expr (MkOcc p KNegBit v (Some t)) (EUnary UNegative (EBit v (Some t) p))
| OI_binary_left o l r : occ_in_expr o l -> occ_in_expr o (EBinary l r)
| OI_binary_right o l r : occ_in_expr o r -> occ_in_expr o (EBinary l r)
| OI_unary o op e : is_neg_bit op e = false -> occ_in_expr o e -> occ_in_expr o (EUnary op e)
| OI_array o els e : In e els -> occ_in_expr o e -> occ_in_expr o (EArray els)
| OI_structural o ms e : In (MkMember e) ms -> occ_in_expr o e -> occ_in_expr o (EStructural ms)
| OI_paren o e : occ_in_expr o e -> occ_in_expr o (EParen e)
| OI_deref o r a : In (RElement a) r -> occ_in_expr o a -> occ_in_expr o (EDeref r)
| OI_autocoerce o e : occ_in_expr o e -> occ_in_expr o (EAutocoerce e)
| OI_bitcast o e : occ_in_expr o e -> occ_in_expr o (EBitCast e)
| OI_typecast o e : occ_in_expr o e -> occ_in_expr o (ETypeCast e)
| OI_length o r a : In (RElement a) r -> occ_in_expr o a -> occ_in_expr o (ELengthOfArray r)
| OI_call o args a : In a args -> occ_in_expr o a -> occ_in_expr o (ECall args).

Inductive occ_in_stmt : litocc -> stmt -> Prop :=
| OS_declaration o e : occ_in_expr o e -> occ_in_stmt o (SDeclaration (Some e))
| OS_assignment_index o r v a :
    In (RElement a) r -> occ_in_expr o a -> occ_in_stmt o (SAssignment r v)
| OS_assignment_value o r v : occ_in_expr o v -> occ_in_stmt o (SAssignment r v)
| OS_methodcall o args a : In a args -> occ_in_expr o a -> occ_in_stmt o (SMethodCall args)
| OS_if_left o c t e : occ_in_expr o (cmp_left c) -> occ_in_stmt o (SIf c t e)
| OS_if_right o c t e : occ_in_expr o (cmp_right c) -> occ_in_stmt o (SIf c t e)
| OS_if_then o c t e : occ_in_stmt o t -> occ_in_stmt o (SIf c t e)
| OS_if_else o c t b l : occ_in_stmt o b -> occ_in_stmt o (SIf c t (Some (MkElse b l)))
| OS_block o ss loc s : In s ss -> occ_in_stmt o s -> occ_in_stmt o (SBlock (MkBlock ss loc)).

Inductive occ_in_decl : litocc -> decl -> Prop :=
| OD_constant o v : occ_in_expr o v -> occ_in_decl o (DConstant v)
| OD_statement o ss r s :
    In s ss -> occ_in_stmt o s -> occ_in_decl o (DFunction (Some (MkBody ss r)))
| OD_return o ss e : occ_in_expr o e -> occ_in_decl o (DFunction (Some (MkBody ss (Some e)))).

(* KNegBit is exactly "typed bit literal directly under a negation" *)
Lemma occs_unary_negbit op e :
  occs_expr (EUnary op e) =
  if is_neg_bit op e
  then match e with EBit v ty p => [MkOcc p KNegBit v ty] | _ => [] end
  else occs_expr e.
Proof.
  destruct op; [|reflexivity]. destruct e; try reflexivity.
  destruct ty; reflexivity.
Qed.

Lemma occs_expr_iff : forall e o, In o (occs_expr e) <-> occ_in_expr o e.
Proof.
  intros e o. split.
  - revert e o.
    apply (expr_ind2 (fun e => forall o, In o (occs_expr e) -> occ_in_expr o e));
      try (intros o []; fail).
    (* gone: the expressions without a literal; left, in the order of [expr]: Binary, Unary, Signed,
       Bit, Array, Structural, Paren, Deref, Autocoerce, BitCast, TypeCast, LengthOfArray, Call; first
       the four wrappers of one expression *)
    7, 9-11: (intros e IH o Hin; constructor; exact (IH o Hin)).
    + intros l r IHl IHr o Hin. cbn [occs_expr] in Hin. apply in_app_or in Hin.
      destruct Hin as [H|H]; [apply OI_binary_left|apply OI_binary_right]; auto.
    + intros op e IH o Hin. rewrite occs_unary_negbit in Hin.
      destruct (is_neg_bit op e) eqn:Hnb; [|apply OI_unary; auto].
      destruct op; [|discriminate Hnb]. destruct e; try discriminate Hnb.
      destruct ty; [|discriminate Hnb]. destruct Hin as [<-|[]]. constructor.
    + intros v ty p o [<-|[]]. constructor.
    + intros v ty p o [<-|[]]. constructor.
    + intros els IH o Hin. cbn [occs_expr] in Hin. apply in_flat_map in Hin.
      destruct Hin as [e [He Ho]].
      exact (OI_array o els e He (proj1 (Forall_forall _ _) IH e He o Ho)).
    + intros ms IH o Hin. cbn [occs_expr] in Hin. apply in_flat_map in Hin.
      destruct Hin as [[e] [He Ho]].
      exact (OI_structural o ms e He (proj1 (Forall_forall _ _) IH _ He o Ho)).
    + intros r IH o Hin. cbn [occs_expr] in Hin. apply in_flat_map in Hin.
      destruct Hin as [s [Hs Ho]].
      pose proof (proj1 (Forall_forall _ _) IH s Hs) as H.
      destruct s; try contradiction. exact (OI_deref o r _ Hs (H o Ho)).
    + intros r IH o Hin. cbn [occs_expr] in Hin. apply in_flat_map in Hin.
      destruct Hin as [s [Hs Ho]].
      pose proof (proj1 (Forall_forall _ _) IH s Hs) as H.
      destruct s; try contradiction. exact (OI_length o r _ Hs (H o Ho)).
    + intros args IH o Hin. cbn [occs_expr] in Hin. apply in_flat_map in Hin.
      destruct Hin as [e [He Ho]].
      exact (OI_call o args e He (proj1 (Forall_forall _ _) IH e He o Ho)).
  - intros H. induction H; cbn [occs_expr]; auto using in_eq, in_or_app;
      try (apply in_flat_map; eauto).
    (* left: an operator over something else than a typed bit literal under a negation *)
    change (In o (occs_expr (EUnary op e))). rewrite occs_unary_negbit.
    destruct (is_neg_bit op e); [discriminate|assumption].
Qed.

(* The steps of an assigned reference and the arguments of a method call hold the occurrences of
   [EDeref r] and [ECall args]. *)
Lemma occs_stmt_iff : forall s o, In o (occs_stmt s) <-> occ_in_stmt o s.
Proof.
  intros s o. split.
  - revert s o.
    apply (stmts_ind (fun s => forall o, In o (occs_stmt s) -> occ_in_stmt o s)
             (fun l => forall s, In s l -> forall o, In o (occs_stmt s) -> occ_in_stmt o s));
      cbn [occs_stmt occs_option].
    1-6: intros; contradiction.
    + intros [e|] o Hin; [|contradiction]. apply OS_declaration. now apply occs_expr_iff.
    + intros r v o Hin. apply in_app_or in Hin. destruct Hin as [H|H].
      * apply (occs_expr_iff (EDeref r)) in H. inversion H. eapply OS_assignment_index; eauto.
      * apply OS_assignment_value. now apply occs_expr_iff.
    + intros args o Hin. apply (occs_expr_iff (ECall args)) in Hin. inversion Hin.
      eapply OS_methodcall; eauto.
    + intros c t e IHt IHe o Hin.
      apply in_app_or in Hin. destruct Hin as [H|H]; [apply OS_if_left; now apply occs_expr_iff|].
      apply in_app_or in H. destruct H as [H|H]; [apply OS_if_right; now apply occs_expr_iff|].
      apply in_app_or in H. destruct H as [H|H]; [apply OS_if_then; auto|].
      destruct e as [[b l]|]; [apply OS_if_else; auto|contradiction].
    + intros s ss loc IHs IHss o Hin. apply in_flat_map in Hin. destruct Hin as [s' [Hs Ho]].
      eapply OS_block; [exact Hs|]. destruct Hs as [<-|Hs]; [now apply IHs|now apply (IHss s')].
    + intros s ss IHs IHss s' [<-|Hs]; [exact IHs|now apply IHss].
  - intros H. induction H; cbn [occs_stmt occs_option].
    + now apply occs_expr_iff.
    + apply in_or_app. left. apply (occs_expr_iff (EDeref r)). eapply OI_deref; eauto.
    + apply in_or_app. right. now apply occs_expr_iff.
    + apply (occs_expr_iff (ECall args)). eapply OI_call; eauto.
    + apply in_or_app. left. now apply occs_expr_iff.
    + apply in_or_app. right. apply in_or_app. left. now apply occs_expr_iff.
    + apply in_or_app. right. apply in_or_app. right. apply in_or_app. now left.
    + apply in_or_app. right. apply in_or_app. right. apply in_or_app. now right.
    + apply in_flat_map. eauto.
Qed.

Theorem occs_decl_iff : forall d o, In o (occs_decl d) <-> occ_in_decl o d.
Proof.
  intros d o. split.
  - intros Hin. destruct d as [v|[[ss r]|]| | | | ]; cbn [occs_decl] in Hin; try contradiction.
    + apply OD_constant. now apply occs_expr_iff.
    + cbn [fb_statements fb_return_value] in Hin. apply in_app_or in Hin. destruct Hin as [H|H].
      * apply in_flat_map in H. destruct H as [s [Hs Ho]].
        eapply OD_statement; [exact Hs|]. now apply occs_stmt_iff.
      * destruct r as [e|]; [|contradiction]. apply OD_return. now apply occs_expr_iff.
  - intros H. destruct H as [o v H|o ss r s Hs H|o ss e H]; cbn [occs_decl fb_statements fb_return_value].
    + now apply occs_expr_iff.
    + apply in_or_app. left. apply in_flat_map. exists s. split; [assumption|].
      now apply occs_stmt_iff.
    + apply in_or_app. right. now apply occs_expr_iff.
Qed.

(* The linter looks at a literal iff it occurs in the declaration. *)
Theorem lint_visits_iff : forall d o, In o (lint_visits d) <-> occ_in_decl o d.
Proof. intros d o. rewrite lint_visits_are_occurrences. apply occs_decl_iff. Qed.

(* L1800 is reported exactly for a loop opening a block that is directly a
   branch of an [if], in source order. *)
Theorem l1800_characterisation : forall d, l1800 d = l1800_spec d.
Proof. intros d. apply lint_decl_in_default. Qed.

Theorem lint_decl_final_state : forall d, fst (lint_decl_in d st_default) = st_default.
Proof. intros d. apply lint_decl_in_default. Qed.

(* hence sharing one Linter between the declarations of a module (alpha.rs) is
   the same as linting each declaration with a fresh one *)
Theorem lint_module_is_per_declaration :
  forall ds, lint_module ds = flat_map lint_decl ds.
Proof.
  intros ds. unfold lint_module.
  induction ds as [|d rest IH]; [reflexivity|].
  cbn [lint_decls_in flat_map]. unfold lint_decl at 1.
  pose proof (lint_decl_final_state d) as Hf.
  destruct (lint_decl_in d st_default) as [st1 ev1]. cbn [fst snd] in *. subst st1.
  destruct (lint_decls_in rest st_default) as [st2 ev2]. cbn [snd] in *. now rewrite IH.
Qed.

(* the generic walk with the current expression walk and both flags on sees exactly what the
   modelled code sees *)
Lemma walk_stmt_current :
  (forall s, visits_of (walk_stmt_with lint_expr lint_refstep true s) = occs_stmt s) /\
  (forall l, visits_of (flat_map (walk_stmt_with lint_expr lint_refstep true) l) =
             flat_map occs_stmt l).
Proof.
  apply stmts_ind. 1-6: reflexivity.
  - intros [e|]; [apply visits_expr|reflexivity].
  - intros r v. cbn [walk_stmt_with occs_stmt]. rewrite visits_of_app.
    f_equal; [exact (visits_expr (EDeref r))|apply visits_expr].
  - intros args. exact (visits_expr (ECall args)).
  - intros c t e IHt IHe. cbn [walk_stmt_with occs_stmt].
    rewrite !visits_of_app, !visits_expr, IHt, <- app_assoc.
    destruct e as [[b l]|]; [now rewrite IHe|reflexivity].
  - intros s ss loc IHs IHss. cbn [walk_stmt_with occs_stmt flat_map].
    now rewrite visits_of_app, IHs, IHss.
  - intros s ss IHs IHss. cbn [flat_map]. now rewrite visits_of_app, IHs, IHss.
Qed.

Theorem walk_current_is_lint :
  forall d, visits_of (walk_decl_with lint_expr lint_refstep true true d) = lint_visits d.
Proof.
  intros d. rewrite lint_visits_are_occurrences.
  destruct d as [v|[body|]| | | | ]; try reflexivity.
  - apply visits_expr.
  - cbn [walk_decl_with occs_decl]. rewrite visits_of_app, (proj2 walk_stmt_current). f_equal.
    destruct (fb_return_value body); [apply visits_expr|reflexivity].
Qed.

(* Witnesses against the variants (a), (b) of Model/LintWalk.v; the one against (c),
   [negated_min_literal_pinned_refuted], follows the facts about the range tests.  The type
   tags are opaque: any three numbers do. *)
Definition u8 : tytag := 6%N.
Definition i8 : tytag := 1%N.
Definition usize : tytag := 10%N.

(* (a) fn foo() -> u8 { return: 300 } *)
Definition prog_return : decl :=
  DFunction (Some (MkBody [] (Some (ESigned 300 (Some u8) 1%N)))).

(* (a') fn bar(x: u8) { if x == 300 { } } *)
Definition prog_if_condition : decl :=
  DFunction (Some (MkBody
    [SIf (MkComparison (EDeref []) (ESigned 300 (Some u8) 1%N) 2%N)
         (SBlock (MkBlock [] 3%N)) None] None)).

Lemma pinned_traversal_refuted_return :
  exists d, literals_of_decl d <> [] /\ events_of (lint_decl_pinned d) = []
            /\ lint_positions d = [1%N].
Proof. exists prog_return. vm_compute. repeat split; discriminate. Qed.

Lemma pinned_traversal_refuted_condition :
  exists d, literals_of_decl d <> [] /\ events_of (lint_decl_pinned d) = []
            /\ lint_positions d = [1%N].
Proof. exists prog_if_condition. vm_compute. repeat split; discriminate. Qed.

(* (b) const X: u8 = (300); *)
Definition prog_paren : decl := DConstant (EParen (ESigned 300 (Some u8) 1%N)).

Lemma noparen_traversal_refuted :
  exists d, literals_of_decl d <> [] /\ events_of (lint_decl_noparen d) = []
            /\ lint_positions d = [1%N].
Proof. exists prog_paren. vm_compute. repeat split; discriminate. Qed.

Lemma untyped_literal_not_checked :
  exists d, visit_positions d = [1%N] /\ lint_positions d = [] /\
            forall oor, l1142 oor d = [].
Proof. exists (DConstant (ESigned 300 None 1%N)). repeat split. Qed.

Definition plain_occ (o : litocc) : litocc :=
  MkOcc (oc_pos o) (plain_kind (oc_kind o)) (oc_val o) (oc_ty o).

Definition plain_ev (ev : lintev) : lintev :=
  match ev with
  | EvLiteral p k v ty => EvLiteral p (plain_kind k) v ty
  | EvLoopFirst _ _ _ => ev
  end.

(* The walk before the repair saw the same literals at the same places in the
   same order; the repair changed only the kind (hence the range test) of a typed bit
   literal directly under a negation. *)
Lemma oldneg_expr_is_plain : forall e, oldneg_expr e = map plain_ev (lint_expr e).
Proof.
  apply expr_ind2; cbn [lint_expr oldneg_expr]; try reflexivity; try (intros; assumption).
  (* left: Binary, Unary, then the five cases over a list: Array and Call, then Structural, Deref,
     LengthOfArray *)
  3, 7: (intros l IH; apply (flat_map_map_Forall _ _ _ _ _ IH); trivial).
  3-5: (intros l IH; apply (flat_map_map_Forall _ _ _ _ _ IH); intros []; trivial).
  - intros l r IHl IHr. now rewrite map_app, IHl, IHr.
  - intros op e IH. destruct op; [|exact IH]. destruct e; try exact IH.
    destruct ty; [reflexivity|exact IH].
Qed.

Lemma visits_of_plain l : visits_of (map plain_ev l) = map plain_occ (visits_of l).
Proof.
  unfold visits_of.
  induction l as [|[p k v ty|a b c] xs IH]; [reflexivity| |]; cbn [map flat_map ev_occ app plain_ev].
  - now rewrite IH.
  - exact IH.
Qed.

Corollary oldneg_visits e : visits_of (oldneg_expr e) = map plain_occ (occs_expr e).
Proof. now rewrite oldneg_expr_is_plain, visits_of_plain, visits_expr. Qed.

(* ... and, on the specification side: an operator never hides or adds an
   occurrence, a negation only changes the kind of its operand's occurrence *)
Lemma occs_unary_plain op e :
  map plain_occ (occs_expr (EUnary op e)) = map plain_occ (occs_expr e).
Proof.
  destruct op; [|reflexivity]. destruct e; try reflexivity.
  destruct ty; reflexivity.
Qed.

Section range_test_facts.
  Variable tbl : tytag -> option (bool * Z * Z).
  Variables (t : tytag) (sg : bool) (mn mx : Z).
  Hypothesis Htbl : tbl t = Some (sg, mn, mx).

  Lemma range_test_signed v :
    (mn <= 0 <= mx)%Z ->
    range_test tbl KSigned v t = true <-> ~ (mn <= v <= mx)%Z.
  Proof.
    intros Hr. unfold range_test. rewrite Htbl.
    destruct (v <? 0)%Z eqn:Hneg; [rewrite Z.ltb_lt in *|rewrite Z.ltb_ge in Hneg; rewrite Z.ltb_lt]; lia.
  Qed.

  Lemma range_test_bit v :
    (mn <= 0)%Z -> (0 <= v)%Z ->
    range_test tbl KBit v t = true <-> ~ (mn <= v <= mx)%Z.
  Proof.
    intros Hmn Hv. unfold range_test. rewrite Htbl, Z.ltb_lt. lia.
  Qed.

  (* A bit literal of magnitude v directly under a negation denotes -v;
     at a signed type (two's complement: min = -max - 1) it is flagged iff -v is
     below the minimum, i.e. iff -v is outside [min, max] ... *)
  Lemma range_test_negbit_signed v :
    sg = true -> mn = (- mx - 1)%Z ->
    range_test tbl KNegBit v t = true <-> (- v < mn)%Z.
  Proof.
    intros -> ->. unfold range_test. rewrite Htbl, Z.ltb_lt. lia.
  Qed.

  Lemma range_test_negbit_signed_range v :
    sg = true -> mn = (- mx - 1)%Z -> (0 <= v)%Z -> (0 <= mx)%Z ->
    range_test tbl KNegBit v t = true <-> ~ (mn <= - v <= mx)%Z.
  Proof.
    intros Hsg Hmn Hv Hmx. rewrite (range_test_negbit_signed v Hsg Hmn). lia.
  Qed.

  (* ... so an in-range value raises no L1142: no false positive at magnitude
     max + 1 (= -min) *)
  Corollary negated_bit_literal_in_range_not_flagged v :
    sg = true -> mn = (- mx - 1)%Z -> (mn <= - v)%Z ->
    range_test tbl KNegBit v t = false.
  Proof.
    intros Hsg Hmn Hv. destruct (range_test tbl KNegBit v t) eqn:H; [|reflexivity].
    apply (range_test_negbit_signed v Hsg Hmn) in H. lia.
  Qed.

  Corollary negated_min_not_flagged :
    sg = true -> mn = (- mx - 1)%Z -> range_test tbl KNegBit (mx + 1) t = false.
  Proof. intros Hsg Hmn. apply negated_bit_literal_in_range_not_flagged; auto. lia. Qed.

  (* at an unsigned type the guard of the new arm fails: the ordinary test *)
  Lemma range_test_negbit_unsigned v :
    sg = false -> range_test tbl KNegBit v t = range_test tbl KBit v t.
  Proof. intros ->. unfold range_test. now rewrite Htbl. Qed.

  (* before the repair the magnitude max + 1 was flagged although -(max + 1) = min *)
  Lemma range_test_oldneg_flags_min :
    mn = (- mx - 1)%Z -> (0 <= mx)%Z ->
    range_test_oldneg tbl KNegBit (mx + 1) t = true /\ (mn <= - (mx + 1) <= mx)%Z.
  Proof.
    intros Hmn Hmx. unfold range_test_oldneg, range_test. cbn [plain_kind].
    rewrite Htbl, Z.ltb_lt. lia.
  Qed.
End range_test_facts.

Lemma range_test_plain_kinds tbl k v t :
  k <> KNegBit -> range_test tbl k v t = range_test_oldneg tbl k v t.
Proof. destruct k; [reflexivity|reflexivity|intros H; now elim H]. Qed.

(* L1142 of the old walk under a test = L1142 of the current walk under the test
   that reads KNegBit as KBit *)
Lemma l1142_of_oldneg_expr oor e :
  l1142_of oor (oldneg_expr e) =
  l1142_of (fun k => oor (plain_kind k)) (lint_expr e).
Proof.
  unfold l1142_of. rewrite oldneg_visits, visits_expr.
  induction (occs_expr e) as [|o os IH]; [reflexivity|].
  cbn [map flat_map]. now rewrite IH.
Qed.

(* The value a literal occurrence denotes: a bit literal directly under a negation
   denotes the negated magnitude. *)
Definition occ_value (o : litocc) : Z :=
  match oc_kind o with KNegBit => (- oc_val o)%Z | _ => oc_val o end.

(* a range table of integer types: two's complement or unsigned *)
Definition tbl_wf (tbl : tytag -> option (bool * Z * Z)) : Prop :=
  forall t sg mn mx, tbl t = Some (sg, mn, mx) ->
    (0 <= mx)%Z /\ (sg = true -> mn = (- mx - 1)%Z) /\ (sg = false -> mn = 0%Z).

(* bit literals are magnitudes (u128) *)
Definition magnitudes_ok (d : decl) : Prop :=
  Forall (fun o => oc_kind o <> KSigned -> (0 <= oc_val o)%Z) (occs_decl d).

(* The three tests flag only values outside the range of the type, and all of them
   except a negated bit literal at an unsigned type: there the ordinary test is applied
   to the magnitude v, so that -v, which is below min = 0, is flagged only if v > max. *)
Lemma range_test_spec tbl o t sg mn mx :
  tbl_wf tbl -> tbl t = Some (sg, mn, mx) ->
  (oc_kind o <> KSigned -> (0 <= oc_val o)%Z) ->
  (range_test tbl (oc_kind o) (oc_val o) t = true -> ~ (mn <= occ_value o <= mx)%Z) /\
  ((oc_kind o = KNegBit -> sg = true) ->
   ~ (mn <= occ_value o <= mx)%Z -> range_test tbl (oc_kind o) (oc_val o) t = true).
Proof.
  intros Hwf Htbl Hmag. destruct (Hwf _ _ _ _ Htbl) as [Hmx [Hs Hu]].
  assert (Hmn : (mn <= 0)%Z) by (destruct sg; [rewrite Hs|rewrite Hu]; auto; lia).
  unfold occ_value. destruct (oc_kind o).
  - split; [|intros _]; apply (range_test_signed tbl t sg mn mx Htbl); lia.
  - assert (Hv : (0 <= oc_val o)%Z) by (apply Hmag; discriminate).
    split; [|intros _]; now apply (range_test_bit tbl t sg mn mx Htbl).
  - assert (Hv : (0 <= oc_val o)%Z) by (apply Hmag; discriminate). destruct sg.
    + split; [|intros _]; apply (range_test_negbit_signed_range tbl t true mn mx Htbl); auto.
    + split; [|intros Hneg; discriminate (Hneg eq_refl)].
      rewrite (range_test_negbit_unsigned tbl t false mn mx Htbl) by reflexivity.
      intros Hrt. apply (range_test_bit tbl t false mn mx Htbl) in Hrt; [|exact Hmn|exact Hv].
      rewrite (Hu eq_refl) in *. lia.
Qed.

(* "In-range values never raise L1142": with the range tests of linter.rs over a
   table of integer ranges, every reported position is that of a literal
   occurrence whose denoted value is outside the range of its type. *)
Theorem l1142_range_test_only_out_of_range tbl d p :
  tbl_wf tbl -> magnitudes_ok d ->
  In p (l1142 (range_test tbl) d) ->
  exists o t sg mn mx,
    In o (occs_decl d) /\ oc_pos o = p /\ oc_ty o = Some t /\ tbl t = Some (sg, mn, mx) /\
    ~ (mn <= occ_value o <= mx)%Z.
Proof.
  intros Hwf Hmag Hin. apply l1142_never in Hin.
  destruct Hin as [o [t [Ho [Hp [Hty Hrt]]]]].
  destruct (tbl t) as [[[sg mn] mx]|] eqn:Htbl.
  - exists o, t, sg, mn, mx. repeat (split; [assumption|]).
    apply (range_test_spec tbl o t sg mn mx Hwf Htbl); [|exact Hrt].
    unfold magnitudes_ok in Hmag. rewrite Forall_forall in Hmag. now apply Hmag.
  - unfold range_test in Hrt. rewrite Htbl in Hrt. discriminate.
Qed.

(* "Out-of-range values always raise L1142" - except a negated bit literal of an
   UNSIGNED type whose magnitude fits (e.g. -0x01 as u8): there the guard of the
   Unary arm fails and the ordinary test is applied to the magnitude. *)
Theorem l1142_range_test_every_out_of_range tbl d o t sg mn mx :
  tbl_wf tbl -> magnitudes_ok d ->
  In o (occs_decl d) -> oc_ty o = Some t -> tbl t = Some (sg, mn, mx) ->
  (oc_kind o = KNegBit -> sg = true) ->
  ~ (mn <= occ_value o <= mx)%Z ->
  In (oc_pos o) (l1142 (range_test tbl) d).
Proof.
  intros Hwf Hmag Ho Hty Htbl Hneg Hout.
  apply (l1142_always _ d o t Ho Hty).
  apply (range_test_spec tbl o t sg mn mx Hwf Htbl); auto.
  unfold magnitudes_ok in Hmag. rewrite Forall_forall in Hmag. now apply Hmag.
Qed.

(* the exception is real: -0x01 as u8 denotes -1, outside 0..255, and is not flagged *)
Lemma negated_unsigned_not_flagged_refuted :
  exists tbl d o t sg mn mx,
    tbl_wf tbl /\ magnitudes_ok d /\ In o (occs_decl d) /\ oc_ty o = Some t /\
    tbl t = Some (sg, mn, mx) /\ ~ (mn <= occ_value o <= mx)%Z /\
    l1142 (range_test tbl) d = [].
Proof.
  exists (fun t => if N.eqb t 6 then Some (false, 0, 255)%Z else None),
    (DConstant (EUnary UNegative (EBit 1 (Some 6%N) 1%N))),
    (MkOcc 1 KNegBit 1 (Some 6%N)), 6%N, false, 0%Z, 255%Z.
  split.
  { intros t sg mn mx H. destruct (N.eqb t 6); [|discriminate]. injection H as <- <- <-.
    repeat split; easy. }
  split.
  { repeat constructor. easy. }
  split; [now left|]. repeat split. intros [H _]. exact (H eq_refl).
Qed.

Definition toy_tbl (t : tytag) : option (bool * Z * Z) :=
  if N.eqb t i8 then Some (true, -128, 127)%Z
  else if N.eqb t u8 then Some (false, 0, 255)%Z
  else None.

(* const X: i8 = -0x80;  (the literal at position 1) *)
Definition prog_neg_min : decl := DConstant (EUnary UNegative (EBit 128 (Some i8) 1%N)).

(* (c) the walk from before the repair flagged -0x80 as i8, an in-range value; the
   current one does not (and still flags -0x81: [example_negated_bit_literals]) *)
Lemma negated_min_literal_pinned_refuted :
  exists d, l1142_of (range_test toy_tbl) (lint_decl_oldneg d) = [1%N] /\
            l1142 (range_test_oldneg toy_tbl) d = [1%N] /\
            l1142 (range_test toy_tbl) d = [] /\
            occs_decl d = [MkOcc 1 KNegBit 128 (Some i8)] /\
            toy_tbl i8 = Some (true, -128, 127)%Z.
Proof. exists prog_neg_min. vm_compute. repeat split. Qed.

Section example_negated.
Local Open Scope Z_scope.
Example example_negated_bit_literals :
  let c e := DConstant e in
  let bit v ty := EBit v (Some ty) 1%N in
  let lints d := l1142 (range_test toy_tbl) d in
  (* -0x80, -0x81 as i8 *)
  lints (c (EUnary UNegative (bit 128 i8))) = [] /\
  lints (c (EUnary UNegative (bit 129 i8))) = [1%N] /\
  (* 0x7F, 0x80 as i8 *)
  lints (c (bit 127 i8)) = [] /\ lints (c (bit 128 i8)) = [1%N] /\
  (* every other shape falls through to the BitIntegerLiteral arm: -(0x80), !0x80 *)
  lint_decl (c (EUnary UNegative (EParen (bit 128 i8)))) = [EvLiteral 1 KBit 128 (Some i8)] /\
  lints (c (EUnary UNegative (EParen (bit 128 i8)))) = [1%N] /\
  lint_decl (c (EUnary UBitwiseComplement (bit 128 i8))) = [EvLiteral 1 KBit 128 (Some i8)] /\
  lints (c (EUnary UBitwiseComplement (bit 128 i8))) = [1%N] /\
  (* unsigned type: the arm's guard fails, ordinary test: -0xFF, -0x100 as u8 *)
  lint_decl (c (EUnary UNegative (bit 255 u8))) = [EvLiteral 1 KNegBit 255 (Some u8)] /\
  lints (c (EUnary UNegative (bit 255 u8))) = [] /\
  lints (c (EUnary UNegative (bit 256 u8))) = [1%N] /\
  (* no type: falls through, looked at by the catch-all arm, not tested *)
  lint_decl (c (EUnary UNegative (EBit 128 None 1%N))) = [EvLiteral 1 KBit 128 None] /\
  (* the operand of the INNER negation of -(-0x80) is again directly under a negation *)
  lint_decl (c (EUnary UNegative (EParen (EUnary UNegative (bit 128 i8))))) =
    [EvLiteral 1 KNegBit 128 (Some i8)] /\
  lints (c (EUnary UNegative (EParen (EUnary UNegative (bit 128 i8))))) = [] /\
  (* a signed (decimal) literal is not concerned *)
  lints (c (ESigned (-128) (Some i8) 1%N)) = [] /\ lints (c (ESigned (-129) (Some i8) 1%N)) = [1%N].
Proof. vm_compute. repeat split. Qed.
End example_negated.

(* The function [main] of the following Penne program (position id of a literal =
   its value, except 400/401 for the two hexadecimal indices and 1, 2 for the
   in-range literals; other locations numbered from 500).  The compiler reports L1142 at
   exactly the 14 literals 302..313, 400, 401 of [main], in source order, and L1800 at the two
   loops marked below.

   fn main() -> u8
   {
       var arr: [4]u8 = [302, (303), -304, 1];
       var s = Pt { x: 305, y: 306 as u8 };
       var v: u8 = 2;
       arr[0x10000000000000000] = foo(307, |arr|) + 308u8;
       if arr[0x10000000000000001] == 309          condition 500
       {                                           block 501
           loop;                                   502   (L1800)
       }
       else                                        503
       {                                           block 504
           {                                       block 505
               v = 310;
           }
           if v == 311                             condition 506
           {                                       block 507
               loop;                               508   (L1800)
           }
           loop;                                   509
       }
       v = !312u8;
       return: 313
   } *)
Definition example_decl : decl :=
  DFunction (Some (MkBody
    [ SDeclaration (Some (EArray [ESigned 302 (Some u8) 302%N;
                                  EParen (ESigned 303 (Some u8) 303%N);
                                  ESigned (-304) (Some u8) 304%N;
                                  ESigned 1 (Some u8) 1%N]));
      SDeclaration (Some (EStructural [MkMember (ESigned 305 (Some u8) 305%N);
                                       MkMember (ETypeCast (ESigned 306 (Some u8) 306%N))]));
      SDeclaration (Some (ESigned 2 (Some u8) 2%N));
      SAssignment [RElement (EBit (2 ^ 64) (Some usize) 400%N)]
        (EBinary (ECall [ESigned 307 (Some u8) 307%N; ELengthOfArray [RAutoview]])
                 (EBit 308 (Some u8) 308%N));
      SIf (MkComparison (EDeref [RElement (EBit (2 ^ 64 + 1) (Some usize) 401%N)])
                        (ESigned 309 (Some u8) 309%N) 500%N)
          (SBlock (MkBlock [SLoop 502%N] 501%N))
          (Some (MkElse
             (SBlock (MkBlock
                [ SBlock (MkBlock [SAssignment [] (ESigned 310 (Some u8) 310%N)] 505%N);
                  SIf (MkComparison (EDeref []) (ESigned 311 (Some u8) 311%N) 506%N)
                      (SBlock (MkBlock [SLoop 508%N] 507%N)) None;
                  SLoop 509%N ] 504%N))
             503%N));
      SAssignment [] (EUnary UBitwiseComplement (EBit 312 (Some u8) 312%N)) ]
    (Some (ESigned 313 (Some u8) 313%N)))).

Example example_events :
  lint_decl example_decl =
  [ EvLiteral 302 KSigned 302 (Some u8); EvLiteral 303 KSigned 303 (Some u8);
    EvLiteral 304 KSigned (-304) (Some u8); EvLiteral 1 KSigned 1 (Some u8);
    EvLiteral 305 KSigned 305 (Some u8); EvLiteral 306 KSigned 306 (Some u8);
    EvLiteral 2 KSigned 2 (Some u8);
    EvLiteral 400 KBit (2 ^ 64) (Some usize);
    EvLiteral 307 KSigned 307 (Some u8); EvLiteral 308 KBit 308 (Some u8);
    EvLiteral 401 KBit (2 ^ 64 + 1) (Some usize); EvLiteral 309 KSigned 309 (Some u8);
    EvLoopFirst 502 500 501;
    EvLiteral 310 KSigned 310 (Some u8);
    EvLiteral 311 KSigned 311 (Some u8);
    EvLoopFirst 508 506 507;
    EvLiteral 312 KBit 312 (Some u8);
    EvLiteral 313 KSigned 313 (Some u8) ].
Proof. vm_compute. reflexivity. Qed.

(* a toy range test, enough for this example: u8 and usize *)
Definition toy_out_of_range (k : litkind) (v : Z) (t : tytag) : bool :=
  if N.eqb t usize then (2 ^ 64 - 1 <? v)%Z else ((v <? 0) || (255 <? v))%Z.

Example example_positions :
  lint_positions example_decl =
    [302;303;304;1;305;306;2;400;307;308;401;309;310;311;312;313]%N /\
  visit_positions example_decl = lint_positions example_decl /\
  l1142 toy_out_of_range example_decl =
    [302;303;304;305;306;400;307;308;401;309;310;311;312;313]%N /\
  l1800 example_decl = [(502, 500, 501); (508, 506, 507)]%N.
Proof. vm_compute. auto. Qed.

(* the pinned traversal on the same declaration misses 309, 311 (conditions; the
   index 401 sits in a condition too) and 313 (return value) *)
Example example_pinned :
  map fst (events_of (lint_decl_pinned example_decl)) =
    [302;303;304;1;305;306;2;400;307;308;310;312]%N.
Proof. vm_compute. reflexivity. Qed.

(* the traversal without parentheses misses 303 *)
Example example_noparen :
  map fst (events_of (lint_decl_noparen example_decl)) =
    [302;304;1;305;306;2;400;307;308;401;309;310;311;312;313]%N.
Proof. vm_compute. reflexivity. Qed.

(* a bit literal without a type (erroneous program) is visited, not tested *)
Example example_untyped :
  let d := DFunction (Some (MkBody [SMethodCall [ESizeOf; EBit 14 None 14%N]] None)) in
  visit_positions d = [14%N] /\ lint_positions d = [].
Proof. vm_compute. auto. Qed.

(* the hypothesis of [lint_positions_all_typed] is satisfiable by a non-trivial
   declaration *)
Example example_all_typed :
  Forall (fun x => snd x <> None) (literals_of_decl prog_if_condition) /\
  literals_of_decl prog_if_condition <> [].
Proof. vm_compute. split; [repeat constructor; discriminate|discriminate]. Qed.

(* L1800 depends on the state: a loop that opens a block nested in the branch
   block, or a branch that is not a block, is not reported *)
Example example_l1800_negative :
  l1800 (DFunction (Some (MkBody
    [SIf (MkComparison EBool EBool 1%N)
         (SBlock (MkBlock [SBlock (MkBlock [SLoop 2%N] 3%N)] 4%N))
         (Some (MkElse (SLoop 5%N) 6%N));
     SBlock (MkBlock [SLoop 7%N] 8%N)] None))) = [].
Proof. vm_compute. reflexivity. Qed.

Print Assumptions lint_reaches_every_literal.
Print Assumptions lint_type_is_literal_type.
Print Assumptions lint_visits_are_occurrences.
Print Assumptions lint_visits_iff.
Print Assumptions l1142_characterisation.
Print Assumptions l1800_characterisation.
Print Assumptions lint_module_is_per_declaration.
Print Assumptions walk_current_is_lint.
Print Assumptions pinned_traversal_refuted_return.
Print Assumptions pinned_traversal_refuted_condition.
Print Assumptions noparen_traversal_refuted.
Print Assumptions oldneg_expr_is_plain.
Print Assumptions range_test_signed.
Print Assumptions range_test_bit.
Print Assumptions range_test_negbit_signed.
Print Assumptions range_test_negbit_signed_range.
Print Assumptions negated_bit_literal_in_range_not_flagged.
Print Assumptions range_test_negbit_unsigned.
Print Assumptions range_test_oldneg_flags_min.
Print Assumptions negated_min_literal_pinned_refuted.
Print Assumptions l1142_range_test_only_out_of_range.
Print Assumptions l1142_range_test_every_out_of_range.
Print Assumptions negated_unsigned_not_flagged_refuted.
