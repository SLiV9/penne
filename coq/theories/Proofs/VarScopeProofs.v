(* Proofs about Model/VarScope.v: the id-set bookkeeping of the variable scoper
   (unresolved-goto intersections, pruning at labels) computes exactly the
   forward "declaration skipped by an earlier goto" specification, provided no
   label id is declared twice along the traversal.  The two are run side by side:
   [R] relates their states, and [sim] says that a step of each returns the same
   codes and keeps the states related. *)
From PV Require Import Base.Common Model.VarScope.

(* The generated [stmt_ind] has no hypothesis for the statements inside [SBlock b] or under the
   [Some] of an else-branch; this principle has: [Forall P b], and [SIf] with and without else. *)
Section stmt_ind2.
  Variable P : stmt -> Prop.
  Hypothesis HD : forall v us, P (SDecl v us).
  Hypothesis HU : forall us, P (SUse us).
  Hypothesis HG : forall l, P (SGoto l).
  Hypothesis HL : forall l, P (SLabel l).
  Hypothesis HI1 : forall us t, P t -> P (SIf us t None).
  Hypothesis HI2 : forall us t e, P t -> P e -> P (SIf us t (Some e)).
  Hypothesis HB : forall b, Forall P b -> P (SBlock b).
  Hypothesis HN : P SNop.
  Fixpoint stmt_ind2 (s : stmt) : P s :=
    match s with
    | SDecl v us => HD v us
    | SUse us => HU us
    | SGoto l => HG l
    | SLabel l => HL l
    | SIf us t None => HI1 us t (stmt_ind2 t)
    | SIf us t (Some e) => HI2 us t e (stmt_ind2 t) (stmt_ind2 e)
    | SBlock b => HB b (Forall_all P stmt_ind2 b)
    | SNop => HN
    end.
End stmt_ind2.

(* [mem_id] is [mem_name]: ids and names are both N *)
Lemma mem_id_In i l : mem_id i l = true <-> In i l.
Proof. exact (mem_name_In i l). Qed.

Lemma mem_id_false i l : mem_id i l = false <-> ~ In i l.
Proof. exact (mem_name_false i l). Qed.

Lemma mem_id_filter i f l : mem_id i (filter f l) = mem_id i l && f i.
Proof. apply eq_true_iff_eq. rewrite andb_true_iff, !mem_id_In. apply filter_In. Qed.

Lemma filter_of_map {A B} (f : B -> bool) (g : A -> B) l :
  filter f (map g l) = map g (filter (fun x => f (g x)) l).
Proof.
  induction l as [|a l IH]; [reflexivity|]. cbn [map filter].
  destruct (f (g a)); cbn [map]; now rewrite IH.
Qed.

Lemma concat_snoc {A} (e : list (list A)) f : concat (e ++ [f]) = concat e ++ f.
Proof. rewrite concat_app. cbn [concat]. now rewrite app_nil_r. Qed.

Lemma push_last_snoc {A} (fs : list (list A)) f x : push_last x (fs ++ [f]) = fs ++ [f ++ [x]].
Proof.
  induction fs as [|g fs IH]; [reflexivity|].
  change ((g :: fs) ++ [f]) with (g :: (fs ++ [f])).
  change ((g :: fs) ++ [f ++ [x]]) with (g :: (fs ++ [f ++ [x]])).
  rewrite <- IH. destruct (fs ++ [f]) eqn:E; [destruct fs; discriminate|reflexivity].
Qed.

Lemma concat_push_last {A} (x : A) e : concat (push_last x e) = concat e ++ [x].
Proof.
  destruct e as [|f e _] using rev_ind; [reflexivity|].
  rewrite push_last_snoc, !concat_snoc. now rewrite app_assoc.
Qed.

Lemma In_push_last {A} (b x : A) e : In b (concat (push_last x e)) <-> In b (concat e) \/ b = x.
Proof. rewrite concat_push_last, in_app_iff. cbn [In]. intuition. Qed.

Lemma map_push_last {A B} (g : A -> B) x e :
  map (map g) (push_last x e) = push_last (g x) (map (map g) e).
Proof.
  destruct e as [|f e _] using rev_ind; [reflexivity|].
  rewrite push_last_snoc, !map_app. cbn [map]. rewrite push_last_snoc. now rewrite map_app.
Qed.

Lemma map_removelast {A B} (g : A -> B) e : map g (removelast e) = removelast (map g e).
Proof.
  destruct e as [|f e _] using rev_ind; [reflexivity|].
  rewrite map_app. cbn [map]. now rewrite !removelast_last.
Qed.

Lemma In_concat_removelast {A} (b : A) e : In b (concat (removelast e)) -> In b (concat e).
Proof.
  destruct e as [|f e _] using rev_ind; [auto|].
  rewrite removelast_last, concat_snoc. intros H. apply in_or_app. now left.
Qed.

(* The gotos and labels of a program in the order the scoper meets them. *)
Inductive event := EGoto (l : id) | ELabel (l : id).

Fixpoint ev_stmt (s : stmt) : list event :=
  match s with
  | SGoto l => [EGoto l]
  | SLabel l => [ELabel l]
  | SIf _ t e => ev_stmt t ++ match e with Some e' => ev_stmt e' | None => [] end
  | SBlock b => flat_map ev_stmt b
  | _ => []
  end.

Definition ev_list (b : list stmt) : list event := flat_map ev_stmt b.
Definition ev_func (f : func) : list event := ev_list (body f).
Definition events (fs : list func) : list event := flat_map ev_func fs.

(* [wf_ev done es]: no label in [done] is the target of a goto or declared again
   in [es], and the same holds after each label of [es] joins [done]. *)
Fixpoint wf_ev (done : list id) (es : list event) : bool :=
  match es with
  | [] => true
  | EGoto l :: r => negb (mem_id l done) && wf_ev done r
  | ELabel l :: r => negb (mem_id l done) && wf_ev (l :: done) r
  end.

Definition wf_labels (fs : list func) : Prop := wf_ev [] (events fs) = true.

Example wf_labels_example :
  wf_labels [ {| params := [1]; ret := [1];
                 body := [SGoto 1; SDecl 7 []; SIf [1] (SGoto 2) (Some (SBlock [SGoto 1; SLabel 3]));
                          SLabel 1; SBlock [SDecl 8 [7]; SLabel 2]; SUse [7] ] |};
              {| params := []; ret := []; body := [SGoto 4; SDecl 7 []; SLabel 4; SUse [7]] |} ]%N.
Proof. vm_compute. reflexivity. Qed.

(* The weaker condition that is actually needed: no label id is declared twice
   (gotos after the label, i.e. backward jumps, are harmless). *)
Fixpoint once (done : list id) (es : list event) : bool :=
  match es with
  | [] => true
  | EGoto l :: r => once done r
  | ELabel l :: r => negb (mem_id l done) && once (l :: done) r
  end.

Definition labels_once (fs : list func) : Prop := once [] (events fs) = true.

Lemma wf_ev_once done es : wf_ev done es = true -> once done es = true.
Proof.
  revert done. induction es as [|[l|l] r IH]; intros done H; [reflexivity| |].
  - cbn [wf_ev once] in *. apply andb_true_iff in H. now apply IH.
  - cbn [wf_ev once] in *. apply andb_true_iff in H. destruct H as [H1 H2].
    rewrite H1. now apply IH.
Qed.

(* [once] is exactly: the label ids declared along the traversal are pairwise
   distinct (and distinct from [done]). *)
Definition label_ids (es : list event) : list id :=
  flat_map (fun e => match e with ELabel l => [l] | EGoto _ => [] end) es.

Lemma once_NoDup es : forall done,
  once done es = true <->
  (NoDup (label_ids es) /\ forall l, In l (label_ids es) -> ~ In l done).
Proof.
  induction es as [|[l|l] r IH]; intros done; cbn [once label_ids flat_map app].
  - split; [intros _; split; [constructor|intros l []]|reflexivity].
  - apply IH.
  - fold (label_ids r). rewrite andb_true_iff, negb_true_iff, mem_id_false, IH, NoDup_cons_iff.
    cbn [In]. intuition (subst; eauto).
Qed.

Lemma labels_once_iff fs : labels_once fs <-> NoDup (label_ids (events fs)).
Proof.
  unfold labels_once. rewrite once_NoDup. split; [now intros [H _]|]. intros H. split; [assumption|].
  intros l _ [].
Qed.

Lemma lookup_update l l' sc u :
  lookup_unres l' (update_unres l sc u) =
  if N.eqb l' l
  then Some (match lookup_unres l u with None => sc | Some J => filter (fun i => mem_id i sc) J end)
  else lookup_unres l' u.
Proof.
  induction u as [|[l2 J] u IH]; cbn [update_unres lookup_unres]; [reflexivity|].
  destruct (N.eqb l l2) eqn:E; cbn [lookup_unres].
  - apply N.eqb_eq in E. subst l2. now destruct (N.eqb l' l).
  - rewrite IH. destruct (N.eqb_spec l' l) as [->|_]; [now rewrite E | reflexivity].
Qed.

Lemma lookup_remove l l' u :
  lookup_unres l' (remove_unres l u) = if N.eqb l' l then None else lookup_unres l' u.
Proof.
  unfold remove_unres. induction u as [|[l2 J] u IH]; cbn [filter lookup_unres fst].
  - now destruct (N.eqb l' l).
  - destruct (N.eqb_spec l l2) as [<-|Hn]; cbn [negb lookup_unres]; rewrite IH;
      destruct (N.eqb_spec l' l) as [->|_]; try reflexivity.
    now rewrite (proj2 (N.eqb_neq l l2) Hn).
Qed.

(* a binding of the specification without its skippers is a binding of the analyzer *)
Definition pj (b : binding) : name * id := (bname b, bid b).
Definition proj (e : list (list binding)) : list (list (name * id)) := map (map pj) e.

(* Whether the gotos to [l] met so far leave the binding with id [i] alone, as the analyzer
   has it: [at_label] prunes what the entry of [l] lacks, and nothing when there is no entry. *)
Definition kept (st : state) (l i : id) : bool :=
  match lookup_unres l (unres st) with None => true | Some J => mem_id i J end.

(* What the entry of a label in [unres] says: a binding is kept iff no goto to the label skips
   it.  This for the visible bindings, and for the binding declared next, whose id is at least
   the counter and which every goto seen so far skips. *)
Definition entry_ok (st : state) (s : sstate) (l : id) : Prop :=
  (forall i, (next st <= i)%N -> kept st l i = negb (mem_id l (seen s))) /\
  forall b, In b (concat (env s)) -> kept st l (bid b) = negb (mem_id l (skippers b)).

(* The analyzer's state against the specification's, [es] being the events still to come:
   same stack, counter and skipped set; ids below the counter; the entries of the labels
   still to come, each of which comes once.  (The entry of a label that has been passed means
   nothing: the analyzer has dropped it, the specification keeps the label in [seen].) *)
Record R (es : list event) (st : state) (s : sstate) : Prop := {
  R_stack : proj (env s) = stack st;
  R_next : snext s = next st;
  R_skip : skipped s = pruned st;
  R_fresh_stack : forall b, In b (concat (env s)) -> (bid b < next st)%N;
  R_once : NoDup (label_ids es);
  R_entry : forall l, In l (label_ids es) -> entry_ok st s l
}.

(* Steps that add no binding and leave counter, [unres] and [seen] alone keep the relation. *)
Lemma R_env_shrinks es st s st' s' :
  R es st s ->
  proj (env s') = stack st' ->
  (forall b, In b (concat (env s')) -> In b (concat (env s))) ->
  next st' = next st -> unres st' = unres st ->
  snext s' = snext s -> seen s' = seen s -> skipped s' = pruned st' ->
  R es st' s'.
Proof.
  intros [H1 H2 H3 H4 H5 H6] E1 E2 E3 E4 E5 E6 E7.
  constructor; rewrite ?E3, ?E5, ?E6; auto.
  intros l Hl. destruct (H6 l Hl) as [A B]. unfold entry_ok, kept. rewrite E3, E4, E6.
  split; [exact A | intros b Hb; exact (B b (E2 b Hb))].
Qed.

Lemma find_map_pj x l :
  find (fun b => N.eqb (fst b) x) (map pj l) = option_map pj (find (fun b => N.eqb (bname b) x) l).
Proof.
  induction l as [|a l IH]; [reflexivity|]. cbn [map find pj fst].
  destruct (N.eqb (bname a) x); [reflexivity|apply IH].
Qed.

Lemma find_name_proj x e : find_name x (proj e) = option_map bid (sfind x e).
Proof.
  unfold find_name, sfind, proj. rewrite <- concat_map, find_map_pj.
  destruct (find _ (concat e)); reflexivity.
Qed.

Lemma in_scope_R es st s : R es st s -> in_scope st = map bid (concat (env s)).
Proof.
  intros H. unfold in_scope. rewrite <- (R_stack _ _ _ H). unfold proj.
  rewrite <- concat_map, map_map. reflexivity.
Qed.

Definition sinit : sstate := {| env := [[]]; snext := 1%N; seen := []; skipped := [] |}.

Lemma R_init es : NoDup (label_ids es) -> R es init_state sinit.
Proof.
  intros H. constructor; try assumption; cbn; try reflexivity; try tauto.
  intros l _. split; [reflexivity | intros b []].
Qed.

Definition sim {A} (d d' : list event) (m : state -> state * A) (m' : sstate -> sstate * A) : Prop :=
  forall st s, R d st s -> snd (m st) = snd (m' s) /\ R d' (fst (m st)) (fst (m' s)).

Lemma sim_ret {A} d d' (g : state -> state) g' (a : A) :
  (forall st s, R d st s -> R d' (g st) (g' s)) -> sim d d' (fun st => (g st, a)) (fun s => (g' s, a)).
Proof. intros H st s HR. split; [reflexivity | now apply H]. Qed.

Lemma sim_bind {A B d0 d1 d2 m m'} {n : A -> state -> state * B} {n'} :
  sim d0 d1 m m' -> (forall a, sim d1 d2 (n a) (n' a)) ->
  sim d0 d2 (fun st => let '(st, a) := m st in n a st) (fun s => let '(s, a) := m' s in n' a s).
Proof.
  intros Hm Hn st s HR. destruct (Hm st s HR) as [E HR1].
  destruct (m st) as [st1 a], (m' s) as [s1 a']. cbn [fst snd] in *. subst a'. now apply Hn.
Qed.

Lemma sim_use es x : sim es es (use x) (suse x).
Proof.
  intros st s H. unfold use, suse. rewrite <- (R_stack _ _ _ H), find_name_proj.
  destruct (sfind x (env s)) as [b|]; cbn [option_map]; [|now split].
  rewrite (R_skip _ _ _ H). destruct (mem_id (bid b) (pruned st)); cbn [fst snd]; [|now split].
  split; [reflexivity|].
  eapply R_env_shrinks; [exact H| | | | | | |]; cbn; auto.
Qed.

Lemma sim_uses es xs : sim es es (uses xs) (suses xs).
Proof.
  induction xs as [|x xs IH]; [now split|].
  apply (sim_bind (sim_use es x)). intros c.
  apply (sim_bind IH). intros cr. now apply sim_ret.
Qed.

Lemma sim_declare es x : sim es es (declare x) (sdeclare x).
Proof.
  intros st s H. unfold declare, sdeclare. cbn [fst snd]. split.
  - rewrite <- (R_stack _ _ _ H), find_name_proj. now destruct (sfind x (env s)).
  - destruct H as [H1 H2 H3 H4 H5 H6].
    constructor; cbn [env snext skipped seen stack next unres pruned].
    + unfold proj. rewrite map_push_last. fold (proj (env s)). rewrite H1. unfold pj at 1.
      cbn [bname bid]. now rewrite H2.
    + now rewrite H2.
    + assumption.
    + intros b Hb. apply In_push_last in Hb as [Hb | ->]; [apply H4 in Hb; lia|cbn [bid]; lia].
    + assumption.
    + intros l Hl. destruct (H6 l Hl) as [A B]. split.
      * intros i Hi. cbn [next] in Hi. apply A. lia.
      * intros b Hb. apply In_push_last in Hb as [Hb | ->]; [now apply B|].
        (* the new binding is the one [A] speaks of *)
        cbn [bid skippers]. apply A. lia.
Qed.

Lemma R_push es st s : R es st s -> R es (push_scope st) (s_push s).
Proof.
  intros H. eapply R_env_shrinks; [exact H| | | | | | |]; cbn; auto; try apply (R_skip _ _ _ H).
  - unfold proj. rewrite map_app. cbn [map]. fold (proj (env s)). now rewrite (R_stack _ _ _ H).
  - intros b. rewrite concat_snoc, app_nil_r. auto.
Qed.

Lemma R_pop es st s : R es st s -> R es (pop_scope st) (s_pop s).
Proof.
  intros H. eapply R_env_shrinks; [exact H| | | | | | |]; cbn; auto; try apply (R_skip _ _ _ H).
  - unfold proj. rewrite map_removelast. fold (proj (env s)). now rewrite (R_stack _ _ _ H).
  - intros b. apply In_concat_removelast.
Qed.

Lemma mem_seen_goto l l' s : mem_id l' (seen (s_goto l s)) = N.eqb l' l || mem_id l' (seen s).
Proof.
  unfold s_goto. cbn [seen]. destruct (mem_id l (seen s)) eqn:E; [|reflexivity].
  destruct (N.eqb_spec l' l) as [->|_]; [now rewrite E | reflexivity].
Qed.

Lemma kept_goto l l' st i :
  kept (at_goto l st) l' i =
  if N.eqb l' l then kept st l i && mem_id i (in_scope st) else kept st l' i.
Proof.
  unfold kept. cbn [at_goto unres]. rewrite lookup_update. destruct (N.eqb l' l); [|reflexivity].
  destruct (lookup_unres l (unres st)); [apply mem_id_filter | reflexivity].
Qed.

Lemma R_goto es l st s : R (EGoto l :: es) st s -> R es (at_goto l st) (s_goto l s).
Proof.
  intros H. pose proof (in_scope_R _ _ _ H) as Hsc.
  destruct H as [H1 H2 H3 H4 H5 H6].
  constructor; cbn [env snext skipped stack next pruned at_goto s_goto]; auto.
  intros l' Hl'. destruct (H6 l' Hl') as [A B]. split.
  - intros i Hi. rewrite kept_goto, mem_seen_goto. destruct (N.eqb l' l); [|now apply A].
    (* the label of the goto: an id the counter has not reached is not in scope *)
    apply andb_false_iff. right. apply mem_id_false. rewrite Hsc. intros Hin.
    apply in_map_iff in Hin as (b & <- & Hb). apply H4 in Hb. cbn [next at_goto] in Hi. lia.
  - intros b Hb. cbn [env s_goto] in Hb. rewrite kept_goto. destruct (N.eqb_spec l' l) as [->|_]; [|now apply B].
    rewrite Hsc, (proj2 (mem_id_In _ _) (in_map bid _ _ Hb)), andb_true_r. now apply B.
Qed.

Lemma s_label_env l s : env (s_label l s) = env s.
Proof. unfold s_label. now destruct (rev (env s)). Qed.
Lemma s_label_snext l s : snext (s_label l s) = snext s.
Proof. unfold s_label. now destruct (rev (env s)). Qed.
Lemma s_label_seen l s : seen (s_label l s) = seen s.
Proof. unfold s_label. now destruct (rev (env s)). Qed.
Lemma at_label_stack l st : stack (at_label l st) = stack st.
Proof. unfold at_label. now destruct (lookup_unres l (unres st)). Qed.
Lemma at_label_next l st : next (at_label l st) = next st.
Proof. unfold at_label. now destruct (lookup_unres l (unres st)). Qed.

Lemma at_label_lookup l l' st :
  lookup_unres l' (unres (at_label l st)) = if N.eqb l' l then None else lookup_unres l' (unres st).
Proof.
  unfold at_label. destruct (lookup_unres l (unres st)) eqn:E; cbn [unres]; [apply lookup_remove|].
  now destruct (N.eqb_spec l' l) as [->|_].
Qed.

(* [at_label] prunes, of the innermost block, what the gotos to [l] did not keep *)
Lemma at_label_pruned l st :
  pruned (at_label l st) =
  match rev (stack st) with
  | [] => pruned st
  | top :: _ => add_pruned (filter (fun i => negb (kept st l i)) (map snd top)) (pruned st)
  end.
Proof.
  unfold at_label, kept.
  destruct (rev (stack st)) as [|top r], (lookup_unres l (unres st)); try reflexivity.
  now rewrite filter_none.
Qed.

Lemma R_label es l st s : R (ELabel l :: es) st s -> R es (at_label l st) (s_label l s).
Proof.
  intros H.
  assert (Hsk : skipped (s_label l s) = pruned (at_label l st)).
  { rewrite at_label_pruned, <- (R_stack _ _ _ H). unfold s_label, proj. rewrite <- map_rev.
    destruct (rev (env s)) as [|top r] eqn:Er; cbn [map skipped]; rewrite (R_skip _ _ _ H); [reflexivity|].
    (* of the label's own block, the analyzer kept exactly the bindings no goto to [l] skips *)
    f_equal. rewrite map_map. change (map (fun x => snd (pj x)) top) with (map bid top).
    rewrite filter_of_map. f_equal. apply filter_ext_in. intros b Hb.
    rewrite (proj2 (R_entry _ _ _ H l (or_introl eq_refl)) b); [symmetry; apply negb_involutive|].
    apply in_concat. exists top. split; [apply in_rev; rewrite Er; now left | assumption]. }
  destruct H as [H1 H2 H3 H4 H5 H6]. apply (NoDup_cons_iff l (label_ids es)) in H5 as [Hl H5].
  constructor; rewrite ?s_label_env, ?s_label_snext, ?s_label_seen, ?at_label_stack, ?at_label_next; auto.
  intros l' Hl'. unfold entry_ok, kept.
  rewrite at_label_lookup, s_label_env, s_label_seen, at_label_next.
  (* a later label is another one, and its entry is as it was *)
  destruct (N.eqb_spec l' l) as [->|_]; [contradiction | apply H6; now right].
Qed.

Lemma an_block b st :
  an_stmt (SBlock b) st = let '(st1, c) := an_list b (push_scope st) in (pop_scope st1, c).
Proof. reflexivity. Qed.

Lemma sp_block b st :
  sp_stmt (SBlock b) st = let '(st1, c) := sp_list b (s_push st) in (s_pop st1, c).
Proof. reflexivity. Qed.

(* A statement takes the relation over its own events and whatever comes after it to the
   relation over what comes after it. *)
Definition stmt_ok (s : stmt) : Prop :=
  forall es, sim (ev_stmt s ++ es) es (an_stmt s) (sp_stmt s).

Lemma list_ok b : Forall stmt_ok b -> forall es, sim (ev_list b ++ es) es (an_list b) (sp_list b).
Proof.
  induction 1 as [|s rest Hs _ IH]; intros es; [now split|].
  unfold ev_list in *. cbn [flat_map]. rewrite <- app_assoc.
  apply (sim_bind (Hs _)). intros c.
  apply (sim_bind (IH _)). intros cr. now apply sim_ret.
Qed.

Lemma stmt_ok_all : forall s, stmt_ok s.
Proof.
  induction s as [v us|us|l|l|us t IHt|us t e IHt IHe|b IHb|] using stmt_ind2;
    intros es; cbn [ev_stmt app].
  - apply (sim_bind (sim_uses es us)). intros c.
    apply (sim_bind (sim_declare es v)). intros dup. now apply sim_ret.
  - apply sim_uses.
  - apply sim_ret. intros st s. apply R_goto.
  - apply sim_ret. intros st s. apply R_label.
  - rewrite app_nil_r.
    apply (sim_bind (sim_uses _ us)). intros c0.
    apply (sim_bind (IHt _)). intros c1. now apply sim_ret.
  - rewrite <- app_assoc.
    apply (sim_bind (sim_uses _ us)). intros c0.
    apply (sim_bind (IHt _)). intros c1.
    apply (sim_bind (IHe _)). intros c2. now apply sim_ret.
  - apply (sim_bind (d1 := es)
             (m := fun st => an_list b (push_scope st)) (m' := fun s => sp_list b (s_push s))).
    + intros st s HR. apply (list_ok b IHb es), R_push, HR.
    + intros c. apply sim_ret. intros st s. apply R_pop.
  - now apply sim_ret.
Qed.

Lemma an_list_ok b es : sim (ev_list b ++ es) es (an_list b) (sp_list b).
Proof. apply list_ok. apply Forall_forall. intros s _. apply stmt_ok_all. Qed.

Lemma params_ok es ps : sim es es (declare_params ps) (sdeclare_params ps).
Proof.
  induction ps as [|p ps IH]; [now split|].
  apply (sim_bind (sim_declare es p)). intros dup.
  apply (sim_bind IH). intros cr. now apply sim_ret.
Qed.

Lemma func_ok f es : sim (ev_func f ++ es) es (an_func f) (sp_func f).
Proof.
  apply (sim_bind (d1 := ev_func f ++ es) (m := fun st => declare_params (params f) (push_scope st))
                  (m' := fun s => sdeclare_params (params f) (s_push s))).
  { intros st s HR. apply params_ok, R_push, HR. }
  intros c0.
  apply (sim_bind (d1 := es) (m := fun st => an_list (body f) (push_scope st))
                  (m' := fun s => sp_list (body f) (s_push s))).
  { intros st s HR. apply an_list_ok, R_push, HR. }
  intros c1. apply (sim_bind (sim_uses _ (ret f))). intros c2.
  apply sim_ret. intros st s HR. now apply R_pop, R_pop.
Qed.

Lemma funcs_ok fs : forall st ss, R (events fs) st ss -> an_funcs fs st = sp_funcs fs ss.
Proof.
  induction fs as [|f fs IH]; intros st ss HR; [reflexivity|].
  cbn [an_funcs sp_funcs]. destruct (func_ok f (events fs) _ _ HR) as [Hc HR1].
  destruct (an_func f st) as [st1 c1], (sp_func f ss) as [ss1 c1']. cbn [fst snd] in *.
  subst. f_equal. now apply IH.
Qed.

Lemma consts_ok es cs : forall st ss,
  R es st ss -> R es (declare_consts cs st) (sdeclare_consts cs ss).
Proof.
  induction cs as [|c cs IH]; intros st ss HR; [assumption|].
  cbn [declare_consts sdeclare_consts]. apply IH. now apply sim_declare.
Qed.

Theorem an_program_eq_spec_once : forall consts fs,
  labels_once fs -> an_program consts fs = spec_program consts fs.
Proof.
  intros consts fs Hw. apply funcs_ok, consts_ok, R_init, labels_once_iff, Hw.
Qed.

Theorem an_program_eq_spec : forall consts fs,
  wf_labels fs -> an_program consts fs = spec_program consts fs.
Proof. intros consts fs H. apply an_program_eq_spec_once, wf_ev_once, H. Qed.

(* Without the hypothesis the two differ: a label id declared twice. *)
Lemma an_program_neq_spec_without_wf : exists fs, an_program [] fs <> spec_program [] fs.
Proof.
  exists [ {| params := []; ret := [];
              body := [SGoto 1; SLabel 1; SDecl 7 []; SLabel 1; SUse [7]] |} ]%N.
  vm_compute. discriminate.
Qed.

(* Backward jumps (goto after its label) are covered by [labels_once] although
   they are excluded by [wf_labels]. *)
Example labels_once_backward_goto :
  let fs := [ {| params := []; ret := [];
                 body := [SLabel 1; SDecl 7 []; SGoto 1; SUse [7]] |} ]%N in
  labels_once fs /\ ~ wf_labels fs.
Proof. split; vm_compute; [reflexivity|discriminate]. Qed.

Lemma use_undefined_iff : forall x st,
  snd (use x st) = [E402] <-> find_name x (stack st) = None.
Proof.
  intros x st. unfold use. destruct (find_name x (stack st)) as [i|].
  - destruct (mem_id i (pruned st)); cbn [snd]; split; intros H; discriminate H.
  - cbn [snd]. split; reflexivity.
Qed.

Lemma declare_dup_iff : forall x st,
  snd (declare x st) = true <-> exists i, find_name x (stack st) = Some i.
Proof.
  intros x st. unfold declare. cbn [snd]. destruct (find_name x (stack st)) as [i|].
  - split; [eauto|reflexivity].
  - split; [discriminate|]. intros [i H]. discriminate H.
Qed.

Print Assumptions an_program_eq_spec.
Print Assumptions an_program_eq_spec_once.
