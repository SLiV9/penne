(* Proofs about Model/Expand.v (src/alpha/expander.rs):
   importing a file exposes exactly its public declarations (as signatures),
   never private items, never transitively imported items; the order in which the
   set of (includer, includee) pairs is processed only permutes the spliced groups.
   That much is read off one equation: expansion is the third loop run over the
   import set in its iteration order, on the modules as the first two loops
   leave them ([expand_order_unfold]), and the third loop prepends to module i
   the exports of the ORIGINAL includees ([splice_all_inv]).
   The sorted iteration of the current tree ([sort_pairs]) is one such
   order and depends on the set alone ([expand_sorted_canonical],
   [expand_sorted_spec]). *)
From PV Require Import Base.Common Model.Expand.
From Coq Require Import Permutation Sorted.

(* Only the four flag-carrying kinds can be public. *)
Definition is_public (d : decl) : bool :=
  match d_kind d with
  | KConstant | KFunction | KFunctionHead | KStructure => f_public (d_flags d)
  | _ => false
  end.

(* The signature of a declaration: body dropped, Public cleared, rest kept. *)
Definition strip (d : decl) : decl :=
  mkDecl (match d_kind d with KFunction => KFunctionHead | k => k end)
         (d_payload d)
         (match d_kind d with KFunction | KFunctionHead => None | _ => d_body d end)
         (mkFlags false (f_external (d_flags d)) (f_main (d_flags d))
                  (f_forward (d_flags d)) (f_opaque (d_flags d))).

Definition nonimports (ds : list decl) : list decl :=
  filter (fun d => negb (is_import d)) ds.

Definition public_sigs (ds : list decl) : list decl :=
  map strip (filter is_public (nonimports ds)).

Lemma export_spec d : export d = if is_public d then Some (strip d) else None.
Proof.
  unfold export, is_public, strip, extract_public.
  destruct d as [k p b fl]; cbn [d_kind d_flags d_payload d_body].
  destruct k; destruct (f_public fl); reflexivity.
Qed.

Lemma exports_spec ds : exports ds = map strip (filter is_public ds).
Proof.
  induction ds as [|d r IH]; [reflexivity|].
  cbn [exports filter]. rewrite export_spec.
  destruct (is_public d); cbn [map]; now rewrite IH.
Qed.

Lemma is_public_strip d : is_public (strip d) = false.
Proof.
  unfold is_public, strip. destruct d as [k p b fl]; cbn [d_kind d_flags f_public].
  destruct k; reflexivity.
Qed.

Lemma export_export d d' : export d = Some d' -> export d' = None.
Proof.
  rewrite export_spec. destruct (is_public d); [|discriminate].
  intros H; injection H as <-. now rewrite export_spec, is_public_strip.
Qed.

Lemma exports_app a b : exports (a ++ b) = exports a ++ exports b.
Proof. rewrite !exports_spec, filter_app, map_app. reflexivity. Qed.

Lemma exports_exports ds : exports (exports ds) = [].
Proof.
  rewrite (exports_spec ds). induction (filter is_public ds) as [|d r IH]; [reflexivity|].
  cbn [map exports]. rewrite export_spec, is_public_strip. exact IH.
Qed.

Lemma is_public_not_import d : is_public d = true -> is_import d = false.
Proof. unfold is_public, is_import. destruct (d_kind d); congruence. Qed.

Lemma exports_nonimports ds : exports (nonimports ds) = exports ds.
Proof.
  rewrite !exports_spec. f_equal. unfold nonimports.
  induction ds as [|d r IH]; [reflexivity|].
  cbn [filter]. destruct (is_import d) eqn:Hi; cbn [negb filter].
  - destruct (is_public d) eqn:Hp; [|exact IH].
    apply is_public_not_import in Hp. congruence.
  - now rewrite IH.
Qed.

Lemma insert_stable_import d l : is_import d = true -> insert_stable d l = d :: l.
Proof.
  intros Hd. destruct l as [|y r]; [reflexivity|].
  cbn [insert_stable]. unfold import_key. rewrite Hd.
  destruct (is_import y); reflexivity.
Qed.

Lemma insert_stable_other d a b :
  is_import d = false ->
  Forall (fun x => is_import x = true) a ->
  Forall (fun x => is_import x = false) b ->
  insert_stable d (a ++ b) = a ++ d :: b.
Proof.
  intros Hd Ha Hb. induction Ha as [|x a Hx Ha IH].
  - cbn [app]. destruct b as [|y r]; [reflexivity|].
    cbn [insert_stable]. unfold import_key. rewrite Hd.
    inversion Hb as [|? ? Hy _]; subst. now rewrite Hy.
  - cbn [app insert_stable]. unfold import_key at 1 2. rewrite Hd, Hx.
    cbn [Z.leb Z.compare]. now rewrite IH.
Qed.

Lemma filter_Forall_true {A} (p : A -> bool) l : Forall (fun x => p x = true) (filter p l).
Proof.
  apply Forall_forall. intros x Hx. apply filter_In in Hx. tauto.
Qed.

Lemma nonimports_Forall ds : Forall (fun x => is_import x = false) (nonimports ds).
Proof.
  apply Forall_forall. intros x Hx. apply filter_In in Hx.
  destruct Hx as [_ Hx]. now destruct (is_import x).
Qed.

Lemma sort_imports_first_spec ds :
  sort_imports_first ds = filter is_import ds ++ nonimports ds.
Proof.
  unfold sort_imports_first, nonimports.
  induction ds as [|d r IH]; [reflexivity|].
  cbn [fold_right filter]. rewrite IH. destruct (is_import d) eqn:Hd; cbn [negb].
  - now rewrite insert_stable_import.
  - apply insert_stable_other; [assumption|apply filter_Forall_true|apply nonimports_Forall].
Qed.

Lemma partition_point_spec a b :
  Forall (fun x => is_import x = true) a ->
  Forall (fun x => is_import x = false) b ->
  partition_point is_import (a ++ b) = length a.
Proof.
  intros Ha Hb. induction Ha as [|x a Hx Ha IH].
  - destruct b as [|y r]; [reflexivity|]. cbn [app partition_point].
    inversion Hb as [|? ? Hy _]; subst. now rewrite Hy.
  - cbn [app partition_point length]. now rewrite Hx, IH.
Qed.

(* What the first loop iterates over, and what it leaves alone. *)
Lemma imports_prefix ds :
  let s := sort_imports_first ds in
  let k := partition_point is_import s in
  firstn k s = filter is_import ds /\ skipn k s = nonimports ds.
Proof.
  cbn zeta. rewrite sort_imports_first_spec.
  rewrite partition_point_spec by (apply filter_Forall_true || apply nonimports_Forall).
  rewrite firstn_app, skipn_app, Nat.sub_diag, firstn_all, skipn_all.
  split; [apply app_nil_r|reflexivity].
Qed.

Lemma update_nth_length n f l : length (update_nth n f l) = length l.
Proof.
  revert n. induction l as [|x r IH]; intros n; [reflexivity|].
  destruct n; cbn [update_nth length]; [reflexivity|]. now rewrite IH.
Qed.

Lemma update_nth_nth n m f l :
  m < length l ->
  nth m (update_nth n f l) dmod = if Nat.eqb n m then f (nth m l dmod) else nth m l dmod.
Proof.
  revert n m. induction l as [|x r IH]; intros n m Hm; cbn [length] in Hm; [lia|].
  destruct n, m; cbn [update_nth nth Nat.eqb]; try reflexivity. apply IH. lia.
Qed.

Lemma decls_of_overflow mods i : length mods <= i -> decls_of mods i = [].
Proof. intros H. unfold decls_of. now rewrite nth_overflow. Qed.

Lemma splice_one_spec a b mods :
  length (splice_one (a, b) mods) = length mods /\
  forall i, i < length mods ->
    nth i (splice_one (a, b) mods) dmod =
    (key_of mods i, (if Nat.eqb a i then exports (decls_of mods b) else []) ++ decls_of mods i).
Proof.
  unfold splice_one. split; [apply update_nth_length|]. intros i Hi.
  rewrite update_nth_nth by assumption. unfold key_of, decls_of at 2 3. cbn [fst snd].
  destruct (Nat.eqb a i), (nth i mods dmod); reflexivity.
Qed.

(* Spliced declarations are never re-exported, because [export] clears Public. *)
Lemma exports_splice_one p mods j :
  exports (decls_of (splice_one p mods) j) = exports (decls_of mods j).
Proof.
  destruct p as [a b]. destruct (splice_one_spec a b mods) as [HL HS].
  destruct (Nat.lt_ge_cases j (length mods)) as [Hj|Hj].
  - unfold decls_of at 1. rewrite HS by assumption. cbn [snd]. rewrite exports_app.
    destruct (Nat.eqb a j); [now rewrite exports_exports|reflexivity].
  - rewrite !decls_of_overflow; [reflexivity|assumption|now rewrite HL].
Qed.

(* The groups spliced in front of module i after processing [ps] in order:
   each splice prepends, so the last processed pair comes first. *)
Definition includees (ps : list (nat * nat)) (i : nat) : list nat :=
  rev (map snd (filter (fun p => Nat.eqb (fst p) i) ps)).

Lemma includees_cons a b ps i :
  includees ((a, b) :: ps) i = includees ps i ++ (if Nat.eqb a i then [b] else []).
Proof.
  unfold includees. cbn [filter fst]. destruct (Nat.eqb a i); [reflexivity|now rewrite app_nil_r].
Qed.

(* The third loop, for ANY list of pairs: module i becomes
   [its groups ++ its old declarations], each group being the exports of the
   ORIGINAL declarations of the includee. *)
Lemma splice_all_inv ps : forall mods,
  length (splice_all ps mods) = length mods /\
  forall i, i < length mods ->
    nth i (splice_all ps mods) dmod =
    (key_of mods i,
     flat_map (fun j => exports (decls_of mods j)) (includees ps i) ++ decls_of mods i).
Proof.
  induction ps as [|[a b] ps IH]; intros mods.
  - split; [reflexivity|]. intros i Hi. unfold key_of, decls_of. cbn [splice_all fold_left].
    now destruct (nth i mods dmod).
  - change (splice_all ((a, b) :: ps) mods) with (splice_all ps (splice_one (a, b) mods)).
    destruct (splice_one_spec a b mods) as [HL HS].
    destruct (IH (splice_one (a, b) mods)) as [IHL IHS]. rewrite HL in *.
    split; [assumption|]. intros i Hi. rewrite IHS by assumption.
    unfold key_of at 1, decls_of at 2. rewrite HS by assumption. cbn [fst snd].
    rewrite includees_cons, flat_map_app, <- app_assoc. f_equal. f_equal.
    + apply flat_map_ext. intros j. apply exports_splice_one.
    + destruct (Nat.eqb a i); cbn [flat_map]; [now rewrite app_nil_r|reflexivity].
Qed.

Lemma pair_eqb_eq p q : pair_eqb p q = true <-> p = q.
Proof.
  unfold pair_eqb. destruct p as [a b], q as [c d]. cbn [fst snd].
  rewrite andb_true_iff, !Nat.eqb_eq. split; [intros [-> ->]; reflexivity|].
  intros H; injection H as -> ->. split; reflexivity.
Qed.

Lemma mem_pair_In p l : mem_pair p l = true <-> In p l.
Proof.
  unfold mem_pair. rewrite existsb_exists. split.
  - intros [x [Hx He]]. apply pair_eqb_eq in He. now subst.
  - intros H. exists p. split; [assumption|now apply pair_eqb_eq].
Qed.

Lemma dedup_In p l : In p (dedup l) <-> In p l.
Proof.
  induction l as [|q r IH]; [reflexivity|].
  cbn [dedup]. destruct (mem_pair q r) eqn:Hm.
  - rewrite IH. apply mem_pair_In in Hm. cbn [In]. split; [tauto|].
    intros [->|H]; assumption.
  - cbn [In]. now rewrite IH.
Qed.

Lemma dedup_NoDup l : NoDup (dedup l).
Proof.
  induction l as [|q r IH]; [constructor|].
  cbn [dedup]. destruct (mem_pair q r) eqn:Hm; [assumption|].
  constructor; [|assumption]. rewrite dedup_In, <- mem_pair_In. congruence.
Qed.

Lemma import_set_NoDup l : NoDup (import_set l).
Proof. unfold import_set. apply NoDup_filter, dedup_NoDup. Qed.

Lemma import_set_In a b l : In (a, b) (import_set l) <-> a <> b /\ In (a, b) l.
Proof.
  unfold import_set. rewrite filter_In, dedup_In. cbn [fst snd].
  rewrite negb_true_iff, Nat.eqb_neq. tauto.
Qed.

Lemma includees_In ps i j : In j (includees ps i) <-> In (i, j) ps.
Proof.
  induction ps as [|[a b] ps IH]; [reflexivity|].
  rewrite includees_cons, in_app_iff, IH. cbn [In].
  destruct (Nat.eqb a i) eqn:Hai; cbn [In].
  - apply Nat.eqb_eq in Hai. subst a. split.
    + intros [H|[->|[]]]; auto.
    + intros [[= ->]|H]; auto.
  - apply Nat.eqb_neq in Hai. split.
    + intros [H|[]]. now right.
    + intros [[= -> ->]|H]; [contradiction|now left].
Qed.

Lemma includees_NoDup ps i : NoDup ps -> NoDup (includees ps i).
Proof.
  intros Hnd. induction Hnd as [|[a b] r Hnin Hnd IH]; [constructor|].
  rewrite includees_cons. destruct (Nat.eqb a i) eqn:Hai; [|now rewrite app_nil_r].
  apply Nat.eqb_eq in Hai. subst a. apply (Permutation_NoDup (Permutation_cons_append _ b)).
  constructor; [now rewrite includees_In|assumption].
Qed.

Lemma includees_Permutation ps qs i :
  Permutation ps qs -> Permutation (includees ps i) (includees qs i).
Proof.
  intros H. induction H as [|[a b] l l' H IH|[a b] [c d] l|l l' l'' H1 IH1 H2 IH2].
  - apply Permutation_refl.
  - rewrite !includees_cons. now apply Permutation_app_tail.
  - rewrite !includees_cons, <- !app_assoc. apply Permutation_app_head, Permutation_app_comm.
  - now transitivity (includees l' i).
Qed.

Section Spec.
  Variable resolve : N -> N -> option nat.
  Variable hint : N -> bool.

  Definition unresolved (path : N) (d : decl) : bool :=
    match d_kind d with
    | KImport f => match resolve path f with None => true | Some _ => false end
    | _ => false
    end.

  Definition import_code (f : N) : code := if hint f then E477 else E470.

  Definition poison_import (d : decl) : decl :=
    match d_kind d with
    | KImport f => poison_of (import_code f) d
    | _ => d
    end.

  (* The declarations of a module after the first two loops: the unresolved
     imports, poisoned, come FIRST (the stable sort moved them there), then the
     non-import declarations in their original order. *)
  Definition own_final (path : N) (ds : list decl) : list decl :=
    map poison_import (filter (unresolved path) ds) ++ nonimports ds.

  (* the (includer, includee) pairs of the resolved imports of module i *)
  Definition pairs_of (i : nat) (path : N) (ds : list decl) : list (nat * nat) :=
    flat_map (fun d => match d_kind d with
                       | KImport f => match resolve path f with
                                      | Some j => [(i, j)]
                                      | None => []
                                      end
                       | _ => []
                       end) ds.

  (* the same for all modules, numbered from n: what the first loop inserts into `imports` *)
  Fixpoint all_pairs (n : nat) (mods : list pmodule) : list (nat * nat) :=
    match mods with
    | [] => []
    | m :: r => pairs_of n (fst m) (snd m) ++ all_pairs (S n) r
    end.

  (* every module after the first two loops *)
  Definition base (mods : list pmodule) : list pmodule :=
    map (fun m => (fst m, own_final (fst m) (snd m))) mods.

  (* the set the third loop iterates over: duplicates and self-imports removed *)
  Definition import_pairs (mods : list pmodule) : list (nat * nat) :=
    import_set (all_pairs 0 mods).

  Definition resolved_import (mods : list pmodule) (i j : nat) : Prop :=
    exists d f, In d (decls_of mods i) /\ d_kind d = KImport f /\
                resolve (key_of mods i) f = Some j.

  Definition group (mods : list pmodule) (j : nat) : list decl :=
    public_sigs (decls_of mods j).

  Definition own_part (mods : list pmodule) (i : nat) : list decl :=
    own_final (key_of mods i) (decls_of mods i).

  (* an iteration order of the set: any permutation of a duplicate-free list *)
  Definition order_ok (order : list (nat * nat) -> list (nat * nat)) : Prop :=
    forall s, NoDup s -> Permutation (order s) s.

  (* the includees of module i, as their groups end up in front of it *)
  Definition groups_of (order : list (nat * nat) -> list (nat * nat))
             (mods : list pmodule) (i : nat) : list nat :=
    includees (order (import_pairs mods)) i.

  Lemma process_imports_spec i path ds :
    process_imports resolve hint i path ds =
    (map (fun d => if unresolved path d then poison_import d else d) ds, pairs_of i path ds).
  Proof.
    induction ds as [|d r IH]; [reflexivity|].
    cbn [process_imports map]. rewrite IH.
    unfold pairs_of, process_import, unresolved, poison_import. cbn [flat_map].
    destruct (d_kind d); try reflexivity. destruct (resolve path file); reflexivity.
  Qed.

  (* The [unreachable!()] arm is never taken: the processed prefix contains
     only import declarations. *)
  Lemma process_unreachable_never ds :
    let s := sort_imports_first ds in
    Forall (fun d => is_import d = true) (firstn (partition_point is_import s) s).
  Proof.
    cbn zeta. rewrite (proj1 (imports_prefix ds)). apply filter_Forall_true.
  Qed.

  Lemma phase1_module_spec i path ds :
    phase1_module resolve hint i (path, ds) =
    ((path, map (fun d => if unresolved path d then poison_import d else d) (filter is_import ds)
            ++ nonimports ds),
     pairs_of i path ds).
  Proof.
    unfold phase1_module. destruct (imports_prefix ds) as [-> ->].
    rewrite process_imports_spec. f_equal. unfold pairs_of.
    induction ds as [|d r IH]; [reflexivity|].
    cbn [filter flat_map]. rewrite <- IH. unfold is_import.
    destruct (d_kind d) eqn:Hk; try reflexivity. cbn [flat_map]. now rewrite Hk.
  Qed.

  Lemma unresolved_is_import path d : unresolved path d = true -> is_import d = true.
  Proof. unfold unresolved, is_import. destruct (d_kind d); congruence. Qed.

  Lemma poison_import_inert path d :
    unresolved path d = true ->
    is_import (poison_import d) = false /\ is_public (poison_import d) = false.
  Proof.
    unfold unresolved, poison_import. destruct (d_kind d); try discriminate. now split.
  Qed.

  Lemma retain_own_final path ds :
    filter (fun d => negb (is_import d))
           (map (fun d => if unresolved path d then poison_import d else d) (filter is_import ds)
                ++ nonimports ds)
    = own_final path ds.
  Proof.
    rewrite filter_app. unfold own_final. f_equal.
    - induction ds as [|d r IH]; [reflexivity|].
      cbn [filter]. destruct (is_import d) eqn:Hd.
      + cbn [map filter]. destruct (unresolved path d) eqn:Hu.
        * rewrite (proj1 (poison_import_inert path d Hu)). cbn [negb map]. now rewrite IH.
        * rewrite Hd. cbn [negb]. exact IH.
      + destruct (unresolved path d) eqn:Hu; [|exact IH].
        apply unresolved_is_import in Hu. congruence.
    - unfold nonimports. induction ds as [|d r IH]; [reflexivity|].
      cbn [filter]. destruct (is_import d) eqn:Hd; cbn [negb filter]; [exact IH|].
      rewrite Hd. cbn [negb]. now rewrite IH.
  Qed.

  Lemma phase1_spec n mods :
    retain_nonimports (fst (phase1 resolve hint n mods)) = base mods /\
    snd (phase1 resolve hint n mods) = all_pairs n mods.
  Proof.
    revert n. induction mods as [|[path ds] r IH]; intros n; [split; reflexivity|].
    cbn [phase1]. rewrite phase1_module_spec.
    destruct (IH (S n)) as [IH1 IH2].
    destruct (phase1 resolve hint (S n) r) as [r' ps'] eqn:Hr. cbn [fst snd] in *.
    split.
    - unfold retain_nonimports, base in *. cbn [map fst snd].
      now rewrite retain_own_final, IH1.
    - cbn [all_pairs fst snd]. now rewrite IH2.
  Qed.

  Lemma expand_order_unfold order mods :
    expand_order resolve hint order mods = splice_all (order (import_pairs mods)) (base mods).
  Proof.
    unfold expand_order, import_pairs. destruct (phase1_spec 0 mods) as [H1 H2].
    destruct (phase1 resolve hint 0 mods) as [m1 ps]. cbn [fst snd] in *. now rewrite H1, H2.
  Qed.

  Lemma nth_base mods i :
    nth i (base mods) dmod = (key_of mods i, own_part mods i).
  Proof. exact (map_nth (fun m => (fst m, own_final (fst m) (snd m))) mods dmod i). Qed.

  Lemma base_length mods : length (base mods) = length mods.
  Proof. unfold base. apply map_length. Qed.

  Lemma exports_own_final path ds : exports (own_final path ds) = public_sigs ds.
  Proof.
    unfold own_final, public_sigs. rewrite exports_app, <- exports_spec.
    replace (exports (map poison_import (filter (unresolved path) ds))) with (@nil decl);
      [reflexivity|].
    rewrite exports_spec.
    assert (H := filter_Forall_true (unresolved path) ds).
    induction H as [|d l Hd Hl IH]; [reflexivity|].
    cbn [map filter]. now rewrite (proj2 (poison_import_inert path d Hd)).
  Qed.

  Lemma pairs_of_In i path ds a b :
    In (a, b) (pairs_of i path ds) <->
    a = i /\ exists d f, In d ds /\ d_kind d = KImport f /\ resolve path f = Some b.
  Proof.
    unfold pairs_of. rewrite in_flat_map. split.
    - intros [d [Hd Hin]]. destruct (d_kind d) eqn:Hk; try contradiction.
      destruct (resolve path file) eqn:Hr; [|contradiction].
      destruct Hin as [[= <- <-]|[]]. eauto 6.
    - intros [-> (d & f & Hd & Hk & Hr)]. exists d. rewrite Hk, Hr. split; [assumption|now left].
  Qed.

  Lemma all_pairs_In a b n mods :
    In (a, b) (all_pairs n mods) <->
    exists k, a = n + k /\ k < length mods /\ resolved_import mods k b.
  Proof.
    revert n. induction mods as [|m r IH]; intros n; cbn [all_pairs length].
    - split; [intros []|intros (k & _ & Hk & _); lia].
    - rewrite in_app_iff, pairs_of_In, IH. split.
      + intros [[-> Hr]|(k & -> & Hk & Hr)]; [exists 0|exists (S k)];
          (split; [lia|]); (split; [lia|exact Hr]).
      + intros (k & -> & Hk & Hr). destruct k as [|k].
        * left. split; [lia|exact Hr].
        * right. exists k. split; [lia|]. split; [lia|exact Hr].
  Qed.

  Lemma import_pairs_In mods i j :
    In (i, j) (import_pairs mods) <-> i <> j /\ i < length mods /\ resolved_import mods i j.
  Proof.
    unfold import_pairs. rewrite import_set_In, all_pairs_In. split.
    - intros [Hne [k [-> [Hk Hr]]]]. cbn [plus] in *. tauto.
    - intros [Hne [Hi Hr]]. split; [assumption|]. exists i. tauto.
  Qed.

  (* For ANY processing list (no hypothesis on [order]): the shape. *)
  Lemma expand_order_shape order mods :
    length (expand_order resolve hint order mods) = length mods /\
    forall i, i < length mods ->
      nth i (expand_order resolve hint order mods) dmod =
      (key_of mods i, flat_map (group mods) (groups_of order mods i) ++ own_part mods i).
  Proof.
    rewrite expand_order_unfold.
    destruct (splice_all_inv (order (import_pairs mods)) (base mods)) as [HL HS].
    rewrite base_length in *. split; [assumption|].
    intros i Hi. rewrite HS by assumption. unfold key_of at 1, decls_of at 2.
    rewrite nth_base. cbn [fst snd]. f_equal. f_equal.
    unfold groups_of. apply flat_map_ext. intros j.
    unfold decls_of at 1. rewrite nth_base. cbn [snd]. unfold own_part, group.
    apply exports_own_final.
  Qed.

  Lemma groups_of_perm order mods i :
    order_ok order -> Permutation (groups_of order mods i) (includees (import_pairs mods) i).
  Proof. intros Hok. apply includees_Permutation, Hok, import_set_NoDup. Qed.

  Theorem imported_exactly_public order mods i :
    order_ok order -> i < length mods ->
    nth i (expand_order resolve hint order mods) dmod =
      (key_of mods i, flat_map (group mods) (groups_of order mods i) ++ own_part mods i)
    /\ NoDup (groups_of order mods i)
    /\ (forall j, In j (groups_of order mods i) <-> j <> i /\ resolved_import mods i j).
  Proof.
    intros Hok Hi. split; [now apply expand_order_shape|].
    pose proof (groups_of_perm order mods i Hok) as HP. split.
    - rewrite HP. apply includees_NoDup, import_set_NoDup.
    - intros j. rewrite HP, includees_In, import_pairs_In. clear - Hi. intuition congruence.
  Qed.
End Spec.

Lemma NoDup_map_inj_in {A B} (f : A -> B) l a b :
  NoDup (map f l) -> In a l -> In b l -> f a = f b -> a = b.
Proof.
  induction l as [|x l IH]; intros Hnd Ha Hb Hf; [contradiction|].
  cbn [map] in Hnd. inversion Hnd as [|? ? Hnin Hnd']; subst.
  destruct Ha as [->|Ha], Hb as [->|Hb].
  - reflexivity.
  - exfalso. apply Hnin. rewrite Hf. now apply in_map.
  - exfalso. apply Hnin. rewrite <- Hf. now apply in_map.
  - now apply IH.
Qed.

Lemma NoDup_singleton_iff {A} (l : list A) a :
  NoDup l -> (forall x, In x l <-> x = a) -> l = [a].
Proof.
  intros Hnd H. apply Permutation_length_1_inv, NoDup_Permutation; [|assumption|].
  - constructor; [intros []|constructor].
  - intros x. rewrite H. cbn [In]. split; [intros [<-|[]]; reflexivity|intros ->; now left].
Qed.

(* Every payload id names one declaration of one module. *)
Definition payloads_unique (mods : list pmodule) : Prop :=
  NoDup (flat_map (fun m => map d_payload (snd m)) mods).

Lemma payloads_unique_loc mods a b d1 d2 :
  payloads_unique mods ->
  In d1 (decls_of mods a) -> In d2 (decls_of mods b) ->
  d_payload d1 = d_payload d2 -> a = b /\ d1 = d2.
Proof.
  unfold payloads_unique, decls_of. revert a b.
  induction mods as [|m r IH]; intros a b Hnd H1 H2 Hp; [now destruct a|].
  cbn [flat_map] in Hnd. apply NoDup_app_inv in Hnd. destruct Hnd as (Hm & Hr & Hdis).
  assert (Hin : forall k d, In d (snd (nth k r dmod)) ->
                            In (d_payload d) (flat_map (fun m => map d_payload (snd m)) r)).
  { intros k d Hd. destruct (Nat.lt_ge_cases k (length r)) as [Hk|Hk];
      [|now rewrite nth_overflow in Hd].
    apply in_flat_map. exists (nth k r dmod). split; [now apply nth_In|now apply in_map]. }
  destruct a as [|a], b as [|b]; cbn [nth] in *.
  - split; [reflexivity|]. eapply NoDup_map_inj_in; eauto.
  - destruct (Hdis (d_payload d1)); [now apply in_map|]. rewrite Hp. now apply (Hin b).
  - destruct (Hdis (d_payload d2)); [now apply in_map|]. rewrite <- Hp. now apply (Hin a).
  - now destruct (IH a b Hr H1 H2 Hp) as [-> ->].
Qed.

Section Corollaries.
  Variable resolve : N -> N -> option nat.
  Variable hint : N -> bool.

  (* In this section the names below stand for the definitions applied to [resolve]
     and [hint]; the definition itself is [ExpandProofs.own_part]. *)
  Notation expand := (expand_order resolve hint).
  Notation own_part := (own_part resolve hint).
  Notation resolved_import := (resolved_import resolve).
  Notation groups_of := (groups_of resolve).

  Lemma group_In mods j d :
    In d (group mods j) <->
    exists d0, In d0 (decls_of mods j) /\ is_import d0 = false /\ is_public d0 = true /\
               d = strip d0.
  Proof.
    unfold group, public_sigs, nonimports. rewrite in_map_iff. split.
    - intros [d0 [Hs Hf]]. apply filter_In in Hf. destruct Hf as [Hf Hp].
      apply filter_In in Hf. destruct Hf as [Hin Hi]. apply negb_true_iff in Hi.
      exists d0. auto.
    - intros [d0 (Hin & Hi & Hp & ->)]. exists d0. split; [reflexivity|].
      apply filter_In. split; [|assumption]. apply filter_In. split; [assumption|].
      now rewrite Hi.
  Qed.

  Lemma own_part_payload mods i d :
    In d (own_part mods i) ->
    exists d1, In d1 (decls_of mods i) /\ d_payload d = d_payload d1.
  Proof.
    unfold ExpandProofs.own_part, own_final. rewrite in_app_iff, in_map_iff.
    intros [[d1 [Hd Hf]]|H].
    - apply filter_In in Hf. destruct Hf as [Hin Hu]. exists d1. split; [assumption|].
      subst d. unfold poison_import. now destruct (d_kind d1).
    - apply filter_In in H. exists d. tauto.
  Qed.

  Theorem expand_provenance order mods i d :
    order_ok order -> i < length mods ->
    In d (decls_of (expand order mods) i) ->
    In d (own_part mods i) \/
    exists j d0, j <> i /\ resolved_import mods i j /\ In d0 (decls_of mods j) /\
                 is_import d0 = false /\ is_public d0 = true /\ d = strip d0.
  Proof.
    intros Hok Hi Hd. unfold decls_of at 1 in Hd.
    destruct (imported_exactly_public resolve hint order mods i Hok Hi) as (Heq & _ & Hjs).
    rewrite Heq in Hd. cbn [snd] in Hd. apply in_app_iff in Hd.
    destruct Hd as [Hd|Hd]; [|now left]. right.
    apply in_flat_map in Hd. destruct Hd as [j [Hj Hd]].
    apply Hjs in Hj. destruct Hj as [Hne Hr]. apply group_In in Hd.
    destruct Hd as [d0 (H1 & H2 & H3 & H4)]. exists j, d0. auto 10.
  Qed.

  (* With unique payload ids: a declaration of module j can only show up in
     another module i if i imports j DIRECTLY and the declaration is public,
     and then what shows up is its signature. *)
  Theorem visible_only_direct_public order mods i j d d0 :
    payloads_unique mods -> order_ok order ->
    i < length mods -> j < length mods -> j <> i ->
    In d (decls_of (expand order mods) i) ->
    In d0 (decls_of mods j) -> d_payload d = d_payload d0 ->
    resolved_import mods i j /\ is_public d0 = true /\ d = strip d0.
  Proof.
    intros Hu Hok Hi Hj Hne Hd Hd0 Hp.
    destruct (expand_provenance order mods i d Hok Hi Hd) as [Hown|[j' [d1 H]]].
    - exfalso. apply own_part_payload in Hown. destruct Hown as [d1 [Hd1 Hp1]].
      destruct (payloads_unique_loc mods i j d1 d0 Hu Hd1 Hd0); congruence.
    - destruct H as (Hne' & Hr & Hd1 & _ & Hpub & ->).
      destruct (payloads_unique_loc mods j' j d1 d0 Hu Hd1 Hd0 Hp) as [-> ->]. auto.
  Qed.

  Corollary private_never_visible order mods i j d d0 :
    payloads_unique mods -> order_ok order ->
    i < length mods -> j < length mods -> j <> i ->
    In d0 (decls_of mods j) -> is_public d0 = false ->
    In d (decls_of (expand order mods) i) -> d_payload d <> d_payload d0.
  Proof.
    intros Hu Hok Hi Hj Hne Hd0 Hpriv Hd Hp.
    destruct (visible_only_direct_public order mods i j d d0) as (_ & H & _); try assumption.
    congruence.
  Qed.

  (* Nothing of j is visible in a module k that does not import j
     directly -- whatever k's includees imported themselves. *)
  Corollary no_transitive_import order mods k j d d0 :
    payloads_unique mods -> order_ok order ->
    k < length mods -> j < length mods -> j <> k ->
    ~ resolved_import mods k j ->
    In d0 (decls_of mods j) ->
    In d (decls_of (expand order mods) k) -> d_payload d <> d_payload d0.
  Proof.
    intros Hu Hok Hk Hj Hne Hnr Hd0 Hd Hp.
    destruct (visible_only_direct_public order mods k j d d0) as (H & _); try assumption.
    contradiction.
  Qed.

  (* A module k whose only (non-self) import is i gets exactly the
     public signatures of i's OWN declarations, nothing i imported. *)
  Corollary imports_only_one order mods k i :
    order_ok order -> k < length mods -> i <> k ->
    resolved_import mods k i ->
    (forall j, j <> k -> resolved_import mods k j -> j = i) ->
    decls_of (expand order mods) k = public_sigs (decls_of mods i) ++ own_part mods k.
  Proof.
    intros Hok Hk Hne Hr Honly.
    destruct (imported_exactly_public resolve hint order mods k Hok Hk) as (Heq & Hnd & Hjs).
    unfold decls_of at 1. rewrite Heq. cbn [snd]. f_equal.
    rewrite (NoDup_singleton_iff (groups_of order mods k) i Hnd).
    - cbn [flat_map]. apply app_nil_r.
    - intros j. rewrite Hjs. split.
      + intros [H1 H2]. now apply Honly.
      + intros ->. auto.
  Qed.

  (* The declarations that i receives from j are the same whether
     j's own imports are spliced before or after -- for ANY module list. *)
  Lemma splice_before_after mods i j k :
    i <> j -> i < length mods ->
    nth i (splice_one (i, j) (splice_one (j, k) mods)) dmod =
    nth i (splice_one (j, k) (splice_one (i, j) mods)) dmod.
  Proof.
    intros Hne Hi.
    change (splice_one (i, j) (splice_one (j, k) mods)) with (splice_all [(j, k); (i, j)] mods).
    change (splice_one (j, k) (splice_one (i, j) mods)) with (splice_all [(i, j); (j, k)] mods).
    destruct (splice_all_inv [(j, k); (i, j)] mods) as [_ H1].
    destruct (splice_all_inv [(i, j); (j, k)] mods) as [_ H2].
    rewrite H1, H2 by assumption. unfold includees. cbn [filter fst].
    rewrite Nat.eqb_refl. apply Nat.eqb_neq in Hne. rewrite Nat.eqb_sym in Hne.
    rewrite Hne. reflexivity.
  Qed.

  Lemma group_strip mods js d :
    In d (flat_map (group mods) js) -> exists d0, d = strip d0.
  Proof.
    intros Hd. apply in_flat_map in Hd. destruct Hd as [j [_ Hd]].
    apply group_In in Hd. destruct Hd as [d0 (_ & _ & _ & ->)]. now exists d0.
  Qed.

  Corollary bodies_dropped order mods i d :
    i < length mods ->
    In d (flat_map (group mods) (groups_of order mods i)) ->
    d_kind d <> KFunction /\ (d_kind d = KFunctionHead -> d_body d = None).
  Proof.
    intros _ Hd. destruct (group_strip _ _ _ Hd) as [d0 ->].
    unfold strip. cbn [d_kind d_body]. destruct (d_kind d0); split; congruence.
  Qed.

  Corollary public_cleared order mods i d :
    i < length mods ->
    In d (flat_map (group mods) (groups_of order mods i)) ->
    f_public (d_flags d) = false /\ is_public d = false /\ export d = None.
  Proof.
    intros _ Hd. destruct (group_strip _ _ _ Hd) as [d0 ->].
    now rewrite export_spec, is_public_strip.
  Qed.

  Lemma strip_keeps d :
    d_payload (strip d) = d_payload d /\
    f_external (d_flags (strip d)) = f_external (d_flags d) /\
    f_main (d_flags (strip d)) = f_main (d_flags d) /\
    f_forward (d_flags (strip d)) = f_forward (d_flags d) /\
    f_opaque (d_flags (strip d)) = f_opaque (d_flags d).
  Proof. repeat split. Qed.

  Theorem expand_set_order_invariant o1 o2 mods :
    order_ok o1 -> order_ok o2 ->
    length (expand o1 mods) = length mods /\ length (expand o2 mods) = length mods /\
    forall i, i < length mods ->
      exists js1 js2,
        Permutation js1 js2 /\
        nth i (expand o1 mods) dmod =
          (key_of mods i, flat_map (group mods) js1 ++ own_part mods i) /\
        nth i (expand o2 mods) dmod =
          (key_of mods i, flat_map (group mods) js2 ++ own_part mods i).
  Proof.
    intros H1 H2.
    destruct (expand_order_shape resolve hint o1 mods) as [L1 S1].
    destruct (expand_order_shape resolve hint o2 mods) as [L2 S2].
    split; [assumption|]. split; [assumption|]. intros i Hi.
    exists (groups_of o1 mods i), (groups_of o2 mods i).
    split; [|split; [now apply S1|now apply S2]].
    now rewrite !groups_of_perm.
  Qed.

  Corollary expand_order_Permutation o1 o2 mods i :
    order_ok o1 -> order_ok o2 ->
    key_of (expand o1 mods) i = key_of (expand o2 mods) i /\
    Permutation (decls_of (expand o1 mods) i) (decls_of (expand o2 mods) i).
  Proof.
    intros H1 H2.
    destruct (expand_set_order_invariant o1 o2 mods H1 H2) as (L1 & L2 & H).
    destruct (Nat.lt_ge_cases i (length mods)) as [Hi|Hi].
    - destruct (H i Hi) as (js1 & js2 & HP & E1 & E2).
      unfold key_of, decls_of. rewrite E1, E2. cbn [fst snd]. split; [reflexivity|].
      apply Permutation_app_tail. now apply Permutation_flat_map.
    - unfold key_of, decls_of. rewrite !nth_overflow by lia. split; reflexivity.
  Qed.
End Corollaries.

Definition pair_le (p q : nat * nat) : Prop := pair_leb p q = true.

Lemma pair_leb_iff p q :
  pair_leb p q = true <-> fst p < fst q \/ (fst p = fst q /\ snd p <= snd q).
Proof.
  unfold pair_leb. rewrite orb_true_iff, andb_true_iff, Nat.ltb_lt, Nat.eqb_eq, Nat.leb_le.
  reflexivity.
Qed.

Lemma pair_leb_total p q : pair_leb p q = false -> pair_le q p.
Proof.
  intros H. unfold pair_le. apply pair_leb_iff.
  assert (Hn : ~ (fst p < fst q \/ (fst p = fst q /\ snd p <= snd q))).
  { intros Hc. apply pair_leb_iff in Hc. congruence. }
  lia.
Qed.

Lemma pair_le_trans p q r : pair_le p q -> pair_le q r -> pair_le p r.
Proof. unfold pair_le. rewrite !pair_leb_iff. lia. Qed.

Lemma pair_le_antisym p q : pair_le p q -> pair_le q p -> p = q.
Proof.
  unfold pair_le. rewrite !pair_leb_iff. destruct p, q. cbn [fst snd].
  intros H1 H2. f_equal; lia.
Qed.

Lemma insert_pair_perm p l : Permutation (insert_pair p l) (p :: l).
Proof.
  induction l as [|q r IH]; [apply Permutation_refl|].
  cbn [insert_pair]. destruct (pair_leb p q); [apply Permutation_refl|].
  etransitivity; [apply perm_skip, IH|apply perm_swap].
Qed.

Lemma sort_pairs_perm l : Permutation (sort_pairs l) l.
Proof.
  induction l as [|p r IH]; [constructor|].
  unfold sort_pairs in *. cbn [fold_right].
  etransitivity; [apply insert_pair_perm|now apply perm_skip].
Qed.

Lemma insert_pair_sorted p l :
  StronglySorted pair_le l -> StronglySorted pair_le (insert_pair p l).
Proof.
  intros Hs. induction Hs as [|q r Hs IH Hq].
  - cbn [insert_pair]. constructor; constructor.
  - cbn [insert_pair]. destruct (pair_leb p q) eqn:E.
    + constructor; [now constructor|]. constructor; [exact E|].
      eapply Forall_impl; [|exact Hq]. intros x Hx. now apply (pair_le_trans p q x).
    + constructor; [assumption|].
      apply Forall_forall. intros x Hx.
      apply (Permutation_in _ (insert_pair_perm p r)) in Hx. destruct Hx as [<-|Hx].
      * now apply pair_leb_total.
      * rewrite Forall_forall in Hq. now apply Hq.
Qed.

Lemma sort_pairs_sorted l : StronglySorted pair_le (sort_pairs l).
Proof.
  induction l as [|p r IH]; [constructor|].
  unfold sort_pairs in *. cbn [fold_right]. now apply insert_pair_sorted.
Qed.

Lemma sorted_snoc {A} (R : A -> A -> Prop) l a :
  StronglySorted R l -> Forall (fun x => R x a) l -> StronglySorted R (l ++ [a]).
Proof.
  intros Hs. induction Hs as [|x l Hs IH Hx]; intros Ha.
  - cbn [app]. constructor; constructor.
  - inversion Ha as [|? ? Hxa Ha']; subst. cbn [app]. constructor; [now apply IH|].
    apply Forall_app. split; [assumption|]. now constructor.
Qed.

Lemma includees_sorted ps i :
  StronglySorted pair_le ps -> NoDup ps -> StronglySorted (fun a b => b < a) (includees ps i).
Proof.
  intros Hs. induction Hs as [|[a b] r Hs IH Hp]; intros Hnd; [constructor|].
  inversion Hnd as [|? ? Hnin Hnd']; subst. rewrite includees_cons.
  destruct (Nat.eqb a i) eqn:Hai; [|rewrite app_nil_r; now apply IH].
  apply Nat.eqb_eq in Hai. subst a. apply sorted_snoc; [now apply IH|].
  apply Forall_forall. intros c Hc. apply includees_In in Hc.
  rewrite Forall_forall in Hp. specialize (Hp _ Hc).
  apply pair_leb_iff in Hp. cbn [fst snd] in Hp.
  assert (b <> c) by (intros ->; contradiction). lia.
Qed.

Lemma sorted_perm_unique {A} (R : A -> A -> Prop) :
  (forall x y, R x y -> R y x -> x = y) ->
  forall l1 l2, StronglySorted R l1 -> StronglySorted R l2 -> Permutation l1 l2 -> l1 = l2.
Proof.
  intros Hanti l1. induction l1 as [|a t1 IH]; intros l2 H1 H2 HP.
  - now apply Permutation_nil in HP.
  - destruct l2 as [|b t2]; [now apply Permutation_sym, Permutation_nil in HP|].
    inversion H1 as [|? ? H1t H1a]; subst. inversion H2 as [|? ? H2t H2b]; subst.
    rewrite Forall_forall in H1a, H2b.
    assert (a = b) as <-.
    { destruct (Permutation_in a HP (or_introl eq_refl)) as [|Ha]; [easy|].
      destruct (Permutation_in b (Permutation_sym HP) (or_introl eq_refl)) as [|Hb]; [easy|].
      apply Hanti; auto. }
    f_equal. apply IH; try assumption. now apply Permutation_cons_inv in HP.
Qed.

Lemma sorted_strict_NoDup {A} (R : A -> A -> Prop) l :
  (forall x, ~ R x x) -> StronglySorted R l -> NoDup l.
Proof.
  intros Hirr Hs. induction Hs as [|a l Hs IH Ha]; constructor; [|assumption].
  intros Hin. rewrite Forall_forall in Ha. exact (Hirr a (Ha a Hin)).
Qed.

Lemma sort_pairs_canonical l1 l2 : Permutation l1 l2 -> sort_pairs l1 = sort_pairs l2.
Proof.
  intros HP. apply (sorted_perm_unique pair_le pair_le_antisym); try apply sort_pairs_sorted.
  now rewrite !sort_pairs_perm.
Qed.

Lemma sort_pairs_order_ok : order_ok sort_pairs.
Proof. intros s _. apply sort_pairs_perm. Qed.

Lemma descending_unique (l1 l2 : list nat) :
  StronglySorted (fun a b => b < a) l1 -> StronglySorted (fun a b => b < a) l2 ->
  (forall x, In x l1 <-> In x l2) -> l1 = l2.
Proof.
  intros H1 H2 Hiff. apply (sorted_perm_unique (fun a b => b < a)); try assumption; [intros x y; lia|].
  apply NoDup_Permutation; try assumption;
    eapply sorted_strict_NoDup; try eassumption; intros x; cbn beta; lia.
Qed.

Section Sorted.
  Variable resolve : N -> N -> option nat.
  Variable hint : N -> bool.

  Theorem expand_sorted_deterministic mods :
    expand_sorted resolve hint mods = expand_order resolve hint sort_pairs mods.
  Proof. reflexivity. Qed.

  (* Sorting after any hash order gives the sorted order: the BTreeSet version does
     not depend on anything unspecified. *)
  Theorem expand_sorted_canonical order mods :
    order_ok order ->
    expand_order resolve hint (fun s => sort_pairs (order s)) mods = expand_sorted resolve hint mods.
  Proof.
    intros Hok. unfold expand_sorted. rewrite !expand_order_unfold. f_equal.
    apply sort_pairs_canonical, Hok, import_set_NoDup.
  Qed.

  (* The exact result of the sorted order: the groups of module i appear in
     strictly DEscending order of includee offset (each splice prepends). *)
  Theorem expand_sorted_spec mods i :
    i < length mods ->
    let js := groups_of resolve sort_pairs mods i in
    nth i (expand_sorted resolve hint mods) dmod =
      (key_of mods i, flat_map (group mods) js ++ own_part resolve hint mods i)
    /\ StronglySorted (fun a b => b < a) js
    /\ (forall j, In j js <-> j <> i /\ resolved_import resolve mods i j).
  Proof.
    intros Hi js.
    destruct (imported_exactly_public resolve hint sort_pairs mods i sort_pairs_order_ok Hi)
      as (Heq & _ & Hjs).
    split; [exact Heq|]. split; [|exact Hjs].
    apply includees_sorted.
    - apply sort_pairs_sorted.
    - apply (Permutation_NoDup (Permutation_sym (sort_pairs_perm _))), import_set_NoDup.
  Qed.

  (* The hypothesis: whatever import of the module resolves, resolves to the module itself
     (offset 0), so nothing is spliced. *)
  Theorem expand_one_no_imports order path ds :
    order_ok order ->
    (forall d f j, In d ds -> d_kind d = KImport f -> resolve path f = Some j -> j = 0) ->
    expand_one resolve hint order path ds = own_final resolve hint path ds.
  Proof.
    intros Hok Hself. unfold expand_one. rewrite expand_order_unfold.
    assert (HS : import_pairs resolve [(path, ds)] = []).
    { destruct (import_pairs resolve [(path, ds)]) as [|[a b] r] eqn:E; [reflexivity|].
      exfalso. assert (Hin : In (a, b) (import_pairs resolve [(path, ds)]))
        by (rewrite E; now left).
      apply import_pairs_In in Hin. destruct Hin as (Hne & Ha & d & f & Hd & Hk & Hr).
      apply Nat.lt_1_r in Ha. subst a.
      unfold decls_of, key_of in *. cbn [nth fst snd] in *.
      specialize (Hself d f b Hd Hk Hr). congruence. }
    rewrite HS. assert (HP := Hok [] (NoDup_nil _)).
    apply Permutation_sym, Permutation_nil in HP. rewrite HP. reflexivity.
  Qed.

  Corollary expand_one_unresolvable order path ds :
    order_ok order ->
    (forall d f, In d ds -> d_kind d = KImport f -> resolve path f = None) ->
    expand_one resolve hint order path ds =
    map (poison_import hint) (filter is_import ds) ++ nonimports ds.
  Proof.
    intros Hok Hnone. rewrite expand_one_no_imports; [|assumption|].
    - unfold own_final. f_equal. f_equal. apply filter_ext_in. intros d Hd.
      unfold unresolved, is_import. destruct (d_kind d) eqn:Hk; try reflexivity.
      now rewrite (Hnone d file Hd Hk).
    - intros d f j Hd Hk Hr. rewrite (Hnone d f Hd Hk) in Hr. discriminate.
  Qed.
End Sorted.

Definition mk (k : kind) (p : N) (b : option N) (pub : bool) : decl :=
  mkDecl k p b (mkFlags pub false false false false).

(* main.pn imports a.pn and b.pn; a.pn imports b.pn (transitively irrelevant). *)
Definition ex_resolve : N -> N -> option nat :=
  resolve_alist [((10%N, 11%N), 1); ((10%N, 12%N), 2); ((11%N, 12%N), 2); ((12%N, 12%N), 2)].
Definition ex_hint : N -> bool := hint_list [99%N].

Definition ex_mods : list pmodule :=
  [ (10%N, [ mk KFunction 100 (Some 1%N) false;      (* fn main *)
             mk (KImport 11) 101 None false;
             mk (KImport 12) 102 None false;
             mk (KImport 77) 103 None false;          (* unresolved *)
             mk (KImport 99) 104 None false;          (* unresolved, hinted *)
             mk KConstant 105 None false ]);
    (11%N, [ mk (KImport 12) 110 None false;
             mk KFunction 111 (Some 2%N) true;        (* pub fn a *)
             mk KFunction 112 (Some 3%N) false;       (* fn a_private *)
             mk KStructure 113 None true ]);          (* pub struct *)
    (12%N, [ mk KConstant 120 None true;              (* pub const *)
             mk (KImport 12) 121 None false;          (* self import *)
             mk KFunctionHead 122 None true;          (* pub extern-like head *)
             mk (KPoison 300) 123 None true ]) ]%N.

Example ex_sorted :
  expand_sorted ex_resolve ex_hint ex_mods =
  [ (10%N, [ mk KConstant 120 None false; mk KFunctionHead 122 None false;    (* from b *)
             mk KFunctionHead 111 None false; mk KStructure 113 None false;   (* from a *)
             mk (KPoison 470) 103 None false; mk (KPoison 477) 104 None false;
             mk KFunction 100 (Some 1%N) false; mk KConstant 105 None false ]);
    (11%N, [ mk KConstant 120 None false; mk KFunctionHead 122 None false;    (* from b *)
             mk KFunction 111 (Some 2%N) true; mk KFunction 112 (Some 3%N) false;
             mk KStructure 113 None true ]);
    (12%N, [ mk KConstant 120 None true; mk KFunctionHead 122 None true;
             mk (KPoison 300) 123 None true ]) ]%N.
Proof. vm_compute. reflexivity. Qed.

Example ex_payloads_unique : payloads_unique ex_mods.
Proof.
  exact (NoDup_nodup N.eq_dec (flat_map (fun m => map d_payload (snd m)) ex_mods)).
Qed.

Example ex_order_ok_id : order_ok (fun s => s).
Proof. intros s _. apply Permutation_refl. Qed.

Example ex_order_ok_rev : order_ok (@rev (nat * nat)).
Proof. intros s _. apply Permutation_sym, Permutation_rev. Qed.

(* A single module that imports itself (offset 0): the import goes, nothing is spliced. *)
Example ex_single :
  expand_one_sorted (resolve_alist [((12%N, 12%N), 0)]) ex_hint 12%N (decls_of ex_mods 2) =
  [ mk KConstant 120 None true; mk KFunctionHead 122 None true;
    mk (KPoison 300) 123 None true ]%N.
Proof. vm_compute. reflexivity. Qed.

(* The pinned code (HashSet order) is not deterministic as lists. *)
Theorem expand_order_refuted :
  exists resolve hint mods o1 o2,
    order_ok o1 /\ order_ok o2 /\
    expand_order resolve hint o1 mods <> expand_order resolve hint o2 mods.
Proof.
  exists ex_resolve, ex_hint, ex_mods, (fun s => s), (@rev (nat * nat)).
  split; [exact ex_order_ok_id|]. split; [exact ex_order_ok_rev|].
  vm_compute. discriminate.
Qed.

(* A smaller witness: one module importing two others. *)
Theorem expand_order_refuted_small :
  exists mods,
    expand_order (resolve_alist [((1%N, 2%N), 1); ((1%N, 3%N), 2)]) (fun _ => false) (fun s => s) mods
    <> expand_order (resolve_alist [((1%N, 2%N), 1); ((1%N, 3%N), 2)]) (fun _ => false)
                    (@rev (nat * nat)) mods.
Proof.
  exists [ (1%N, [mk (KImport 2) 1 None false; mk (KImport 3) 2 None false]);
           (2%N, [mk KConstant 3 None true]);
           (3%N, [mk KConstant 4 None true]) ]%N.
  vm_compute. discriminate.
Qed.

Print Assumptions imported_exactly_public.
Print Assumptions expand_provenance.
Print Assumptions visible_only_direct_public.
Print Assumptions private_never_visible.
Print Assumptions no_transitive_import.
Print Assumptions imports_only_one.
Print Assumptions splice_before_after.
Print Assumptions bodies_dropped.
Print Assumptions public_cleared.
Print Assumptions expand_set_order_invariant.
Print Assumptions expand_order_Permutation.
Print Assumptions expand_order_refuted.
Print Assumptions expand_sorted_spec.
Print Assumptions expand_sorted_canonical.
Print Assumptions expand_one_no_imports.
Print Assumptions expand_one_unresolvable.

Lemma path_eqb_eq a : forall b, path_eqb a b = true <-> a = b.
Proof.
  induction a as [|x a IH]; intros [|y b]; cbn [path_eqb]; split; intros H; try reflexivity; try discriminate.
  - apply andb_prop in H as [H1 H2]. apply N.eqb_eq in H1. apply IH in H2. now subst.
  - injection H as -> ->. rewrite N.eqb_refl. now apply IH.
Qed.

Lemma position_of_spec p keys :
  match position_of p keys with
  | Some i => nth_error keys i = Some p /\ forall j, (j < i)%nat -> nth_error keys j <> Some p
  | None => ~ In p keys
  end.
Proof.
  induction keys as [|k r IH]; cbn [position_of]; [intros []|].
  destruct (path_eqb k p) eqn:E.
  - apply path_eqb_eq in E. subst k. split; [reflexivity|]. intros j Hj. inversion Hj.
  - assert (Hk : k <> p) by (intros ->; rewrite (proj2 (path_eqb_eq p p) eq_refl) in E; discriminate).
    destruct (position_of p r) as [i|].
    + destruct IH as [IH1 IH2]. split; [exact IH1|].
      intros [|j] Hj; cbn [nth_error]; [congruence|]. apply IH2, Nat.succ_lt_mono, Hj.
    + intros [H|H]; [exact (Hk H)|exact (IH H)].
Qed.

Lemma position_of_first p keys i :
  position_of p keys = Some i -> forall j, (j < i)%nat -> nth_error keys j <> Some p.
Proof. intros H. generalize (position_of_spec p keys). rewrite H. now intros []. Qed.

(* An import resolves to a module whose path is EXACTLY the written path, or exactly
   the written path relative to the directory of the importing file - never to a
   module that merely ends with it; the exact path wins. *)
Theorem get_key_offset_sound file keys includer i :
  get_key_offset file keys includer = Some i ->
  nth_error keys i = Some file
  \/ (~ In file keys /\ exists dir, parent_of includer = Some dir /\ nth_error keys i = Some (dir ++ file)).
Proof.
  unfold get_key_offset. pose proof (position_of_spec file keys) as Hf.
  destruct (position_of file keys) as [j|].
  - intros H. injection H as <-. left. apply Hf.
  - destruct (parent_of includer) as [dir|]; [|discriminate]. intros H. right.
    split; [exact Hf|]. exists dir. split; [reflexivity|].
    generalize (position_of_spec (dir ++ file) keys). rewrite H. now intros [].
Qed.

(* An import is unresolved only when neither of the two paths names a module. *)
Theorem get_key_offset_complete file keys includer :
  get_key_offset file keys includer = None ->
  ~ In file keys /\ forall dir, parent_of includer = Some dir -> ~ In (dir ++ file) keys.
Proof.
  unfold get_key_offset. pose proof (position_of_spec file keys) as Hf.
  destruct (position_of file keys) as [j|]; [discriminate|].
  split; [exact Hf|]. intros dir Hd. rewrite Hd in H.
  generalize (position_of_spec (dir ++ file) keys). now rewrite H.
Qed.

Print Assumptions get_key_offset_sound.
