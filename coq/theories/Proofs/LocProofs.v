(* Proofs about Model/Loc.v: diagnostic locations stay anchored in the source
   (C13): those the lexer makes, those combined_with makes of them, and the
   order Errors::sorted puts them in.  [anchored src l]: the line and column
   that [l] reports are those of its first character, computed from the text of
   [src] alone; for such locations the order of the comparison keys is the
   order of the start offsets. *)
From Coq Require Import String Permutation Sorted.
From PV Require Import Base.Common Base.IR Base.Tok Model.LexAlpha Proofs.LexAlphaProofs Model.Loc.

Local Open Scope N_scope.

Lemma slen_len cs : slen cs = len cs.
Proof. reflexivity. Qed.

Lemma count_lf_count_nl s : count_lf s = count_nl s.
Proof. reflexivity. Qed.

Lemma take_nil k : take k [] = [].
Proof. reflexivity. Qed.

Lemma take_firstn cs : forall k, take k cs = firstn (N.to_nat k) cs.
Proof.
  induction cs as [|c r IH]; intros k; [now rewrite firstn_nil|].
  cbn [take]. destruct (N.eqb_spec k 0) as [->|H]; [reflexivity|].
  rewrite IH. replace (N.to_nat k) with (S (N.to_nat (N.pred k))) by lia. reflexivity.
Qed.

Lemma take_all cs k : len cs <= k -> take k cs = cs.
Proof. intros H. rewrite take_firstn. apply firstn_all2. unfold len in H. lia. Qed.

Lemma take_prefix cs k1 k2 : k1 <= k2 -> exists mid, take k2 cs = take k1 cs ++ mid.
Proof.
  intros H. rewrite !take_firstn. exists (skipn (N.to_nat k1) (firstn (N.to_nat k2) cs)).
  rewrite <- (firstn_skipn (N.to_nat k1) (firstn (N.to_nat k2) cs)) at 1.
  now rewrite firstn_firstn, Nat.min_l by lia.
Qed.

Lemma len_take cs k : len (take k cs) = N.min k (len cs).
Proof. rewrite take_firstn. unfold len. rewrite firstn_length. lia. Qed.

Lemma len_take_le cs k : len (take k cs) <= k.
Proof. rewrite len_take. apply N.le_min_l. Qed.

Lemma len_take_src cs : forall k, len (take k cs) <= len cs.
Proof. intros k. rewrite len_take. apply N.le_min_r. Qed.

Lemma tail_len_go_app a b acc : tail_len_go (a ++ b) acc = tail_len_go b (tail_len_go a acc).
Proof. revert acc. induction a as [|c a IH]; intros acc; [reflexivity|]. cbn [app tail_len_go]. apply IH. Qed.

Lemma tail_len_go_free l acc : ~ In 10 l -> tail_len_go l acc = acc + len l.
Proof.
  revert acc. induction l as [|c l IH]; intros acc H; [cbn; lia|].
  cbn [tail_len_go]. destruct (c =? 10) eqn:E.
  - apply N.eqb_eq in E. subst. exfalso. apply H. now left.
  - rewrite IH by (intros H'; apply H; now right). rewrite len_cons. lia.
Qed.

Lemma tail_len_go_le p : forall acc, tail_len_go p acc <= acc + len p.
Proof.
  induction p as [|c p IH]; intros acc; [cbn; lia|].
  cbn [tail_len_go]. rewrite len_cons. destruct (c =? 10).
  - specialize (IH 0). lia.
  - specialize (IH (acc + 1)). lia.
Qed.

Lemma tail_len_le p : tail_len p <= len p.
Proof. unfold tail_len. pose proof (tail_len_go_le p 0). lia. Qed.

Lemma tail_len_lines A0 A1 : ends_lines A0 -> ~ In 10 A1 -> tail_len (A0 ++ A1) = len A1.
Proof.
  intros [->|[b ->]] H; unfold tail_len.
  - cbn [app]. rewrite tail_len_go_free by assumption. lia.
  - rewrite !tail_len_go_app. cbn [tail_len_go]. change (10 =? 10) with true. cbv iota.
    rewrite tail_len_go_free by assumption. lia.
Qed.

Lemma count_nl_zero_free l : count_nl l = 0 -> ~ In 10 l.
Proof.
  unfold count_nl. induction l as [|c l IH]; intros H; [intros []|].
  cbn [filter] in H. destruct (10 =? c) eqn:E.
  - rewrite len_cons in H. lia.
  - apply N.eqb_neq in E. intros [H'|H']; [now apply E|now apply IH].
Qed.

Lemma line_start_le src k : line_start src k <= k.
Proof. unfold line_start. change slen with len. pose proof (len_take_le src k). lia. Qed.

Lemma line_at_mono src k1 k2 : k1 <= k2 -> line_at src k1 <= line_at src k2.
Proof.
  intros H. unfold line_at. destruct (take_prefix src k1 k2 H) as [mid Hm].
  rewrite Hm, !count_lf_count_nl, count_nl_app. lia.
Qed.

Lemma same_line_same_start src k1 k2 :
  k1 <= k2 -> line_at src k1 = line_at src k2 -> line_start src k1 = line_start src k2.
Proof.
  intros H Hl. unfold line_at in Hl. unfold line_start.
  destruct (take_prefix src k1 k2 H) as [mid Hm].
  rewrite Hm, !count_lf_count_nl, count_nl_app in Hl.
  assert (Hfree : ~ In 10 mid) by (apply count_nl_zero_free; lia).
  rewrite Hm. change slen with len. rewrite len_app. unfold tail_len. rewrite tail_len_go_app, (tail_len_go_free mid) by assumption.
  pose proof (tail_len_le (take k1 src)) as Ht. unfold tail_len in Ht. lia.
Qed.

Lemma position_order src k1 k2 : k1 <= k2 ->
  line_at src k1 < line_at src k2 \/
  (line_at src k1 = line_at src k2 /\ col_at src k2 = col_at src k1 + (k2 - k1)).
Proof.
  intros H. pose proof (line_at_mono src k1 k2 H) as Hm.
  destruct (N.eq_dec (line_at src k1) (line_at src k2)) as [E|E]; [right|left; lia].
  split; [exact E|]. unfold col_at. rewrite <- (same_line_same_start src k1 k2 H E).
  pose proof (line_start_le src k1). lia.
Qed.

Lemma pos_in_line A0 L after k :
  ends_lines A0 -> ~ In 10 L -> k <= len L ->
  line_at (A0 ++ L ++ after) (len A0 + k) = 1 + count_nl A0 /\
  col_at (A0 ++ L ++ after) (len A0 + k) = k.
Proof.
  intros HA HL Hk. set (L1 := firstn (N.to_nat k) L).
  assert (Hlen1 : len L1 = k).
  { unfold L1, len. rewrite firstn_length_le; [lia|]. unfold len in Hk. lia. }
  assert (Hfree1 : ~ In 10 L1) by (intros H; apply HL; rewrite <- (firstn_skipn (N.to_nat k) L); apply in_or_app; now left).
  assert (Htake : take (len A0 + k) (A0 ++ L ++ after) = A0 ++ L1).
  { rewrite take_firstn. unfold len in *.
    replace (N.to_nat (N.of_nat (length A0) + k)) with (length A0 + N.to_nat k)%nat by lia.
    rewrite firstn_app_2, firstn_app. replace (N.to_nat k - length L)%nat with O by lia.
    apply f_equal, app_nil_r. }
  split.
  - unfold line_at. rewrite Htake, count_lf_count_nl, count_nl_app, (count_nl_free L1 Hfree1). lia.
  - unfold col_at, line_start. rewrite Htake. change slen with len. rewrite len_app.
    rewrite (tail_len_lines A0 L1 HA Hfree1). lia.
Qed.

(* The span is a range of offsets of [src] (errors at the end of the last line
   may extend one past the end); line and line_offset are those of its first
   character. *)
Definition anchored (src : list N) (l : loc) : Prop :=
  l_start l <= l_end l /\ l_end l <= len src + 1 /\
  l_line l = line_at src (l_start l) /\ l_offset l = col_at src (l_start l).

(* What every location the lexer makes for a nonempty source satisfies (not
   the placeholder of the zero-byte file: zero_byte_location_not_anchored): the
   reported column lies between the column of the span start and that column
   plus the length of the span, i.e. at most at the span END (reached by
   MissingClosingQuote: missing_quote_location; errors inside quoted literals
   report a later column than their start, see lexer_locations_classified). *)
Definition anchored_lex (src : list N) (l : loc) : Prop :=
  l_start l <= l_end l /\ l_end l <= len src + 1 /\
  l_line l = line_at src (l_start l) /\
  col_at src (l_start l) <= l_offset l <= col_at src (l_start l) + (l_end l - l_start l).

Lemma anchored_is_lex src l : anchored src l -> anchored_lex src l.
Proof. intros (H1 & H2 & H3 & H4). repeat split; try assumption; lia. Qed.

(* An anchored location is determined by its span. *)
Lemma anchored_inj src a b :
  anchored src a -> anchored src b -> l_start a = l_start b -> l_end a = l_end b -> a = b.
Proof.
  intros (_ & _ & A3 & A4) (_ & _ & B3 & B4) Es Ee. destruct a as [s e ln o], b as [s' e' ln' o'].
  cbn [l_start l_end l_line l_offset] in *. now subst.
Qed.

Lemma anchoredb_spec src l : anchoredb src l = true <-> anchored src l.
Proof.
  unfold anchoredb, anchored. change slen with len.
  split; intros H.
  - repeat (apply andb_prop in H; destruct H as [H ?]).
    repeat split; first [now apply N.leb_le|now apply N.eqb_eq].
  - repeat (apply andb_true_intro; split); first [apply N.leb_le|apply N.eqb_eq]; apply H.
Qed.

Lemma anchored_lexb_spec src l : anchored_lexb src l = true <-> anchored_lex src l.
Proof.
  unfold anchored_lexb, anchored_lex. change slen with len.
  split; intros H.
  - repeat (apply andb_prop in H; destruct H as [H ?]).
    repeat split; first [now apply N.leb_le|now apply N.eqb_eq].
  - repeat (apply andb_true_intro; split); first [apply N.leb_le|apply N.eqb_eq]; apply H.
Qed.

(* Every token that is not an error inside a quoted literal (in particular
   every valid token) is anchored exactly, and does not extend past the end of
   the source; the others are anchored in the weak sense.  (span_exact_fixed
   places the token at column [len pre], or [len pre + es] for a string error,
   of a line [l] that follows the complete lines [before].) *)
Theorem lexer_locations_classified src t :
  src <> [] -> In t (lex_alpha_fixed src) ->
  (anchored src (loc_of_tok t) /\ tend t <= len src) \/
  (kind t = KError /\ anchored_lex src (loc_of_tok t) /\
   (lstart t = col_at src (tstart t) + 1 \/
    (value t = E160 /\ col_at src (tstart t) + 1 <= lstart t))).
Proof.
  intros Hne Hin.
  destruct (span_exact_fixed src t Hne Hin)
    as (before & l & after & Hsrc & Hb & _ & Hnl & pre & used & post & Hl & Hu & _ & Hstep).
  assert (Hpos : forall k, k <= len l ->
    line_at src (len before + k) = 1 + count_nl before /\ col_at src (len before + k) = k)
    by (intros k Hk; rewrite Hsrc; now apply pos_in_line).
  assert (Hlu : 1 <= len used) by (destruct used; [congruence|rewrite len_cons; lia]).
  assert (Hll : len l = len pre + (len used + len post)) by now rewrite Hl, !len_app.
  assert (Hls : len src = len before + (len l + len after)) by now rewrite Hsrc, !len_app.
  clear Hsrc Hl Hin Hne Hb Hnl Hu.
  unfold anchored, anchored_lex, loc_of_tok. cbn [l_start l_end l_line l_offset].
  destruct (lex_step (hd 0 used) (tl used ++ post)) as [| |k v ty bs n r|c es ee eo n m r] eqn:E;
    try contradiction.
  - destruct Hstep as (-> & _ & _). cbn [tstart tend line lstart kind value mk].
    destruct (Hpos (len pre)) as [-> ->]; [lia|]. left. lia.
  - destruct Hstep as (-> & _ & _ & H1 & H2 & H3).
    (* the last two clauses of [step_wf]: es + 1 <= eo <= ee, and eo = es + 1 unless c = E160 *)
    pose proof (lex_step_wf (hd 0 used) (tl used ++ post)) as Hw. rewrite E in Hw.
    destruct Hw as (_ & _ & _ & _ & _ & _ & _ & _ & _ & H4 & H5).
    cbn [tstart tend line lstart kind value mk]. rewrite <- (N.add_assoc (len before) (len pre) es).
    destruct (Hpos (len pre + es)) as [-> ->]; [lia|].
    right. split; [reflexivity|]. clear E Hpos. lia.
Qed.

Theorem lexer_locations_anchored_lex src t :
  src <> [] -> In t (lex_alpha_fixed src) -> anchored_lex src (loc_of_tok t).
Proof.
  intros Hne Hin. destruct (lexer_locations_classified src t Hne Hin) as [(H & _)|(_ & H & _)];
    [now apply anchored_is_lex|exact H].
Qed.

Theorem lexer_locations_anchored_ok src t :
  src <> [] -> In t (lex_alpha_fixed src) -> kind t <> KError -> anchored src (loc_of_tok t).
Proof.
  intros Hne Hin Hk. destruct (lexer_locations_classified src t Hne Hin) as [(H & _)|(H & _)];
    [exact H|contradiction].
Qed.

(* The natural statement (exact anchoring of EVERY token) is false: the
   line_offset of an error inside a quoted literal is end_of_line_offset =
   inner_line_offset + 1, one more than the column where its span starts.
   Source: the four characters  quote backslash q quote  (an invalid escape). *)
Theorem lexer_locations_anchored_refuted :
  exists src t, src <> [] /\ In t (lex_alpha_fixed src) /\ ~ anchored src (loc_of_tok t).
Proof.
  exists [34; 92; 113; 34], (mk KError E162 None [] 1 3 1 2).
  split; [discriminate|]. split; [vm_compute; now left|].
  intros H. apply anchoredb_spec in H. discriminate.
Qed.

(* Why [src <> []]: the placeholder of the zero-byte file has span 0..0 and
   line_offset 1 (lexer.rs 168-180), which is not anchored even in the weak form. *)
Example zero_byte_location_not_anchored :
  lex_alpha_fixed [] = [zero_byte_tok] /\ anchored_lexb [] (loc_of_tok zero_byte_tok) = false.
Proof. vm_compute. split; reflexivity. Qed.

(* MissingClosingQuote: the span starts at the opening quote, the reported
   column is the end of the line.  Source: x, blank, quote, abc. *)
Example missing_quote_location :
  map loc_of_tok (lex_alpha_fixed [120; 32; 34; 97; 98; 99]) =
    [ {| l_start := 0; l_end := 1; l_line := 1; l_offset := 0 |};
      {| l_start := 2; l_end := 6; l_line := 1; l_offset := 6 |} ].
Proof. vm_compute. reflexivity. Qed.

(* A backslash at the very end of the last line: the span ends one past the source. *)
Example trailing_backslash_location :
  map loc_of_tok (lex_alpha_fixed [34; 97; 92]) =
    [ {| l_start := 2; l_end := 4; l_line := 1; l_offset := 3 |} ] /\ len [34; 97; 92] = 3.
Proof. vm_compute. split; reflexivity. Qed.

(* Non-trivial satisfiability: CRLF, bare CR, several lines. *)
Example anchored_example :
  let src := str "ab"%string ++ [13; 10] ++ str "c = ""x\q"" + d"%string ++ [10; 13] ++ str "e"%string in
  map (anchoredb src) (map loc_of_tok (lex_alpha_fixed src)) = [true; true; true; false; true; true; true; true] /\
  forallb (anchored_lexb src) (map loc_of_tok (lex_alpha_fixed src)) = true.
Proof. vm_compute. split; reflexivity. Qed.

Definition with_end (l : loc) (e : N) : loc :=
  {| l_start := l_start l; l_end := e; l_line := l_line l; l_offset := l_offset l |}.

(* combined_with returns an argument that starts first, with its end moved out
   to the greater of the two ends. *)
Lemma combined_with_cases a b :
  exists c, (c = a \/ c = b) /\ l_start c = N.min (l_start a) (l_start b) /\
    combined_with a b = with_end c (N.max (l_end a) (l_end b)).
Proof.
  unfold combined_with. destruct (N.ltb_spec (l_start b) (l_start a)) as [H|H].
  - exists b. rewrite N.min_r by now apply N.lt_le_incl. auto.
  - exists a. rewrite N.min_l by exact H. auto.
Qed.

Theorem combined_with_covers a b :
  l_start (combined_with a b) = N.min (l_start a) (l_start b) /\
  l_end (combined_with a b) = N.max (l_end a) (l_end b).
Proof. destruct (combined_with_cases a b) as (c & _ & Hs & ->). split; [exact Hs|reflexivity]. Qed.

Theorem combined_with_fields a b :
  exists c, (c = a \/ c = b) /\
    l_start c = l_start (combined_with a b) /\
    l_line c = l_line (combined_with a b) /\ l_offset c = l_offset (combined_with a b).
Proof. destruct (combined_with_cases a b) as (c & Hc & _ & ->). exists c. repeat split. exact Hc. Qed.

Lemma anchored_with_end src l e :
  anchored src l -> l_end l <= e <= len src + 1 -> anchored src (with_end l e).
Proof.
  intros (A1 & A2 & A3 & A4) [H1 H2]. repeat split; try assumption. exact (N.le_trans _ _ _ A1 H1).
Qed.

Lemma anchored_lex_with_end src l e :
  anchored_lex src l -> l_end l <= e <= len src + 1 -> anchored_lex src (with_end l e).
Proof.
  intros (A1 & A2 & A3 & A4 & A5) [H1 H2]. repeat split; try assumption.
  - exact (N.le_trans _ _ _ A1 H1).
  - apply (N.le_trans _ _ _ A5), N.add_le_mono_l, N.sub_le_mono_r, H1.
Qed.

Lemma combined_with_closed (P : loc -> Prop) src :
  (forall l e, P l -> l_end l <= e <= len src + 1 -> P (with_end l e)) ->
  (forall l, P l -> l_end l <= len src + 1) ->
  forall a b, P a -> P b -> P (combined_with a b).
Proof.
  intros Hend Hin a b Ha Hb. destruct (combined_with_cases a b) as (c & [->| ->] & _ & ->);
    apply Hend; try assumption;
    (split; [apply N.le_max_l || apply N.le_max_r|apply N.max_lub; auto]).
Qed.

Theorem combined_with_anchored src a b :
  anchored src a -> anchored src b -> anchored src (combined_with a b).
Proof. apply (combined_with_closed _ src); [apply anchored_with_end|intros l H; apply H]. Qed.

(* The lexer's error locations reach combined_with through Tokens::last_location. *)
Theorem combined_with_anchored_lex src a b :
  anchored_lex src a -> anchored_lex src b -> anchored_lex src (combined_with a b).
Proof. apply (combined_with_closed _ src); [apply anchored_lex_with_end|intros l H; apply H]. Qed.

Theorem combined_with_comm src a b :
  anchored src a -> anchored src b -> combined_with a b = combined_with b a.
Proof.
  intros Ha Hb. apply (anchored_inj src); try now apply combined_with_anchored.
  - rewrite !(proj1 (combined_with_covers _ _)). apply N.min_comm.
  - rewrite !(proj2 (combined_with_covers _ _)). apply N.max_comm.
Qed.

(* With the weak form only, the order matters on a tie of the starts: the
   MissingClosingQuote location of the source  quote a b  and an exact location
   at the same start. *)
Theorem combined_with_comm_lex_refuted :
  exists src a b, anchored_lex src a /\ anchored_lex src b /\
    In a (map loc_of_tok (lex_alpha_fixed src)) /\ anchored src b /\
    combined_with a b <> combined_with b a.
Proof.
  exists [34; 97; 98],
         {| l_start := 0; l_end := 3; l_line := 1; l_offset := 3 |},
         {| l_start := 0; l_end := 1; l_line := 1; l_offset := 0 |}.
  split; [now apply anchored_lexb_spec|]. split; [now apply anchored_lexb_spec|].
  split; [vm_compute; now left|]. split; [now apply anchoredb_spec|]. discriminate.
Qed.

Inductive ltree :=
| Leaf (l : loc)
| Node (a b : ltree).           (* eval a .combined_with( eval b ) *)

Fixpoint eval (t : ltree) : loc :=
  match t with
  | Leaf l => l
  | Node a b => combined_with (eval a) (eval b)
  end.

Fixpoint leaves (t : ltree) : list loc :=
  match t with
  | Leaf l => [l]
  | Node a b => leaves a ++ leaves b
  end.

Lemma tree_closed (P : loc -> Prop) :
  (forall a b, P a -> P b -> P (combined_with a b)) ->
  forall t, Forall P (leaves t) -> P (eval t).
Proof.
  intros Hc. induction t as [l|a IHa b IHb]; cbn [leaves eval]; intros H.
  - now inversion H.
  - apply Forall_app in H. destruct H as [Ha Hb]. apply Hc; auto.
Qed.

Theorem tree_anchored src t : Forall (anchored src) (leaves t) -> anchored src (eval t).
Proof. apply tree_closed, combined_with_anchored. Qed.

Theorem tree_anchored_lex src t : Forall (anchored_lex src) (leaves t) -> anchored_lex src (eval t).
Proof. apply tree_closed, combined_with_anchored_lex. Qed.

Theorem tree_hull t :
  (forall l, In l (leaves t) -> l_start (eval t) <= l_start l /\ l_end l <= l_end (eval t)) /\
  (exists l, In l (leaves t) /\ l_start l = l_start (eval t) /\
             l_line l = l_line (eval t) /\ l_offset l = l_offset (eval t)) /\
  (exists l, In l (leaves t) /\ l_end l = l_end (eval t)).
Proof.
  induction t as [l|a IHa b IHb]; cbn [leaves eval].
  - split; [intros l' [<-|[]]; lia|]. split; exists l; repeat split; now left.
  - destruct IHa as (Ha1 & (la & Hla & Ha2 & Ha3 & Ha4) & (ea & Hea & Ha5)).
    destruct IHb as (Hb1 & (lb & Hlb & Hb2 & Hb3 & Hb4) & (eb & Heb & Hb5)).
    destruct (combined_with_covers (eval a) (eval b)) as (Hs & He).
    split; [|split].
    + intros l Hl. apply in_app_or in Hl. destruct Hl as [Hl|Hl].
      * destruct (Ha1 l Hl) as [L1 L2]. clear - Hs He L1 L2. lia.
      * destruct (Hb1 l Hl) as [L1 L2]. clear - Hs He L1 L2. lia.
    + destruct (combined_with_cases (eval a) (eval b)) as (c & [->| ->] & _ & ->);
        [exists la|exists lb]; (split; [apply in_or_app; auto|]); repeat split; assumption.
    + rewrite He. destruct (N.max_spec (l_end (eval a)) (l_end (eval b))) as [(_ & ->)|(_ & ->)].
      * exists eb. split; [apply in_or_app; now right|assumption].
      * exists ea. split; [apply in_or_app; now left|assumption].
Qed.

(* Shape, order and repetition of the combinations do not matter. *)
Theorem tree_canonical src t1 t2 :
  Forall (anchored src) (leaves t1) -> Forall (anchored src) (leaves t2) ->
  (forall l, In l (leaves t1) <-> In l (leaves t2)) ->
  eval t1 = eval t2.
Proof.
  intros F1 F2 Hsame.
  destruct (tree_hull t1) as (H1 & (s1 & Hs1 & Hs1' & _) & (e1 & He1 & He1')).
  destruct (tree_hull t2) as (H2 & (s2 & Hs2 & Hs2' & _) & (e2 & He2 & He2')).
  apply Hsame in Hs1, He1. apply Hsame in Hs2, He2.
  apply (anchored_inj src); try now apply tree_anchored.
  - destruct (H2 _ Hs1), (H1 _ Hs2). lia.
  - destruct (H2 _ He1), (H1 _ He2). lia.
Qed.

Example tree_example :
  let src := [97; 10; 98; 32; 99] in
  let toks := map loc_of_tok (lex_alpha_fixed src) in
  let a := nth 0 toks (loc_of_tok zero_byte_tok) in
  let b := nth 1 toks (loc_of_tok zero_byte_tok) in
  let c := nth 2 toks (loc_of_tok zero_byte_tok) in
  forallb (anchoredb src) toks = true /\
  eval (Node (Leaf c) (Node (Leaf b) (Leaf a))) = {| l_start := 0; l_end := 5; l_line := 1; l_offset := 0 |} /\
  eval (Node (Node (Leaf a) (Leaf c)) (Leaf b)) = {| l_start := 0; l_end := 5; l_line := 1; l_offset := 0 |}.
Proof. vm_compute. repeat split; reflexivity. Qed.

(* The pinned commit's combined_with (NOT the code).  Source: a LF b.
   [b.combined_with(&a)] with the pinned code spans from offset 0 but reports
   line 2. *)
Theorem combined_with_pinned_refuted :
  exists src a b, anchored src a /\ anchored src b /\ ~ anchored src (combined_with_pinned a b).
Proof.
  exists [97; 10; 98],
         {| l_start := 2; l_end := 3; l_line := 2; l_offset := 0 |},
         {| l_start := 0; l_end := 1; l_line := 1; l_offset := 0 |}.
  split; [now apply anchoredb_spec|]. split; [now apply anchoredb_spec|].
  intros H. apply anchoredb_spec in H. discriminate.
Qed.

(* the two locations of the witness are the two tokens of that source *)
Example combined_with_pinned_witness_real :
  map loc_of_tok (lex_alpha_fixed [97; 10; 98]) =
    [ {| l_start := 0; l_end := 1; l_line := 1; l_offset := 0 |};
      {| l_start := 2; l_end := 3; l_line := 2; l_offset := 0 |} ].
Proof. vm_compute. reflexivity. Qed.

Theorem combined_with_pinned_not_comm :
  exists src a b, anchored src a /\ anchored src b /\
    combined_with_pinned a b <> combined_with_pinned b a.
Proof.
  exists [97; 10; 98],
         {| l_start := 2; l_end := 3; l_line := 2; l_offset := 0 |},
         {| l_start := 0; l_end := 1; l_line := 1; l_offset := 0 |}.
  split; [now apply anchoredb_spec|]. split; [now apply anchoredb_spec|]. discriminate.
Qed.

Theorem combined_with_pinned_agrees a b :
  l_start a <= l_start b -> combined_with_pinned a b = combined_with a b.
Proof.
  intros H. unfold combined_with_pinned, combined_with.
  apply N.ltb_ge in H as H'. rewrite H'. now rewrite N.min_l by exact H.
Qed.

Lemma key_leb_spec a b :
  key_leb a b = true <-> fst a < fst b \/ (fst a = fst b /\ snd a <= snd b).
Proof.
  unfold key_leb. rewrite orb_true_iff, andb_true_iff, N.ltb_lt, N.eqb_eq, N.leb_le. tauto.
Qed.

Lemma key_eqb_spec a b : key_eqb a b = true <-> a = b.
Proof.
  unfold key_eqb. rewrite andb_true_iff, !N.eqb_eq. destruct a, b; cbn [fst snd]. split.
  - intros (-> & ->). reflexivity.
  - intros H. injection H as -> ->. split; reflexivity.
Qed.

Lemma key_eqb_refl a : key_eqb a a = true.
Proof. now apply key_eqb_spec. Qed.

Lemma key_leb_refl a : key_leb a a = true.
Proof. apply key_leb_spec. right. split; [reflexivity|lia]. Qed.

Lemma key_leb_trans a b c : key_leb a b = true -> key_leb b c = true -> key_leb a c = true.
Proof. rewrite !key_leb_spec. lia. Qed.

Lemma key_leb_total a b : key_leb a b = true \/ key_leb b a = true.
Proof. rewrite !key_leb_spec. lia. Qed.

Lemma key_leb_antisym a b : key_leb a b = true -> key_leb b a = true -> a = b.
Proof.
  rewrite !key_leb_spec. destruct a, b; cbn [fst snd]. intros H1 H2.
  assert (n = n1) by lia. assert (n0 = n2) by lia. now subst.
Qed.

Lemma key_leb_false a b : key_leb a b = false -> key_leb b a = true /\ a <> b.
Proof.
  intros H. split.
  - destruct (key_leb_total a b) as [H'|H']; [congruence|exact H'].
  - intros ->. rewrite key_leb_refl in H. discriminate.
Qed.

Theorem key_order_is_position_order src a b :
  anchored src a -> anchored src b ->
  (key_leb (comparison_key a) (comparison_key b) = true <-> l_start a <= l_start b).
Proof.
  intros (_ & _ & A3 & A4) (_ & _ & B3 & B4).
  rewrite key_leb_spec. unfold comparison_key. cbn [fst snd]. rewrite A3, A4, B3, B4.
  destruct (N.le_gt_cases (l_start a) (l_start b)) as [H|H].
  - pose proof (position_order src _ _ H). lia.
  - pose proof (position_order src _ _ (N.lt_le_incl _ _ H)). lia.
Qed.

Theorem key_eq_is_same_start src a b :
  anchored src a -> anchored src b ->
  (comparison_key a = comparison_key b <-> l_start a = l_start b).
Proof.
  intros Ha Hb. split.
  - intros E.
    pose proof (proj1 (key_order_is_position_order src a b Ha Hb)) as H1.
    pose proof (proj1 (key_order_is_position_order src b a Hb Ha)) as H2.
    rewrite E in H1, H2. specialize (H1 (key_leb_refl _)). specialize (H2 (key_leb_refl _)). lia.
  - destruct Ha as (_ & _ & A3 & A4), Hb as (_ & _ & B3 & B4). intros E.
    unfold comparison_key. now rewrite A3, A4, B3, B4, E.
Qed.

(* With the weak form the key order can contradict the position order: in
   the source  quote a b  the MissingClosingQuote location (start 0) has a
   greater key than an exact location at offset 1. *)
Theorem key_order_lex_refuted :
  exists src a b, anchored_lex src a /\ anchored_lex src b /\
    l_start a < l_start b /\ key_leb (comparison_key a) (comparison_key b) = false.
Proof.
  exists [34; 97; 98],
         {| l_start := 0; l_end := 3; l_line := 1; l_offset := 3 |},
         {| l_start := 1; l_end := 2; l_line := 1; l_offset := 1 |}.
  split; [now apply anchored_lexb_spec|]. split; [now apply anchored_lexb_spec|]. split; reflexivity.
Qed.

Section Sort.
  Context {A : Type} (key : A -> N * N).

  Definition kle (a b : A) : Prop := key_leb (key a) (key b) = true.
  (* [x] has the key [k]: [filter (has k) l] is the key class of [k] in [l]. *)
  Definition has (k : N * N) (x : A) : bool := key_eqb (key x) k.
  Definition key_sorted (l : list A) : Prop := StronglySorted kle l.

  Lemma insert_perm x l : Permutation (insert_by key x l) (x :: l).
  Proof.
    induction l as [|y r IH]; cbn [insert_by]; [apply Permutation_refl|].
    destruct (key_leb (key x) (key y)); [apply Permutation_refl|].
    eapply perm_trans; [apply perm_skip, IH|apply perm_swap].
  Qed.

  Theorem sort_perm l : Permutation (sort_by key l) l.
  Proof.
    induction l as [|x r IH]; cbn [sort_by]; [apply perm_nil|].
    eapply perm_trans; [apply insert_perm|now apply perm_skip].
  Qed.

  Lemma insert_sorted x l : key_sorted l -> key_sorted (insert_by key x l).
  Proof.
    induction 1 as [|y r Hs IH Hall]; cbn [insert_by]; [repeat constructor|].
    destruct (key_leb (key x) (key y)) eqn:E.
    - constructor; [constructor; assumption|]. constructor; [exact E|].
      eapply Forall_impl; [|exact Hall]. intros z Hz. unfold kle in *. eapply key_leb_trans; eassumption.
    - constructor; [exact IH|].
      eapply Permutation_Forall; [apply Permutation_sym, insert_perm|]. constructor; [|exact Hall].
      unfold kle. now apply key_leb_false in E.
  Qed.

  Theorem sort_sorted l : key_sorted (sort_by key l).
  Proof. induction l as [|x r IH]; cbn [sort_by]; [constructor|now apply insert_sorted]. Qed.

  Lemma insert_stable k x l :
    filter (has k) (insert_by key x l) = filter (has k) (x :: l).
  Proof.
    induction l as [|y r IH]; cbn [insert_by]; [reflexivity|].
    destruct (key_leb (key x) (key y)) eqn:E; [reflexivity|].
    apply key_leb_false in E. destruct E as [_ Hne].
    cbn [filter] in *. rewrite IH.
    destruct (has k y) eqn:Ey, (has k x) eqn:Ex; try reflexivity.
    unfold has in Ey, Ex. apply key_eqb_spec in Ey, Ex. congruence.
  Qed.

  Theorem sort_stable k l : filter (has k) (sort_by key l) = filter (has k) l.
  Proof.
    induction l as [|x r IH]; cbn [sort_by]; [reflexivity|].
    rewrite insert_stable. cbn [filter]. now rewrite IH.
  Qed.

  Lemma has_key x : has (key x) x = true.
  Proof. apply key_eqb_refl. Qed.

  Lemma filter_has_nil l : (forall k, filter (has k) l = []) -> l = [].
  Proof.
    destruct l as [|x r]; [reflexivity|]. intros H. specialize (H (key x)).
    cbn [filter] in H. rewrite has_key in H. discriminate.
  Qed.

  Lemma sorted_head_le x l z : key_sorted (x :: l) -> In z (x :: l) -> kle x z.
  Proof.
    intros Hs [<-|Hz]; [apply key_leb_refl|].
    apply StronglySorted_inv in Hs. destruct Hs as [_ Hall].
    rewrite Forall_forall in Hall. now apply Hall.
  Qed.

  Theorem sorted_unique s1 : forall s2,
    key_sorted s1 -> key_sorted s2 ->
    (forall k, filter (has k) s1 = filter (has k) s2) -> s1 = s2.
  Proof.
    induction s1 as [|x r1 IH]; intros s2 H1 H2 Hf.
    - symmetry. apply filter_has_nil. intros k. now rewrite <- Hf.
    - destruct s2 as [|y r2]; [apply filter_has_nil; intros k; now rewrite Hf|].
      assert (Hxy : key x = key y).
      { apply key_leb_antisym.
        - apply (sorted_head_le x r1 y H1).
          apply (filter_In (has (key y))). rewrite Hf. cbn [filter]. rewrite has_key. now left.
        - apply (sorted_head_le y r2 x H2).
          apply (filter_In (has (key x))). rewrite <- Hf. cbn [filter]. rewrite has_key. now left. }
      assert (Exy : x = y).
      { specialize (Hf (key x)). cbn [filter] in Hf. rewrite has_key in Hf.
        unfold has at 2 in Hf. rewrite <- Hxy, key_eqb_refl in Hf. congruence. }
      subst y. f_equal. apply IH.
      + now apply StronglySorted_inv in H1.
      + now apply StronglySorted_inv in H2.
      + intros k. specialize (Hf k). cbn [filter] in Hf. destruct (has k x); congruence.
  Qed.

  (* The inputs are then permutations of each other; how the key classes are
     interleaved does not matter. *)
  Theorem sort_canonical l1 l2 :
    (forall k, filter (has k) l1 = filter (has k) l2) -> sort_by key l1 = sort_by key l2.
  Proof.
    intros H. apply sorted_unique; try apply sort_sorted.
    intros k. now rewrite !sort_stable.
  Qed.

  (* Any stable sort by the key (Rust's merge sort) returns what sort_by returns. *)
  Theorem sort_characterized l s :
    key_sorted s -> (forall k, filter (has k) s = filter (has k) l) -> s = sort_by key l.
  Proof.
    intros Hs Hf. apply sorted_unique; [exact Hs|apply sort_sorted|].
    intros k. now rewrite sort_stable.
  Qed.

  Theorem sort_sorted_id l : key_sorted l -> sort_by key l = l.
  Proof. intros H. symmetry. apply sort_characterized; [exact H|reflexivity]. Qed.

  Lemma filter_perm (f : A -> bool) l1 l2 :
    Permutation l1 l2 -> Permutation (filter f l1) (filter f l2).
  Proof.
    induction 1 as [|x l l' _ IH|x y l|l l' l'' _ IH1 _ IH2]; cbn [filter].
    - apply perm_nil.
    - destruct (f x); [now apply perm_skip|exact IH].
    - destruct (f x), (f y); try apply Permutation_refl. apply perm_swap.
    - eapply perm_trans; eassumption.
  Qed.

  Lemma distinct_keys_class l k :
    NoDup (map key l) -> filter (has k) l = [] \/ exists x, filter (has k) l = [x].
  Proof.
    induction l as [|x r IH]; intros Hnd; [now left|].
    cbn [map] in Hnd. apply NoDup_cons_iff in Hnd. destruct Hnd as [Hnin Hnd].
    cbn [filter]. destruct (has k x) eqn:E; [|now apply IH].
    right. exists x. f_equal.
    apply filter_none. intros z Hz1. destruct (has k z) eqn:Hz2; [exfalso|reflexivity].
    unfold has in E, Hz2. apply key_eqb_spec in E, Hz2.
    apply Hnin. rewrite E, <- Hz2. now apply in_map.
  Qed.

  Theorem sort_canonical_distinct_keys l1 l2 :
    Permutation l1 l2 -> NoDup (map key l1) -> sort_by key l1 = sort_by key l2.
  Proof.
    intros Hp Hnd. apply sort_canonical. intros k.
    pose proof (filter_perm (has k) _ _ Hp) as Hpf.
    destruct (distinct_keys_class l1 k Hnd) as [E|[x E]]; rewrite E in *.
    - symmetry. now apply Permutation_nil.
    - symmetry. now apply Permutation_length_1_inv.
  Qed.
End Sort.

(* With equal keys the result depends on the input order: two
   locations at the same position (an expression and its first operand). *)
Theorem sort_depends_on_input_order :
  exists src a b, anchored src a /\ anchored src b /\ a <> b /\
    Permutation [a; b] [b; a] /\ sort_locs [a; b] <> sort_locs [b; a].
Proof.
  exists [97; 43; 98],
         {| l_start := 0; l_end := 1; l_line := 1; l_offset := 0 |},
         {| l_start := 0; l_end := 3; l_line := 1; l_offset := 0 |}.
  split; [now apply anchoredb_spec|]. split; [now apply anchoredb_spec|].
  split; [discriminate|]. split; [apply perm_swap|]. discriminate.
Qed.

Lemma StronglySorted_impl {A} (P : A -> Prop) (R S : A -> A -> Prop) l :
  (forall x y, P x -> P y -> R x y -> S x y) ->
  Forall P l -> StronglySorted R l -> StronglySorted S l.
Proof.
  intros HRS Hall Hs. induction Hs as [|x r Hs IH Hx]; [constructor|].
  pose proof (Forall_inv Hall) as Px. apply Forall_inv_tail in Hall.
  constructor; [now apply IH|]. rewrite Forall_forall in *. intros y Hy. apply HRS; auto.
Qed.

(* The key of [x] through its location [f x].  [loc_key (fun x => x)] is
   [comparison_key] and [loc_key snd] is [diag_key] by conversion: the
   instances for sort_locs and sort_diags below rest on that. *)
Definition loc_key {A : Type} (f : A -> loc) (x : A) : N * N := comparison_key (f x).

Section OneSource.
  Context {A : Type} (f : A -> loc) (src : list N).
  Notation fkey := (loc_key f).

  Theorem sort_by_position l :
    Forall (fun x => anchored src (f x)) l ->
    StronglySorted (fun a b => l_start (f a) <= l_start (f b)) (sort_by fkey l).
  Proof.
    intros Hall. apply (StronglySorted_impl (fun x => anchored src (f x)) (kle fkey)).
    - intros x y Ax Ay. apply (key_order_is_position_order src (f x) (f y) Ax Ay).
    - eapply Permutation_Forall; [apply Permutation_sym, sort_perm|exact Hall].
    - apply sort_sorted.
  Qed.

  Lemma distinct_starts_distinct_keys l :
    Forall (fun x => anchored src (f x)) l ->
    NoDup (map (fun x => l_start (f x)) l) -> NoDup (map fkey l).
  Proof.
    induction 1 as [|x r Ax Ar IH]; cbn [map]; intros Hnd; [constructor|].
    apply NoDup_cons_iff in Hnd. destruct Hnd as [Hnin Hnd].
    constructor; [|now apply IH].
    intros Hin. apply in_map_iff in Hin. destruct Hin as (y & Hk & Hy).
    apply Hnin. apply in_map_iff. exists y. split; [|exact Hy].
    rewrite Forall_forall in Ar.
    now apply (key_eq_is_same_start src (f y) (f x) (Ar y Hy) Ax).
  Qed.

  (* Diagnostics at pairwise different positions come out in the same order
     whatever order they were found in. *)
  Theorem sort_canonical_distinct_positions l1 l2 :
    Permutation l1 l2 -> Forall (fun x => anchored src (f x)) l1 ->
    NoDup (map (fun x => l_start (f x)) l1) -> sort_by fkey l1 = sort_by fkey l2.
  Proof.
    intros Hp Hall Hnd. apply sort_canonical_distinct_keys; [exact Hp|].
    now apply distinct_starts_distinct_keys.
  Qed.
End OneSource.

Theorem sort_locs_by_position src l :
  Forall (anchored src) l ->
  StronglySorted (fun a b => l_start a <= l_start b) (sort_locs l).
Proof. intros H. apply (sort_by_position (fun x => x) src l H). Qed.

Theorem sort_diags_by_position src (l : list (code * loc)) :
  Forall (fun d => anchored src (snd d)) l ->
  StronglySorted (fun a b => l_start (snd a) <= l_start (snd b)) (sort_diags l).
Proof. intros H. apply (sort_by_position (@snd code loc) src l H). Qed.

Theorem sort_diags_canonical (l1 l2 : list (code * loc)) :
  (forall k, filter (has diag_key k) l1 = filter (has diag_key k) l2) ->
  sort_diags l1 = sort_diags l2.
Proof. apply sort_canonical. Qed.

Theorem sort_diags_distinct_positions src (l1 l2 : list (code * loc)) :
  Permutation l1 l2 -> Forall (fun d => anchored src (snd d)) l1 ->
  NoDup (map (fun d => l_start (snd d)) l1) -> sort_diags l1 = sort_diags l2.
Proof. apply (sort_canonical_distinct_positions (@snd code loc) src). Qed.

(* If [a] ends before [b] starts, the key of [a] is not greater, even when the
   reported columns are displaced inside the spans (string errors). *)
Theorem key_order_lex_disjoint src a b :
  anchored_lex src a -> anchored_lex src b -> l_end a <= l_start b ->
  key_leb (comparison_key a) (comparison_key b) = true.
Proof.
  intros (A1 & A2 & A3 & A4) (B1 & B2 & B3 & B4) Hd.
  apply key_leb_spec. unfold comparison_key. cbn [fst snd]. rewrite A3, B3.
  pose proof (position_order src _ _ (N.le_trans _ _ _ A1 Hd)). lia.
Qed.

Theorem sort_locs_in_order_id src l :
  Forall (anchored_lex src) l -> StronglySorted (fun a b => l_end a <= l_start b) l ->
  sort_locs l = l.
Proof.
  intros Hall Hs. apply sort_sorted_id. revert Hall Hs. apply StronglySorted_impl.
  intros x y. apply key_order_lex_disjoint.
Qed.

(* with a displaced string error among the tokens *)
Example sort_in_order_example :
  let src := str "ab"%string ++ [13; 10] ++ str "c = ""x\q"" + d"%string ++ [10; 13] ++ str "e"%string in
  let toks := map loc_of_tok (lex_alpha_fixed src) in
  forallb (anchored_lexb src) toks = true /\ forallb (anchoredb src) toks = false /\
  sort_locs toks = toks.
Proof. vm_compute. repeat split; reflexivity. Qed.

(* The tokens of a source, shuffled, sort back into source order. *)
Example sort_example :
  let src := str "a = ""x"""%string ++ [13; 10] ++ str "b c"%string in
  let toks := map loc_of_tok (lex_alpha_fixed src) in
  forallb (anchoredb src) toks = true /\ length toks = 5%nat /\
  sort_locs (rev toks) = toks /\
  sort_locs (nth 3 toks (loc_of_tok zero_byte_tok) :: nth 1 toks (loc_of_tok zero_byte_tok) :: toks) =
    [nth 0 toks (loc_of_tok zero_byte_tok); nth 1 toks (loc_of_tok zero_byte_tok);
     nth 1 toks (loc_of_tok zero_byte_tok); nth 2 toks (loc_of_tok zero_byte_tok);
     nth 3 toks (loc_of_tok zero_byte_tok); nth 3 toks (loc_of_tok zero_byte_tok);
     nth 4 toks (loc_of_tok zero_byte_tok)].
Proof. vm_compute. repeat split; reflexivity. Qed.

(* Stability seen on diagnostics: two codes at one position keep their order. *)
Example sort_diags_example :
  let p := {| l_start := 4; l_end := 5; l_line := 2; l_offset := 1 |} in
  let q := {| l_start := 0; l_end := 1; l_line := 1; l_offset := 0 |} in
  sort_diags [(500, p); (300, p); (400, q)] = [(400, q); (500, p); (300, p)] /\
  sort_diags [(300, p); (400, q); (500, p)] = [(400, q); (300, p); (500, p)].
Proof. vm_compute. split; reflexivity. Qed.

Print Assumptions lexer_locations_anchored_lex.
Print Assumptions lexer_locations_classified.
Print Assumptions lexer_locations_anchored_ok.
Print Assumptions lexer_locations_anchored_refuted.
Print Assumptions combined_with_anchored.
Print Assumptions combined_with_anchored_lex.
Print Assumptions combined_with_covers.
Print Assumptions combined_with_comm.
Print Assumptions combined_with_comm_lex_refuted.
Print Assumptions tree_anchored.
Print Assumptions tree_hull.
Print Assumptions tree_canonical.
Print Assumptions combined_with_pinned_refuted.
Print Assumptions combined_with_pinned_not_comm.
Print Assumptions key_order_is_position_order.
Print Assumptions key_order_lex_refuted.
Print Assumptions sort_perm.
Print Assumptions sort_sorted.
Print Assumptions sort_stable.
Print Assumptions sorted_unique.
Print Assumptions sort_canonical.
Print Assumptions sort_characterized.
Print Assumptions sort_canonical_distinct_keys.
Print Assumptions sort_depends_on_input_order.
Print Assumptions sort_diags_by_position.
Print Assumptions key_order_lex_disjoint.
Print Assumptions sort_locs_in_order_id.
Print Assumptions sort_diags_distinct_positions.
