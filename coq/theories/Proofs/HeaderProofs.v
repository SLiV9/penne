(* Proofs about Model/Header.v: the header built by `build_header_nodes` is exactly
   the public interface of the module (C17).  For an array whose zone markers
   are paired and not nested ([zones_wf]) the loop returns [header_spec]: the
   nodes outside the private zones, in order, each converted with the number of
   private positions before it ([skipped_before]; [image] says where a public
   position ends up).  The loop invariant is stated at a cut of the array into
   what the loop has passed and what is left ([boundary], [build_inv]).
   References survive when no zone lies between a node and its target
   ([refs_local]); the ParseBuffer operations establish [zones_wf] ([binv]). *)
From PV Require Import Base.Common Model.Header.

Local Open Scope N_scope.

Lemma len_app a b : len (a ++ b) = len a + len b.
Proof. unfold len. rewrite app_length. lia. Qed.

Lemma len_cons n l : len (n :: l) = len l + 1.
Proof. unfold len. cbn [length]. lia. Qed.

Lemma len_nil : len [] = 0.
Proof. reflexivity. Qed.

Lemma get_nil i : get [] i = None.
Proof. unfold get. destruct (N.to_nat i); reflexivity. Qed.

Lemma get_cons_0 n l : get (n :: l) 0 = Some n.
Proof. reflexivity. Qed.

Lemma get_Some_lt ns i n : get ns i = Some n -> i < len ns.
Proof.
  unfold get, len. intros H.
  assert (Hlt : (N.to_nat i < length ns)%nat) by (apply nth_error_Some; congruence).
  lia.
Qed.

Lemma get_None_iff ns i : get ns i = None <-> len ns <= i.
Proof. unfold get, len. rewrite nth_error_None. lia. Qed.

Lemma get_lt_Some ns i : i < len ns -> exists n, get ns i = Some n.
Proof.
  intros Hi. destruct (get ns i) as [n|] eqn:E; [eauto|].
  apply get_None_iff in E. lia.
Qed.

Lemma get_app_l a b i : i < len a -> get (a ++ b) i = get a i.
Proof. unfold get, len. intros Hi. apply nth_error_app1. lia. Qed.

Lemma get_app_r a b i : len a <= i -> get (a ++ b) i = get b (i - len a).
Proof.
  unfold get, len. intros Hi. rewrite nth_error_app2 by lia.
  f_equal. lia.
Qed.

Lemma get_app_len a n b : get (a ++ n :: b) (len a) = Some n.
Proof. rewrite get_app_r by lia. rewrite N.sub_diag. reflexivity. Qed.

Lemma get_split ns i n :
  get ns i = Some n -> exists pre suf, ns = pre ++ n :: suf /\ len pre = i.
Proof.
  unfold get. intros H. apply nth_error_split in H.
  destruct H as (pre & suf & -> & Hl). exists pre, suf. split; [reflexivity|].
  unfold len. lia.
Qed.

(* The positions a, ..., b-1 of [ns], behind the first [a]. *)
Lemma segment ns a b : a <= b -> b <= len ns ->
  exists mid, len mid = b - a /\ firstn (N.to_nat b) ns = firstn (N.to_nat a) ns ++ mid.
Proof.
  intros Hab Hb. unfold len in *. exists (skipn (N.to_nat a) (firstn (N.to_nat b) ns)).
  split; [rewrite skipn_length, firstn_length_le by lia; lia|].
  rewrite <- (firstn_skipn (N.to_nat a) (firstn (N.to_nat b) ns)) at 1.
  now rewrite firstn_firstn, Nat.min_l by lia.
Qed.

Lemma indexed_app p a b : indexed p (a ++ b) = indexed p a ++ indexed (p + len a) b.
Proof.
  revert p. induction a as [|x a IH]; intros p.
  - cbn [app indexed]. rewrite len_nil, N.add_0_r. reflexivity.
  - cbn [app indexed]. rewrite IH, len_cons. do 3 f_equal. lia.
Qed.

Lemma indexed_length p l : length (indexed p l) = length l.
Proof. revert p. induction l as [|x l IH]; intros p; cbn [indexed length]; [|rewrite IH]; reflexivity. Qed.

Lemma get_cons_succ n l i : get (n :: l) (i + 1) = get l i.
Proof. unfold get. now rewrite N.add_1_r, N2Nat.inj_succ. Qed.

Lemma In_indexed l : forall p j n,
  In (j, n) (indexed p l) <-> exists k, j = p + k /\ get l k = Some n.
Proof.
  induction l as [|a r IH]; intros p j n; cbn [indexed In].
  - split; [intros []|intros (k & _ & H); now rewrite get_nil in H].
  - rewrite IH. split.
    + intros [H | (k & -> & Hg)].
      * injection H as <- <-. exists 0. now rewrite N.add_0_r.
      * exists (k + 1). split; [lia|now rewrite get_cons_succ].
    + intros (k & -> & Hg). destruct (N.zero_or_succ k) as [->|[k' ->]].
      * left. rewrite N.add_0_r. now injection Hg as ->.
      * right. exists k'. rewrite <- N.add_1_r, get_cons_succ in Hg. split; [lia|exact Hg].
Qed.

Lemma In_indexed_0 l j n : In (j, n) (indexed 0 l) <-> get l j = Some n.
Proof.
  rewrite In_indexed. split; [intros (k & -> & H); exact H|intros H; now exists j].
Qed.

Definition private (ns : list node) (i : N) : Prop :=
  (exists s e, get ns s = Some (NStart e) /\ s <= i <= e)
  \/ (exists s, get ns s = Some NEndless /\ s <= i).

Lemma privateb_iff ns i : privateb ns i = true <-> private ns i.
Proof.
  unfold privateb, private. rewrite existsb_exists. split.
  - intros [[s n] [Hin Hc]]. apply In_indexed_0 in Hin.
    unfold covers in Hc. cbn [fst snd] in Hc. destruct n; try discriminate.
    + left. exists s, end_. split; [assumption|].
      apply andb_true_iff in Hc. destruct Hc as [H1 H2].
      apply N.leb_le in H1, H2. lia.
    + right. exists s. split; [assumption|]. apply N.leb_le in Hc. lia.
  - intros [(s & e & Hg & Hr) | (s & Hg & Hr)].
    + exists (s, NStart e). split; [apply In_indexed_0; assumption|].
      unfold covers. cbn [fst snd]. apply andb_true_iff.
      split; apply N.leb_le; lia.
    + exists (s, NEndless). split; [apply In_indexed_0; assumption|].
      unfold covers. cbn [fst snd]. apply N.leb_le; lia.
Qed.

Lemma privateb_false_iff ns i : privateb ns i = false <-> ~ private ns i.
Proof. rewrite <- privateb_iff. destruct (privateb ns i); split; intros; congruence. Qed.

(* Zone markers are properly paired and zones are not nested.  (What may follow
   an EndlessPrivateZone is irrelevant for build_header.) *)
Record zones_wf (ns : list node) : Prop := {
  zw_start : forall s e, get ns s = Some (NStart e) ->
      s < e /\ get ns e = Some (NEnd s)
      /\ forall j n, s < j < e -> get ns j = Some n -> is_marker n = false;
  zw_end : forall e s, get ns e = Some (NEnd s) ->
      s < e /\ get ns s = Some (NStart e)
}.

(* An adjusted NodeId of a public node points into the array, and no zone marker
   stands between the node and its target (target included). *)
Definition refs_local (ns : list node) : Prop :=
  forall i k t, get ns i = Some (NRef k t) -> privateb ns i = false ->
    t < len ns
    /\ forall j n, N.min i t <= j <= N.max i t -> get ns j = Some n -> is_marker n = false.

Lemma count_private_app all p a b :
  count_private all p (a ++ b) = count_private all p a + count_private all (p + len a) b.
Proof.
  unfold count_private. rewrite indexed_app, filter_app, app_length. lia.
Qed.

Lemma count_private_cons all p n r :
  count_private all p (n :: r) =
  (if privateb all p then 1 else 0) + count_private all (p + 1) r.
Proof.
  unfold count_private. cbn [indexed filter fst].
  destruct (privateb all p); cbn [length]; lia.
Qed.

Lemma filter_indexed_const (f : N -> bool) (v : bool) l : forall p,
  (forall j, p <= j < p + len l -> f j = v) ->
  filter (fun jn => f (fst jn)) (indexed p l) = if v then indexed p l else [].
Proof.
  induction l as [|n r IH]; intros p H; [now destruct v|].
  cbn [indexed filter fst]. rewrite len_cons in H. rewrite (H p) by lia.
  rewrite IH by (intros j Hj; apply H; lia). now destruct v.
Qed.

Lemma count_private_all all l p :
  (forall j, p <= j < p + len l -> privateb all j = true) ->
  count_private all p l = len l.
Proof.
  intros H. unfold count_private, len. now rewrite (filter_indexed_const _ true l p H), indexed_length.
Qed.

Lemma count_private_none all l p :
  (forall j, p <= j < p + len l -> privateb all j = false) ->
  count_private all p l = 0.
Proof. intros H. unfold count_private. now rewrite (filter_indexed_const _ false l p H). Qed.

Lemma public_part_cons all p n r :
  public_part all p (n :: r) =
  (if privateb all p then [] else [convert (skipped_before all p) n])
  ++ public_part all (p + 1) r.
Proof.
  unfold public_part. cbn [indexed filter fst].
  destruct (privateb all p); reflexivity.
Qed.

Lemma public_part_len all l : forall p,
  len (public_part all p l) + count_private all p l = len l.
Proof.
  induction l as [|n r IH]; intros p; [reflexivity|].
  rewrite public_part_cons, count_private_cons, len_app, len_cons.
  specialize (IH (p + 1)). destruct (privateb all p); rewrite ?len_cons, ?len_nil; lia.
Qed.

Lemma count_private_le all l p : count_private all p l <= len l.
Proof. pose proof (public_part_len all l p). lia. Qed.

Lemma skipped_before_at pre suf :
  skipped_before (pre ++ suf) (len pre) = count_private (pre ++ suf) 0 pre.
Proof.
  unfold skipped_before, len. rewrite Nat2N.id, firstn_app, Nat.sub_diag, firstn_all.
  cbn [firstn]. now rewrite app_nil_r.
Qed.

Lemma skipped_before_le ns i : skipped_before ns i <= i.
Proof.
  unfold skipped_before.
  pose proof (count_private_le ns (firstn (N.to_nat i) ns) 0) as H.
  unfold len in H. rewrite firstn_length in H. lia.
Qed.

Lemma skipped_before_add ns a b : a <= b -> b <= len ns ->
  exists mid, len mid = b - a /\
    skipped_before ns b = skipped_before ns a + count_private ns a mid.
Proof.
  intros Hab Hb. destruct (segment ns a b Hab Hb) as (mid & Hl & Hf). exists mid.
  split; [exact Hl|]. unfold skipped_before. rewrite Hf, count_private_app, N.add_0_l.
  unfold len in *. rewrite firstn_length_le, N2Nat.id by lia. reflexivity.
Qed.

Lemma skipped_before_same ns a b :
  a <= b -> b <= len ns ->
  (forall j, a <= j < b -> privateb ns j = false) ->
  skipped_before ns b = skipped_before ns a.
Proof.
  intros Hab Hb Hall. destruct (skipped_before_add ns a b Hab Hb) as (mid & Hl & ->).
  rewrite count_private_none; [lia|]. intros j Hj. apply Hall. lia.
Qed.

Lemma public_part_nil all p : public_part all p [] = [].
Proof. reflexivity. Qed.

Lemma public_part_app all p a b :
  public_part all p (a ++ b) = public_part all p a ++ public_part all (p + len a) b.
Proof. unfold public_part. rewrite indexed_app, filter_app, map_app. reflexivity. Qed.

Lemma public_part_all_private all l p :
  (forall j, p <= j < p + len l -> privateb all j = true) ->
  public_part all p l = [].
Proof.
  intros H. unfold public_part.
  rewrite (filter_indexed_const (fun j => negb (privateb all j)) false l p); [reflexivity|].
  intros j Hj. now rewrite H.
Qed.

Lemma build_unfold ns fuel i skipped acc :
  build ns fuel i skipped acc =
  match get ns i with
  | None => Done (rev acc)
  | Some n =>
      match fuel with
      | O => OutOfFuel
      | S fuel' =>
          match n with
          | NStart e =>
              if i <=? e + 1
              then build ns fuel' (e + 1) (skipped + (e + 1 - i)) acc
              else Wrapped
          | NEnd _ => Done (rev acc)
          | NEndless => Done (rev acc)
          | _ => build ns fuel' (i + 1) skipped (convert skipped n :: acc)
          end
      end
  end.
Proof. destruct fuel; reflexivity. Qed.

Lemma build_end ns fuel i skipped acc : len ns <= i -> build ns fuel i skipped acc = Done (rev acc).
Proof. intros H. apply get_None_iff in H. now rewrite build_unfold, H. Qed.

(* [i] is not strictly inside a zone that started earlier *)
Definition boundary (ns : list node) (i : N) : Prop :=
  forall j, j < i ->
    (forall e, get ns j = Some (NStart e) -> e < i) /\ get ns j <> Some NEndless.

Lemma boundary_public ns i n :
  boundary ns i -> get ns i = Some n -> is_marker n = false -> privateb ns i = false.
Proof.
  intros Hb Hg Hm. apply privateb_false_iff.
  intros [(s & e & Hs & Hr) | (s & Hs & Hr)].
  - destruct (N.eq_dec s i) as [->|Hne].
    + rewrite Hg in Hs. injection Hs as ->. discriminate.
    + destruct (Hb s ltac:(lia)) as [H _]. specialize (H _ Hs). lia.
  - destruct (N.eq_dec s i) as [->|Hne].
    + rewrite Hg in Hs. injection Hs as ->. discriminate.
    + destruct (Hb s ltac:(lia)) as [_ H]. contradiction.
Qed.

Lemma boundary_step ns i n :
  boundary ns i -> get ns i = Some n -> is_marker n = false -> boundary ns (i + 1).
Proof.
  intros Hb Hg Hm j Hj. destruct (N.eq_dec j i) as [->|Hne].
  - rewrite Hg. split.
    + intros e He. injection He as ->. discriminate.
    + intros He. injection He as ->. discriminate.
  - destruct (Hb j ltac:(lia)) as [H1 H2]. split; [|assumption].
    intros e He. specialize (H1 _ He). lia.
Qed.

Lemma boundary_jump ns i e :
  zones_wf ns -> boundary ns i -> get ns i = Some (NStart e) -> boundary ns (e + 1).
Proof.
  intros Hwf Hb Hg j Hj.
  destruct (zw_start _ Hwf _ _ Hg) as (Hlt & Hend & Hint).
  destruct (N.lt_trichotomy j i) as [Hji | [-> | Hji]].
  - destruct (Hb j Hji) as [H1 H2]. split; [|assumption].
    intros e' He'. specialize (H1 _ He'). lia.
  - rewrite Hg. split; [|discriminate]. intros e' He'. injection He' as <-. lia.
  - destruct (N.eq_dec j e) as [->|Hne].
    + rewrite Hend. split; [|discriminate]. intros e' He'. discriminate.
    + split.
      * intros e' He'. specialize (Hint j _ ltac:(lia) He'). discriminate.
      * intros He'. specialize (Hint j _ ltac:(lia) He'). discriminate.
Qed.

Lemma zone_private ns i e j :
  get ns i = Some (NStart e) -> i <= j <= e -> privateb ns j = true.
Proof. intros Hg Hj. apply privateb_iff. left. exists i, e. split; assumption. Qed.

Lemma endless_private ns i j :
  get ns i = Some NEndless -> i <= j -> privateb ns j = true.
Proof. intros Hg Hj. apply privateb_iff. right. exists i. split; assumption. Qed.

Lemma build_inv : forall fuel ns pre suf acc,
  ns = pre ++ suf -> zones_wf ns -> boundary ns (len pre) -> (length suf <= fuel)%nat ->
  build ns fuel (len pre) (count_private ns 0 pre) acc
  = Done (rev acc ++ public_part ns (len pre) suf).
Proof.
  induction fuel as [|fuel IH]; intros ns pre suf acc E Hwf Hb Hfuel;
    (destruct suf as [|n suf];
     [rewrite build_end by (subst ns; rewrite app_nil_r; lia); now rewrite public_part_nil, app_nil_r|]);
    cbn [length] in Hfuel; [lia|].
  assert (Hg : get ns (len pre) = Some n) by (subst ns; apply get_app_len).
  rewrite build_unfold, Hg.
  (* the loop goes on behind [mid], a prefix of what is left *)
  assert (Hnext : forall mid rest acc', n :: suf = mid ++ rest -> boundary ns (len pre + len mid) ->
    (length rest <= fuel)%nat ->
    build ns fuel (len pre + len mid) (count_private ns 0 pre + count_private ns (len pre) mid) acc'
    = Done (rev acc' ++ public_part ns (len pre + len mid) rest)).
  { intros mid rest acc' Em Hb' Hf.
    pose proof (IH ns (pre ++ mid) rest acc') as H.
    rewrite len_app, count_private_app, N.add_0_l, <- app_assoc, <- Em in H. now apply H. }
  assert (Hplain : is_marker n = false ->
    build ns fuel (len pre + 1) (count_private ns 0 pre) (convert (count_private ns 0 pre) n :: acc)
    = Done (rev acc ++ public_part ns (len pre) (n :: suf))).
  { intros Hm. pose proof (boundary_public _ _ _ Hb Hg Hm) as Hpub.
    pose proof (Hnext [n] suf (convert (count_private ns 0 pre) n :: acc) eq_refl
                  (boundary_step _ _ _ Hb Hg Hm) ltac:(lia)) as IH'.
    rewrite count_private_cons, Hpub in IH'. change (len [n]) with 1 in IH'.
    change (count_private ns (len pre + 1) []) with 0 in IH'. rewrite !N.add_0_r in IH'.
    rewrite IH', public_part_cons, Hpub.
    subst ns. rewrite skipped_before_at. cbn [rev app]. now rewrite <- app_assoc. }
  destruct n as [tag pl | ip rest | k t | body | e | s | ]; try (apply Hplain; reflexivity).
  - (* StartPrivateZone: jump over the zone, all of which is private *)
    destruct (zw_start _ Hwf _ _ Hg) as (Hlt & Hend & _).
    pose proof (get_Some_lt _ _ _ Hend) as He.
    replace (len pre <=? e + 1) with true by (symmetry; apply N.leb_le; lia).
    pose proof (firstn_skipn (N.to_nat (e + 1 - len pre)) (NStart e :: suf)) as Em.
    set (mid := firstn _ _) in Em. set (rest := skipn _ _) in Em.
    assert (Hl : len pre + len mid = e + 1).
    { subst ns. rewrite len_app in He. unfold mid, len in *. rewrite firstn_length_le; lia. }
    assert (Hpriv : forall j, len pre <= j < len pre + len mid -> privateb ns j = true)
      by (intros j Hj; eapply zone_private; [exact Hg|lia]).
    pose proof (Hnext mid rest acc (eq_sym Em)) as IH'.
    rewrite (count_private_all ns mid), Hl in IH' by exact Hpriv.
    replace (e + 1 - len pre) with (len mid) by lia.
    rewrite IH'; [|eapply boundary_jump; eassumption|unfold rest; rewrite skipn_length; cbn [length]; lia].
    now rewrite <- Em, public_part_app, (public_part_all_private ns mid), Hl by exact Hpriv.
  - (* EndPrivateZone at a boundary: impossible *)
    destruct (zw_end _ Hwf _ _ Hg) as (Hlt & Hs).
    destruct (Hb s Hlt) as [H _]. specialize (H _ Hs). lia.
  - (* EndlessPrivateZone: break; everything from here on is private *)
    rewrite public_part_all_private, app_nil_r; [reflexivity|].
    intros j Hj. eapply endless_private; [exact Hg|lia].
Qed.

Lemma header_spec_unfold ns :
  header_spec ns =
  map (fun jn => convert (skipped_before ns (fst jn)) (snd jn))
      (filter (fun jn => negb (privateb ns (fst jn))) (indexed 0 ns)).
Proof. reflexivity. Qed.

Theorem header_is_filter ns : zones_wf ns -> build_header ns = Done (header_spec ns).
Proof. intros Hwf. apply (build_inv (length ns) ns [] ns [] eq_refl Hwf); [intros j Hj; rewrite len_nil in Hj|]; lia. Qed.

(* [header_spec] by itself: the facts down to [neighbours_preserved] need no
   well-formedness. *)

Lemma header_spec_split pre n suf :
  header_spec (pre ++ n :: suf) =
  public_part (pre ++ n :: suf) 0 pre
  ++ (if privateb (pre ++ n :: suf) (len pre) then []
      else [convert (skipped_before (pre ++ n :: suf) (len pre)) n])
  ++ public_part (pre ++ n :: suf) (len pre + 1) suf.
Proof.
  unfold header_spec. rewrite public_part_app, N.add_0_l, public_part_cons.
  reflexivity.
Qed.

Lemma image_at pre suf :
  image (pre ++ suf) (len pre) = len (public_part (pre ++ suf) 0 pre).
Proof.
  unfold image. rewrite skipped_before_at.
  pose proof (public_part_len (pre ++ suf) pre 0). lia.
Qed.

Theorem header_nth ns i n :
  get ns i = Some n -> privateb ns i = false ->
  get (header_spec ns) (image ns i) = Some (convert (skipped_before ns i) n).
Proof.
  intros Hg Hpub. destruct (get_split _ _ _ Hg) as (pre & suf & -> & <-).
  rewrite header_spec_split, Hpub, image_at. cbn [app]. apply get_app_len.
Qed.

Theorem header_in ns m :
  In m (header_spec ns) ->
  exists i n, get ns i = Some n /\ privateb ns i = false
              /\ m = convert (skipped_before ns i) n.
Proof.
  unfold header_spec, public_part. rewrite in_map_iff.
  intros [[i n] [Hm Hin]]. apply filter_In in Hin. destruct Hin as [Hin Hp].
  apply In_indexed_0 in Hin. cbn [fst snd] in *.
  exists i, n. split; [assumption|]. split; [|congruence].
  now apply negb_true_iff in Hp.
Qed.

Lemma header_len ns : len (header_spec ns) = len ns - skipped_before ns (len ns).
Proof.
  unfold header_spec, skipped_before, len at 3. rewrite Nat2N.id, firstn_all.
  pose proof (public_part_len ns ns 0). lia.
Qed.

(* The relative order of the public nodes is preserved (so [image] is injective
   on public positions). *)
Theorem image_strictly_monotone ns i j :
  i < j -> j < len ns -> privateb ns i = false ->
  image ns i < image ns j.
Proof.
  intros Hij Hj Hpub. unfold image.
  destruct (skipped_before_add ns i j) as (mid & Hl & ->); [lia..|].
  destruct mid as [|n mid]; [cbn in Hl; lia|]. rewrite len_cons in Hl.
  rewrite count_private_cons, Hpub.
  pose proof (count_private_le ns mid (i + 1)). pose proof (skipped_before_le ns i). lia.
Qed.

Lemma image_lt_header_len ns i :
  i < len ns -> privateb ns i = false -> image ns i < len (header_spec ns).
Proof.
  intros Hi Hpub. destruct (get_lt_Some ns i Hi) as [n Hn].
  eapply get_Some_lt. apply header_nth; eassumption.
Qed.

(* neighbours stay neighbours: the `nodes[-1]`, `nodes[-2]`, ... addressing that
   the consumers of the tree use survives header extraction as long as every
   position from the neighbour to the node is public *)
Theorem neighbours_preserved ns i d :
  d <= i -> i < len ns ->
  (forall j, i - d <= j <= i -> privateb ns j = false) ->
  image ns (i - d) = image ns i - d.
Proof.
  intros Hd Hi Hall. unfold image.
  rewrite (skipped_before_same ns (i - d) i) by (try lia; intros j Hj; apply Hall; lia).
  rewrite <- !N.sub_add_distr. f_equal. apply N.add_comm.
Qed.

Lemma adjust_ge s i : s <= i -> adjust s i = i - s.
Proof. intros H. unfold adjust. apply N.leb_le in H. rewrite H. reflexivity. Qed.

Lemma marker_free_public ns a b c :
  zones_wf ns -> a <= c <= b -> privateb ns c = false ->
  (forall j n, a <= j <= b -> get ns j = Some n -> is_marker n = false) ->
  forall j, a <= j <= b -> privateb ns j = false.
Proof.
  intros Hwf Hc Hpub Hfree j Hj. apply privateb_false_iff.
  apply privateb_false_iff in Hpub.
  intros [(s & e & Hs & Hr) | (s & Hs & Hr)].
  - destruct (N.le_gt_cases a s) as [Has | Hsa].
    + specialize (Hfree s _ ltac:(lia) Hs). discriminate.
    + destruct (N.le_gt_cases c e) as [Hce | Hec].
      * apply Hpub. left. exists s, e. split; [assumption|lia].
      * destruct (zw_start _ Hwf _ _ Hs) as (_ & Hend & _).
        specialize (Hfree e _ ltac:(lia) Hend). discriminate.
  - destruct (N.le_gt_cases a s) as [Has | Hsa].
    + specialize (Hfree s _ ltac:(lia) Hs). discriminate.
    + apply Hpub. right. exists s. split; [assumption|lia].
Qed.

Lemma refs_local_target ns i k t :
  zones_wf ns -> refs_local ns ->
  get ns i = Some (NRef k t) -> privateb ns i = false ->
  t < len ns /\ privateb ns t = false /\ skipped_before ns t = skipped_before ns i.
Proof.
  intros Hwf Hloc Hg Hpub. destruct (Hloc _ _ _ Hg Hpub) as [Ht Hfree].
  pose proof (get_Some_lt _ _ _ Hg) as Hi.
  pose proof (marker_free_public ns (N.min i t) (N.max i t) i Hwf ltac:(lia) Hpub Hfree) as Hall.
  split; [assumption|]. split; [apply Hall; lia|].
  (* the count is the same at both ends of the interval, whichever of [i], [t] comes first *)
  pose proof (skipped_before_same ns (N.min i t) (N.max i t) ltac:(lia) ltac:(lia)
                (fun j Hj => Hall j ltac:(lia))) as Hs.
  destruct (N.le_ge_cases i t) as [H|H];
    [rewrite N.min_l, N.max_r in Hs|rewrite N.min_r, N.max_l in Hs]; congruence.
Qed.

(* Every NodeId of a header node points to the image of its original target;
   `i - num_skipped_nodes` never wraps. *)
Theorem refs_preserved ns h i k t :
  zones_wf ns -> refs_local ns -> build_header ns = Done h ->
  get ns i = Some (NRef k t) -> privateb ns i = false ->
  exists nt,
    get ns t = Some nt /\ privateb ns t = false
    /\ skipped_before ns i <= t
    /\ get h (image ns i) = Some (NRef k (image ns t))
    /\ get h (image ns t) = Some (convert (skipped_before ns t) nt).
Proof.
  intros Hwf Hloc Hh Hg Hpub.
  rewrite (header_is_filter ns Hwf) in Hh. injection Hh as <-.
  destruct (refs_local_target _ _ _ _ Hwf Hloc Hg Hpub) as (Ht & Htpub & Hsame).
  destruct (get_lt_Some ns t Ht) as [nt Hnt]. exists nt.
  pose proof (skipped_before_le ns t) as Hle.
  split; [assumption|]. split; [assumption|]. split; [lia|]. split.
  - rewrite (header_nth _ _ _ Hg Hpub). cbn [convert].
    rewrite adjust_ge by lia. unfold image. rewrite Hsame. reflexivity.
  - apply header_nth; assumption.
Qed.

(* the release-mode wrap-around of `adjust` is never exercised *)
Corollary adjust_exact_on_wf ns i k t :
  zones_wf ns -> refs_local ns ->
  get ns i = Some (NRef k t) -> privateb ns i = false ->
  adjust (skipped_before ns i) t = t - skipped_before ns i /\ skipped_before ns i <= t.
Proof.
  intros Hwf Hloc Hg Hpub.
  destruct (refs_local_target _ _ _ _ Hwf Hloc Hg Hpub) as (Ht & Htpub & Hsame).
  pose proof (skipped_before_le ns t). split; [apply adjust_ge|]; lia.
Qed.

Lemma marker_private ns i n :
  zones_wf ns -> get ns i = Some n -> is_marker n = true -> privateb ns i = true.
Proof.
  intros Hwf Hg Hm. apply privateb_iff. destruct n; try discriminate.
  - left. destruct (zw_start _ Hwf _ _ Hg) as (Hlt & _). exists i, end_. split; [assumption|lia].
  - left. destruct (zw_end _ Hwf _ _ Hg) as (Hlt & Hs). exists start, i. split; [assumption|lia].
  - right. exists i. split; [assumption|lia].
Qed.

Lemma convert_shape s n :
  is_marker n = false ->
  is_marker (convert s n) = false /\ forall b, convert s n <> NImpl b.
Proof. destruct n; cbn; intros H; try discriminate; (split; [reflexivity|discriminate]). Qed.

(* Function bodies are gone: a public FunctionImpl becomes NoMoreItems, no
   FunctionImpl and no zone marker is left, and every header node comes
   from a node outside the private zones. *)
Theorem bodies_removed ns h :
  zones_wf ns -> build_header ns = Done h ->
  (forall i b, get ns i = Some (NImpl b) -> privateb ns i = false ->
               get h (image ns i) = Some NoMoreItems)
  /\ (forall m, In m h -> is_marker m = false /\ forall b, m <> NImpl b)
  /\ (forall m, In m h ->
        exists i n, get ns i = Some n /\ privateb ns i = false
                    /\ m = convert (skipped_before ns i) n)
  /\ len h = len ns - skipped_before ns (len ns).
Proof.
  intros Hwf Hh. rewrite (header_is_filter ns Hwf) in Hh. injection Hh as <-.
  split; [|split; [|split]].
  - intros i b Hg Hpub. apply (header_nth _ _ _ Hg Hpub).
  - intros m Hin. destruct (header_in _ _ Hin) as (i & n & Hg & Hpub & ->).
    assert (Hm : is_marker n = false).
    { destruct (is_marker n) eqn:E; [|reflexivity].
      rewrite (marker_private _ _ _ Hwf Hg E) in Hpub. discriminate. }
    exact (convert_shape (skipped_before ns i) n Hm).
  - apply header_in.
  - apply header_len.
Qed.

Theorem pub_flag_cleared ns h :
  zones_wf ns -> build_header ns = Done h ->
  (forall i p r, get ns i = Some (NFlags p r) -> privateb ns i = false ->
                 get h (image ns i) = Some (NFlags false r))
  /\ (forall p r, In (NFlags p r) h -> p = false).
Proof.
  intros Hwf Hh. rewrite (header_is_filter ns Hwf) in Hh. injection Hh as <-. split.
  - intros i p r Hg Hpub. apply (header_nth _ _ _ Hg Hpub).
  - intros p r Hin. destruct (header_in _ _ Hin) as (i & n & Hg & Hpub & Heq).
    destruct n; cbn in Heq; try discriminate. congruence.
Qed.

(* Order: see [image_strictly_monotone].  In terms of the `declarations`
   vector that ParseTree::build_header recomputes: the declarations of the
   header are the images of the public declarations, in the same order.
   [decl_idx p l] is the model's [decl_indices] for a list that starts at position
   [p]: [decl_indices ns] is [decl_idx 0 ns] by conversion. *)
Definition decl_idx (p : N) (l : list node) : list N :=
  map fst (filter (fun jn => is_declaration (snd jn)) (indexed p l)).

Lemma decl_idx_cons p n r :
  decl_idx p (n :: r) = (if is_declaration n then [p] else []) ++ decl_idx (p + 1) r.
Proof. unfold decl_idx. cbn [indexed filter snd]. destruct (is_declaration n); reflexivity. Qed.

Lemma is_declaration_convert s n : is_declaration (convert s n) = is_declaration n.
Proof. destruct n; reflexivity. Qed.

Lemma decl_idx_public_part all : forall suf pre,
  all = pre ++ suf ->
  decl_idx (len (public_part all 0 pre)) (public_part all (len pre) suf)
  = map (image all) (filter (fun i => negb (privateb all i)) (decl_idx (len pre) suf)).
Proof.
  induction suf as [|n suf IH]; intros pre Hall; [reflexivity|].
  specialize (IH (pre ++ [n]) ltac:(rewrite <- app_assoc; exact Hall)).
  assert (Hl : len (pre ++ [n]) = len pre + 1) by (rewrite len_app, len_cons, len_nil; lia).
  rewrite Hl in IH.
  rewrite public_part_app, N.add_0_l, public_part_cons, public_part_nil, app_nil_r in IH.
  rewrite public_part_cons, decl_idx_cons.
  destruct (privateb all (len pre)) eqn:Hp.
  - cbn [app] in *. rewrite app_nil_r in IH. rewrite IH.
    destruct (is_declaration n); cbn [app filter]; [rewrite Hp|]; reflexivity.
  - cbn [app] in *. rewrite decl_idx_cons, is_declaration_convert.
    rewrite len_app, len_cons, len_nil, N.add_0_l in IH. rewrite IH.
    destruct (is_declaration n); cbn [app filter map]; [rewrite Hp|]; cbn [negb map];
      [|reflexivity].
    f_equal. subst all. symmetry. apply image_at.
Qed.

Theorem declarations_in_order ns h :
  zones_wf ns -> build_header ns = Done h ->
  decl_indices h
  = map (image ns) (filter (fun i => negb (privateb ns i)) (decl_indices ns)).
Proof.
  intros Hwf Hh. rewrite (header_is_filter ns Hwf) in Hh. injection Hh as <-.
  exact (decl_idx_public_part ns ns [] eq_refl).
Qed.

Lemma no_marker_public ns :
  (forall n, In n ns -> is_marker n = false) -> forall i, privateb ns i = false.
Proof.
  intros Hno i. apply privateb_false_iff.
  intros [(s & e & Hs & _) | (s & Hs & _)];
    apply nth_error_In in Hs; apply Hno in Hs; discriminate.
Qed.

Lemma no_marker_zones_wf ns :
  (forall n, In n ns -> is_marker n = false) -> zones_wf ns.
Proof.
  intros Hno. split; intros a b Hg; apply nth_error_In in Hg; apply Hno in Hg; discriminate.
Qed.

Lemma public_part_all_public all :
  (forall i, privateb all i = false) ->
  forall l p, public_part all p l = map (convert 0) l.
Proof.
  intros Hpub. induction l as [|n r IH]; intros p; [reflexivity|].
  rewrite public_part_cons, Hpub, IH. cbn [app map]. do 2 f_equal.
  unfold skipped_before. apply count_private_none. intros j _. apply Hpub.
Qed.

Theorem build_header_idempotent_on_public ns :
  (forall n, In n ns -> is_marker n = false) ->
  build_header ns = Done (map (convert 0) ns).
Proof.
  intros Hno. rewrite (header_is_filter ns (no_marker_zones_wf ns Hno)).
  unfold header_spec. rewrite (public_part_all_public ns (no_marker_public ns Hno)).
  reflexivity.
Qed.

Lemma adjust_0 t : adjust 0 t = t.
Proof. rewrite adjust_ge by lia. lia. Qed.

Theorem build_header_idempotent ns h :
  zones_wf ns -> build_header ns = Done h -> build_header h = Done h.
Proof.
  intros Hwf Hh. destruct (bodies_removed ns h Hwf Hh) as (_ & Hshape & Hfrom & _).
  rewrite build_header_idempotent_on_public by (intros n Hn; apply Hshape, Hn).
  f_equal. rewrite <- (map_id h) at 2. apply map_ext_in.
  intros m Hm. destruct (Hshape m Hm) as [Hmark Himpl].
  destruct (pub_flag_cleared ns h Hwf Hh) as [_ Hfl].
  destruct m; cbn [convert]; try reflexivity; try discriminate.
  - rewrite (Hfl _ _ Hm). reflexivity.
  - rewrite adjust_0. reflexivity.
  - exfalso. eapply Himpl. reflexivity.
Qed.

(* The adjustment subtracts the number of nodes skipped before the REFERRING
   node.  It is wrong as soon as a private zone lies between a node and its
   target, in either direction.  [refs_local] excludes such arrays: it is evaluated
   on the parser's arrays in the correspondence check ([refs_localb_sound]), not
   proved of the parser, and build_header itself does not protect against them. *)
Lemma backward_ref_across_zone_refuted :
  exists ns i k t,
    zones_wfb ns = true /\ get ns i = Some (NRef k t)
    /\ privateb ns i = false /\ privateb ns t = false
    /\ build_header ns = Done (header_spec ns)
    /\ get (header_spec ns) (image ns i) <> Some (NRef k (image ns t)).
Proof.
  exists [NPlain 8 []; NPlain 9 []; NPlain 10 []; NStart 4; NEnd 3; NRef RItem 2],
         5, RItem, 2.
  vm_compute. repeat split; try reflexivity. discriminate.
Qed.

Lemma forward_ref_across_zone_refuted :
  exists ns i k t,
    zones_wfb ns = true /\ get ns i = Some (NRef k t)
    /\ privateb ns i = false /\ privateb ns t = false
    /\ build_header ns = Done (header_spec ns)
    /\ get (header_spec ns) (image ns i) <> Some (NRef k (image ns t))
    /\ get (header_spec ns) (image ns i) = Some (NRef k t)
    /\ len (header_spec ns) <= t.     (* dangling *)
Proof.
  exists [NRef RListItem 3; NStart 2; NEnd 1; NoMoreItems], 0, RListItem, 3.
  vm_compute. repeat split; try reflexivity; discriminate.
Qed.

(* with debug assertions off, a backward reference to a position smaller than
   the skip count wraps around modulo 2^24 *)
Lemma adjust_wraps_refuted :
  exists ns, zones_wfb ns = true
    /\ build_header ns = Done [NPlain 8 []; NRef RItem 16777215].
Proof.
  exists [NPlain 8 []; NStart 2; NEnd 1; NRef RItem 1]. vm_compute. split; reflexivity.
Qed.

(* a zone whose end is not after its start makes the Rust loop spin forever *)
Lemma degenerate_zone_loops_refuted :
  exists ns, build_header ns = OutOfFuel /\ zones_wfb ns = false.
Proof. exists [NPlain 8 []; NStart 0]. vm_compute. split; reflexivity. Qed.

Lemma get_slice_In ns from to_ j n :
  from <= j < to_ -> get ns j = Some n -> In n (slice ns from to_).
Proof.
  intros Hj Hg. destruct (get_split _ _ _ Hg) as (pre & suf & -> & <-). unfold slice, len in *.
  rewrite skipn_app. replace (N.to_nat from - length pre)%nat with O by lia. cbn [skipn].
  rewrite firstn_app, skipn_length. apply in_or_app. right.
  destruct (N.to_nat (to_ - from) - (length pre - N.to_nat from))%nat eqn:E; [lia|now left].
Qed.

Lemma slice_marker_free ns from to_ :
  forallb (fun n => negb (is_marker n)) (slice ns from to_) = true ->
  forall j n, from <= j < to_ -> get ns j = Some n -> is_marker n = false.
Proof.
  intros H j n Hj Hg. rewrite forallb_forall in H.
  specialize (H n (get_slice_In _ _ _ _ _ Hj Hg)). now apply negb_true_iff in H.
Qed.

Theorem zones_wfb_sound ns : zones_wfb ns = true -> zones_wf ns.
Proof.
  unfold zones_wfb. rewrite forallb_forall. intros H. split.
  - intros s e Hg. specialize (H (s, NStart e) ltac:(apply In_indexed_0; exact Hg)).
    unfold zone_ok in H. cbn [fst snd] in H.
    apply andb_true_iff in H. destruct H as [H H3].
    apply andb_true_iff in H. destruct H as [H1 H2].
    apply N.ltb_lt in H1. split; [assumption|]. split.
    + destruct (get ns e) as [[| | | | |s'|]|]; try discriminate.
      apply N.eqb_eq in H2. subst s'. reflexivity.
    + intros j n Hj. apply (slice_marker_free _ _ _ H3). lia.
  - intros e s Hg. specialize (H (e, NEnd s) ltac:(apply In_indexed_0; exact Hg)).
    unfold zone_ok in H. cbn [fst snd] in H.
    apply andb_true_iff in H. destruct H as [H1 H2].
    apply N.ltb_lt in H1. split; [assumption|].
    destruct (get ns s) as [[| | | |e'| |]|]; try discriminate.
    apply N.eqb_eq in H2. subst e'. reflexivity.
Qed.

Theorem refs_localb_sound ns : refs_localb ns = true -> refs_local ns.
Proof.
  unfold refs_localb. rewrite forallb_forall. intros H i k t Hg Hpub.
  specialize (H (i, NRef k t) ltac:(apply In_indexed_0; exact Hg)).
  unfold ref_ok in H. cbn [fst snd] in H. rewrite Hpub in H. cbn [orb] in H.
  apply andb_true_iff in H. destruct H as [H1 H2]. apply N.ltb_lt in H1.
  split; [assumption|]. intros j n Hj. apply (slice_marker_free _ _ _ H2). lia.
Qed.

Lemma get_snoc l x j : get (l ++ [x]) j = if j =? len l then Some x else get l j.
Proof.
  destruct (N.eqb_spec j (len l)) as [->|Hne]; [apply get_app_len|].
  destruct (N.lt_ge_cases j (len l)) as [H|H]; [now apply get_app_l|].
  rewrite (proj2 (get_None_iff l j) H). apply get_None_iff. rewrite len_app, len_cons, len_nil. lia.
Qed.

Lemma nth_error_set_nth x : forall l i j,
  nth_error (set_nth i x l) j =
  if Nat.eqb j i then (if Nat.ltb i (length l) then Some x else None) else nth_error l j.
Proof.
  induction l as [|a l IH]; intros i j.
  - destruct i; cbn [set_nth length]; destruct (Nat.eqb j _); destruct j; reflexivity.
  - destruct i as [|i]; destruct j as [|j]; cbn [set_nth nth_error Nat.eqb length]; try reflexivity.
    rewrite IH. reflexivity.
Qed.

Lemma get_set_nth l i x j : i < len l ->
  get (set_nth (N.to_nat i) x l) j = if j =? i then Some x else get l j.
Proof.
  intros Hi. unfold get, len in *. rewrite nth_error_set_nth.
  destruct (N.eqb_spec j i) as [->|Hne].
  - rewrite Nat.eqb_refl. now replace (Nat.ltb (N.to_nat i) (length l)) with true by (symmetry; apply Nat.ltb_lt; lia).
  - now replace (Nat.eqb (N.to_nat j) (N.to_nat i)) with false by (symmetry; apply Nat.eqb_neq; lia).
Qed.

Definition markers_agree (l l' : list node) : Prop :=
  forall j m, is_marker m = true -> (get l' j = Some m <-> get l j = Some m).

Definition active_ok (ns : list node) (a : option N) : Prop :=
  match a with
  | None => forall j, get ns j <> Some NEndless
  | Some s =>
      get ns s = Some NEndless
      /\ (forall j, get ns j = Some NEndless -> j = s)
      /\ (forall j n, s < j -> get ns j = Some n -> is_marker n = false)
  end.

(* the invariant of ParseBuffer: closed zones are well-formed; the active zone,
   if any, is the only EndlessPrivateZone and no marker follows it *)
Definition binv (b : buffer) : Prop :=
  zones_wf (b_nodes b) /\ active_ok (b_nodes b) (b_active b).

Lemma non_marker_by_agreement l l' j n :
  markers_agree l l' -> get l' j = Some n ->
  (forall n0, get l j = Some n0 -> is_marker n0 = false) -> is_marker n = false.
Proof.
  intros Hag Hg Hold. destruct (is_marker n) eqn:E; [|reflexivity].
  apply (Hag j n E) in Hg. rewrite <- E. apply Hold, Hg.
Qed.

Lemma zones_wf_agree l l' : markers_agree l l' -> zones_wf l -> zones_wf l'.
Proof.
  intros Hag Hwf. split.
  - intros s e Hg. apply (Hag s (NStart e) eq_refl) in Hg.
    destruct (zw_start _ Hwf _ _ Hg) as (Hlt & Hend & Hint).
    split; [assumption|]. split; [apply (Hag e (NEnd s) eq_refl); assumption|].
    intros j n Hj Hgj. eapply non_marker_by_agreement; [exact Hag|exact Hgj|].
    intros n0. apply Hint, Hj.
  - intros e s Hg. apply (Hag e (NEnd s) eq_refl) in Hg.
    destruct (zw_end _ Hwf _ _ Hg) as (Hlt & Hs).
    split; [assumption|]. apply (Hag s (NStart e) eq_refl); assumption.
Qed.

Lemma active_ok_agree l l' a : markers_agree l l' -> active_ok l a -> active_ok l' a.
Proof.
  intros Hag. destruct a as [s|]; cbn [active_ok].
  - intros (H1 & H2 & H3). split; [apply (Hag s NEndless eq_refl); assumption|]. split.
    + intros j Hg. apply H2. apply (Hag j NEndless eq_refl); assumption.
    + intros j n Hj Hg. eapply non_marker_by_agreement; [exact Hag|exact Hg|].
      intros n0. apply H3, Hj.
  - intros H j Hg. apply (H j). apply (Hag j NEndless eq_refl); assumption.
Qed.

Lemma markers_agree_push l x : is_marker x = false -> markers_agree l (l ++ [x]).
Proof.
  intros Hx j m Hm. rewrite get_snoc. destruct (N.eqb_spec j (len l)) as [->|_]; [|reflexivity].
  rewrite (proj2 (get_None_iff l (len l))) by lia.
  split; [intros H; injection H as <-; congruence|discriminate].
Qed.

Lemma markers_agree_patch l i x o :
  get l i = Some o -> is_marker o = false -> is_marker x = false ->
  markers_agree l (set_nth (N.to_nat i) x l).
Proof.
  intros Ho Hom Hx j m Hm. rewrite get_set_nth by (eapply get_Some_lt; eassumption).
  destruct (N.eqb_spec j i) as [->|_]; [|reflexivity].
  rewrite Ho. split; intros H; injection H as <-; congruence.
Qed.

Lemma binv_set_private b : binv b -> binv (set_private b).
Proof.
  intros [Hwf Hact]. unfold set_private. destruct (b_active b) as [s|] eqn:Ea.
  - split; [assumption|]. rewrite Ea. assumption.
  - cbn [push fst snd b_nodes b_active]. set (l := b_nodes b) in *.
    cbn [active_ok] in Hact. unfold binv. cbn [b_nodes b_active].
    assert (Hget : forall j n, get (l ++ [NEndless]) j = Some n ->
              (j = len l /\ n = NEndless) \/ (j < len l /\ get l j = Some n)).
    { intros j n. rewrite get_snoc. destruct (N.eqb_spec j (len l)) as [->|_]; intros Hg.
      - left. injection Hg as <-. split; reflexivity.
      - right. split; [eapply get_Some_lt|]; exact Hg. }
    split; [split|].
    + (* zw_start *)
      intros s e Hg. destruct (Hget _ _ Hg) as [[_ Heq] | [Hs Hg']]; [discriminate|].
      destruct (zw_start _ Hwf _ _ Hg') as (Hlt & Hend & Hint).
      pose proof (get_Some_lt _ _ _ Hend) as He.
      split; [assumption|]. split; [rewrite get_app_l by assumption; assumption|].
      intros j n Hj Hgj. rewrite get_app_l in Hgj by lia. eapply Hint; eassumption.
    + (* zw_end *)
      intros e s Hg. destruct (Hget _ _ Hg) as [[_ Heq] | [He Hg']]; [discriminate|].
      destruct (zw_end _ Hwf _ _ Hg') as (Hlt & Hs).
      split; [assumption|]. rewrite get_app_l by lia. assumption.
    + (* the pushed marker is the active zone *)
      cbn [active_ok]. split; [apply get_app_len|]. split.
      * intros j Hg. destruct (Hget _ _ Hg) as [[Hj _] | [_ Hg']]; [assumption|].
        exfalso. apply (Hact j Hg').
      * intros j n Hj Hg. destruct (Hget _ _ Hg) as [[Hj' _] | [Hj' _]]; lia.
Qed.

Lemma binv_set_public b b' : binv b -> set_public b = Some b' -> binv b'.
Proof.
  intros [Hwf Hact] Hrun. unfold set_public in Hrun.
  destruct (b_active b) as [s|] eqn:Ea.
  2:{ injection Hrun as <-. split; [assumption|]. rewrite Ea. assumption. }
  cbn [push fst snd b_nodes b_active] in Hrun. unfold patch in Hrun.
  cbn [b_nodes b_active] in Hrun. set (l := b_nodes b) in *.
  destruct Hact as (Hs & Honly & Hafter).
  pose proof (get_Some_lt _ _ _ Hs) as Hsl.
  assert (Hl : s < len (l ++ [NEnd s])) by (rewrite len_app, len_cons, len_nil; lia).
  rewrite (proj2 (N.ltb_lt _ _) Hl) in Hrun. injection Hrun as <-. unfold binv. cbn [b_nodes b_active].
  set (e := len l) in *. set (l' := set_nth (N.to_nat s) (NStart e) (l ++ [NEnd s])).
  (* the new array: the start marker at [s], the end marker at [e], [l] elsewhere *)
  assert (Hget : forall j, get l' j =
            if j =? s then Some (NStart e) else if j =? e then Some (NEnd s) else get l j).
  { intros j. unfold l'. now rewrite get_set_nth, get_snoc by exact Hl. }
  assert (Hold : forall j, j <> s -> j < e -> get l' j = get l j).
  { intros j H1 H2. rewrite Hget. destruct (N.eqb_spec j s) as [H|_]; [contradiction|].
    destruct (N.eqb_spec j e) as [H|_]; [lia|reflexivity]. }
  split; [split|].
  - (* zw_start: the patched marker at [s], or an older zone *)
    intros j e' Hg. rewrite Hget in Hg.
    destruct (N.eqb_spec j s) as [->|Hjs]; [injection Hg as <-|destruct (N.eqb_spec j e) as [Hje|Hje]; [discriminate|]].
    + split; [assumption|]. split; [rewrite Hget, N.eqb_refl; now destruct (N.eqb_spec e s) as [H|_]; [lia|]|].
      intros k n Hk Hgk. rewrite Hold in Hgk by lia. eapply Hafter; [|eassumption]. lia.
    + destruct (zw_start _ Hwf _ _ Hg) as (Hlt & Hend & Hint).
      pose proof (get_Some_lt _ _ _ Hend) as He'. fold e in He'.
      assert (He's : e' <> s) by (intros ->; rewrite Hs in Hend; discriminate).
      split; [assumption|]. split; [rewrite Hold by assumption; assumption|].
      intros k n Hk Hgk. destruct (N.eq_dec k s) as [->|Hks].
      * specialize (Hint s _ Hk Hs). discriminate.
      * rewrite Hold in Hgk by (try assumption; lia). eapply Hint; eassumption.
  - (* zw_end: the pushed marker at [e], or an older zone *)
    intros j s' Hg. rewrite Hget in Hg.
    destruct (N.eqb_spec j s) as [->|Hjs]; [discriminate|destruct (N.eqb_spec j e) as [->|Hje]].
    + injection Hg as <-. split; [assumption|]. now rewrite Hget, N.eqb_refl.
    + destruct (zw_end _ Hwf _ _ Hg) as (Hlt & Hs').
      assert (Hs's : s' <> s) by (intros ->; rewrite Hs in Hs'; discriminate).
      pose proof (get_Some_lt _ _ _ Hg) as Hj. fold e in Hj.
      split; [assumption|]. rewrite Hold by (try assumption; lia). assumption.
  - (* no EndlessPrivateZone is left *)
    cbn [active_ok]. intros j Hg. rewrite Hget in Hg.
    destruct (N.eqb_spec j s) as [Hjs|Hjs]; [discriminate|].
    destruct (N.eqb_spec j e) as [Hje|Hje]; [discriminate|]. apply Hjs, Honly, Hg.
Qed.

Lemma binv_run_op b o b' :
  binv b -> op_ok b o = true -> run_op b o = Some b' -> binv b'.
Proof.
  intros Hinv Hok Hrun. destruct o as [n | i n | | ]; cbn [run_op op_ok] in *.
  - (* OPush *)
    injection Hrun as <-. unfold binv. cbn [push fst b_nodes b_active].
    apply negb_true_iff in Hok. destruct Hinv as [Hwf Hact].
    pose proof (markers_agree_push (b_nodes b) n Hok) as Hag.
    split; [eapply zones_wf_agree|eapply active_ok_agree]; eassumption.
  - (* OPatch *)
    apply andb_true_iff in Hok. destruct Hok as [Hn Hold].
    apply negb_true_iff in Hn. unfold patch in Hrun.
    destruct (i <? len (b_nodes b)); [|discriminate]. injection Hrun as <-.
    unfold binv. cbn [b_nodes b_active]. destruct Hinv as [Hwf Hact].
    destruct (get (b_nodes b) i) as [o|] eqn:Ho; [|discriminate].
    assert (Hom : is_marker o = false) by (destruct o; try discriminate; reflexivity).
    pose proof (markers_agree_patch (b_nodes b) i n o Ho Hom Hn) as Hag.
    split; [eapply zones_wf_agree|eapply active_ok_agree]; eassumption.
  - (* OPrivate *) injection Hrun as <-. apply binv_set_private, Hinv.
  - (* OPublic *) eapply binv_set_public; eassumption.
Qed.

Lemma binv_run_ops : forall ops b b',
  binv b -> ops_ok b ops = true -> run_ops b ops = Some b' -> binv b'.
Proof.
  induction ops as [|o ops IH]; intros b b' Hinv Hok Hrun; cbn [ops_ok run_ops] in *.
  - injection Hrun as <-. assumption.
  - apply andb_true_iff in Hok. destruct Hok as [Ho Hrest].
    destruct (run_op b o) as [b1|] eqn:E; [|discriminate].
    eapply IH; [eapply binv_run_op; eassumption|eassumption|eassumption].
Qed.

Lemma binv_empty : binv empty_buffer.
Proof.
  split; [split|]; cbn [b_nodes b_active empty_buffer active_ok]; intros;
    rewrite get_nil in *; discriminate.
Qed.

(* set_public never trips the `assert!(i < self.num_nodes)` of the patch *)
Lemma set_public_succeeds b : binv b -> exists b', set_public b = Some b'.
Proof.
  intros [_ Hact]. unfold set_public. destruct (b_active b) as [s|]; [|eauto].
  cbn [push fst snd b_nodes b_active]. unfold patch. cbn [b_nodes b_active].
  destruct Hact as (Hs & _). apply get_Some_lt in Hs.
  replace (s <? len (b_nodes b ++ [NEnd s])) with true; [eauto|].
  symmetry. apply N.ltb_lt. rewrite len_app, len_cons, len_nil. lia.
Qed.

(* Whatever the parser pushes and patches (never a marker), the markers written
   by set_private / set_public form properly paired, non-nested zones; an
   unterminated zone is the last one. *)
Theorem parse_buffer_zones_wf ops b :
  ops_ok empty_buffer ops = true -> run_ops empty_buffer ops = Some b ->
  zones_wf (b_nodes b)
  /\ match b_active b with
     | None => forall j, get (b_nodes b) j <> Some NEndless
     | Some s => get (b_nodes b) s = Some NEndless
                 /\ forall j n, s < j -> get (b_nodes b) j = Some n -> is_marker n = false
     end.
Proof.
  intros Hok Hrun. destruct (binv_run_ops _ _ _ binv_empty Hok Hrun) as [Hwf Hact].
  split; [assumption|]. destruct (b_active b) as [s|]; cbn [active_ok] in Hact; [|assumption].
  destruct Hact as (H1 & _ & H3). split; assumption.
Qed.

Corollary parse_buffer_header ops b :
  ops_ok empty_buffer ops = true -> run_ops empty_buffer ops = Some b ->
  build_header (b_nodes b) = Done (header_spec (b_nodes b)).
Proof.
  intros Hok Hrun. apply header_is_filter. eapply parse_buffer_zones_wf; eassumption.
Qed.

(* pub const A; const B; pub fn f(x) {..}; fn g() {}  -- see Model/Header.v *)
Example ex_nodes_value :
  ex_nodes =
  [NoMoreItems; NoMoreItems; NoMoreItems; NoMoreItems; NoMoreItems;
   P 41; P 27; NRef RItem 5; P 8; NFlags true 0; P 3;
   NStart 18; P 41; P 27; NRef RItem 12; P 8; NFlags false 0; P 3; NEnd 11;
   P 41; P 9; NRef RListItem 22; NoMoreItems; P 41; NImpl 39; NRef RItem 23;
   NRef RList 21; P 8; NFlags true 0; P 2;
   NStart 40; NoMoreItems; NoMoreItems; NRef RList 32; P 8; P 34; P 33;
   NRef RItem 36; NRef RList 31; P 6; NEnd 30;
   NEndless; NoMoreItems; P 41; NImpl 53; NRef RItem 43; NRef RList 42; P 8;
   NFlags false 0; P 2; NoMoreItems; NoMoreItems; NRef RList 50; P 6].
Proof. vm_compute. reflexivity. Qed.

Example ex_header :
  build_header ex_nodes = Done
  [NoMoreItems; NoMoreItems; NoMoreItems; NoMoreItems; NoMoreItems;
   P 41; P 27; NRef RItem 5; P 8; NFlags false 0; P 3;
   P 41; P 9; NRef RListItem 14; NoMoreItems; P 41; NoMoreItems; NRef RItem 15;
   NRef RList 13; P 8; NFlags false 0; P 2].
Proof. vm_compute. reflexivity. Qed.

Example ex_hypotheses :
  ops_ok empty_buffer ex_ops = true /\ zones_wfb ex_nodes = true
  /\ refs_localb ex_nodes = true.
Proof. vm_compute. repeat split. Qed.

Example ex_zones_wf : zones_wf ex_nodes /\ refs_local ex_nodes.
Proof.
  destruct ex_hypotheses as (_ & Hz & Hr). split; [now apply zones_wfb_sound|now apply refs_localb_sound].
Qed.

Example ex_header_is_spec : build_header ex_nodes = Done (header_spec ex_nodes).
Proof. apply header_is_filter, ex_zones_wf. Qed.

Example ex_declarations :
  decl_indices ex_nodes = [10; 17; 29; 49]
  /\ filter (fun i => negb (privateb ex_nodes i)) (decl_indices ex_nodes) = [10; 29]
  /\ map (image ex_nodes) [10; 29] = [10; 21]
  /\ decl_indices (header_spec ex_nodes) = [10; 21].
Proof. vm_compute. repeat split. Qed.

Example ex_private_positions :
  map (privateb ex_nodes) [0; 10; 11; 18; 19; 29; 30; 40; 41; 53]
  = [false; false; true; true; false; false; true; true; true; true]
  /\ map (skipped_before ex_nodes) [10; 19; 29; 54] = [0; 8; 8; 32].
Proof. vm_compute. split; reflexivity. Qed.

(* an unterminated zone hides everything after it; a module with only private
   declarations has a header consisting of the padding *)
Example ex_all_private :
  build_header [NoMoreItems; NEndless; P 29; NFlags false 0; P 5] = Done [NoMoreItems].
Proof. vm_compute. reflexivity. Qed.

Print Assumptions header_is_filter.
Print Assumptions refs_preserved.
Print Assumptions bodies_removed.
Print Assumptions pub_flag_cleared.
Print Assumptions declarations_in_order.
Print Assumptions image_strictly_monotone.
Print Assumptions build_header_idempotent_on_public.
Print Assumptions build_header_idempotent.
Print Assumptions parse_buffer_zones_wf.
Print Assumptions zones_wfb_sound.
Print Assumptions refs_localb_sound.
