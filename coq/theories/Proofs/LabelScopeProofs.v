(* Proofs about Model/LabelScope.v: the reverse stack scan of the code computes
   exactly the forward "later in the same or an enclosing block" specification
   ([scan_stmt_spec]: what one statement does to a non-empty stack), and the
   specification is empty exactly on the legal bodies ([legal_stmt]). *)
From PV Require Import Base.Common Model.LabelScope.

(* The generated [stmt_ind] has no hypothesis for the statements inside [SBlock b] or under the
   [Some] of an else-branch; this principle has: [Forall P b], and [SIf] with and without else. *)
Section stmt_ind2.
  Variable P : stmt -> Prop.
  Hypothesis HL : forall l, P (SLabel l).
  Hypothesis HG : forall l, P (SGoto l).
  Hypothesis HI1 : forall t, P t -> P (SIf t None).
  Hypothesis HI2 : forall t e, P t -> P e -> P (SIf t (Some e)).
  Hypothesis HB : forall b, Forall P b -> P (SBlock b).
  Hypothesis HO : P SOther.
  Fixpoint stmt_ind2 (s : stmt) : P s :=
    match s with
    | SLabel l => HL l
    | SGoto l => HG l
    | SIf t None => HI1 t (stmt_ind2 t)
    | SIf t (Some e) => HI2 t e (stmt_ind2 t) (stmt_ind2 e)
    | SBlock b => HB b (Forall_all P stmt_ind2 b)
    | SOther => HO
    end.
End stmt_ind2.

Lemma scan_block b st :
  scan_stmt (SBlock b) st =
  let '(st1, c) := scan_rev b (st ++ [[]]) in (removelast st1, c).
Proof. reflexivity. Qed.

Lemma spec_block b V : spec_stmt (SBlock b) V = spec_list b V.
Proof.
  cbn [spec_stmt]. induction b as [|s rest IH]; cbn [spec_list]; [reflexivity|].
  now rewrite IH.
Qed.

(* The specification only looks at membership in V. *)
Definition same_set (V W : list name) : Prop := forall l, mem_name l V = mem_name l W.

Lemma same_set_app_l A V W : same_set V W -> same_set (A ++ V) (A ++ W).
Proof. intros H l. rewrite !mem_name_app. now rewrite H. Qed.

Lemma same_set_refl V : same_set V V.
Proof. intros l; reflexivity. Qed.

Lemma same_set_perm_tail A B C : same_set (A ++ B ++ C) (C ++ A ++ B) .
Proof. intros l. rewrite !mem_name_app. destruct (mem_name l A), (mem_name l B), (mem_name l C); reflexivity. Qed.

Lemma spec_stmt_ext : forall s V W, same_set V W -> spec_stmt s V = spec_stmt s W.
Proof.
  induction s as [l|l|t IHt|t e IHt IHe|b IHb|] using stmt_ind2; intros V W H.
  - cbn [spec_stmt]. now rewrite H.
  - cbn [spec_stmt]. now rewrite H.
  - cbn [spec_stmt]. now rewrite (IHt V W H).
  - cbn [spec_stmt]. rewrite (IHt V W H).
    now rewrite (IHe _ _ (same_set_app_l (labels_of t) V W H)).
  - rewrite !spec_block. induction IHb as [|s rest Hs _ IH]; [reflexivity|].
    cbn [spec_list]. rewrite IH.
    now rewrite (Hs _ _ (same_set_app_l (later rest) V W H)).
  - reflexivity.
Qed.

Lemma push_last_snoc fs f l : push_last l (fs ++ [f]) = fs ++ [f ++ [l]].
Proof.
  induction fs as [|g fs IH]; [reflexivity|].
  change ((g :: fs) ++ [f]) with (g :: (fs ++ [f])).
  change ((g :: fs) ++ [f ++ [l]]) with (g :: (fs ++ [f ++ [l]])).
  rewrite <- IH. destruct (fs ++ [f]) eqn:E; [destruct fs; discriminate|reflexivity].
Qed.

Lemma in_stack_app l a b : in_stack l (a ++ b) = in_stack l a || in_stack l b.
Proof. unfold in_stack. apply existsb_app. Qed.

Lemma in_stack_concat l st : in_stack l st = mem_name l (concat st).
Proof.
  induction st as [|f st IH]; [reflexivity|].
  cbn [in_stack existsb concat]. rewrite mem_name_app. now rewrite <- IH.
Qed.

Definition vis (st : stack) : list name := concat st.

Lemma vis_snoc fs f : vis (fs ++ [f]) = vis fs ++ f.
Proof. unfold vis. rewrite concat_app. cbn. now rewrite app_nil_r. Qed.

(* the names visible once the last frame has grown by the labels A of its block *)
Lemma vis_grown fs f A : same_set (vis (fs ++ [f ++ rev A])) (A ++ vis (fs ++ [f])).
Proof.
  intros l. rewrite !vis_snoc, !mem_name_app, mem_name_rev.
  destruct (mem_name l (vis fs)), (mem_name l f), (mem_name l A); reflexivity.
Qed.

(* On a non-empty stack, scanning statement [s] leaves the frames below the last
   one alone, extends the last frame by [rev (labels_of s)], and emits the
   specification's codes for the set of names on the stack. *)
Definition scans_as_spec (s : stmt) : Prop := forall fs f,
  scan_stmt s (fs ++ [f]) = (fs ++ [f ++ rev (labels_of s)], spec_stmt s (vis (fs ++ [f]))).

Lemma scan_rev_of b : Forall scans_as_spec b -> forall fs f,
  scan_rev b (fs ++ [f]) = (fs ++ [f ++ rev (later b)], spec_list b (vis (fs ++ [f]))).
Proof.
  induction 1 as [|s rest Hs _ IH]; intros fs f.
  - cbn [scan_rev later flat_map rev spec_list]. now rewrite app_nil_r.
  - cbn [scan_rev spec_list later flat_map]. fold (later rest).
    rewrite IH, Hs, rev_app_distr, app_assoc. f_equal. f_equal. apply spec_stmt_ext, vis_grown.
Qed.

Theorem scan_stmt_spec : forall s fs f,
  scan_stmt s (fs ++ [f]) =
    (fs ++ [f ++ rev (labels_of s)], spec_stmt s (vis (fs ++ [f]))).
Proof.
  induction s as [l|l|t IHt|t e IHt IHe|b IHb|] using stmt_ind2; intros fs f.
  - cbn [scan_stmt labels_of spec_stmt rev app]. unfold declare_label.
    rewrite push_last_snoc. now rewrite in_stack_concat.
  - cbn [scan_stmt labels_of spec_stmt rev app]. unfold use_label.
    rewrite app_nil_r. now rewrite in_stack_concat.
  - cbn [scan_stmt labels_of spec_stmt]. rewrite IHt. cbn [app]. now rewrite app_nil_r.
  - cbn [scan_stmt labels_of spec_stmt]. rewrite IHt, IHe.
    rewrite rev_app_distr, app_assoc. f_equal. f_equal. apply spec_stmt_ext, vis_grown.
  - rewrite scan_block, spec_block. cbn [labels_of rev app]. rewrite app_nil_r.
    rewrite (scan_rev_of b IHb (fs ++ [f]) []), removelast_last. f_equal.
    rewrite vis_snoc with (f := []). now rewrite app_nil_r.
  - cbn [scan_stmt labels_of rev spec_stmt]. now rewrite app_nil_r.
Qed.

Lemma scan_rev_spec : forall b fs f,
  scan_rev b (fs ++ [f]) =
    (fs ++ [f ++ rev (later b)], spec_list b (vis (fs ++ [f]))).
Proof. intros b. exact (scan_rev_of b (Forall_all scans_as_spec scan_stmt_spec b)). Qed.

Theorem scan_body_eq_spec : forall body, scan_body body = spec_body body.
Proof.
  intros body. unfold scan_body, spec_body.
  change [[]] with (@nil (list name) ++ [[]]). now rewrite scan_rev_spec.
Qed.

(* One analyzer for a whole program: nothing leaks between functions. *)
Theorem scan_program_eq_spec : forall bodies,
  scan_program bodies [] = spec_program bodies.
Proof.
  induction bodies as [|b rest IH]; [reflexivity|].
  cbn [scan_program spec_program flat_map].
  rewrite (scan_rev_spec b [] []), removelast_last. fold (spec_program rest).
  now rewrite IH.
Qed.

(* [legal_stmt s V], with [V] as in [spec_stmt]: every goto in [s] names a member of the V
   of its own position, and no label's name is in the V of its position. *)
Fixpoint legal_stmt (s : stmt) (V : list name) {struct s} : Prop :=
  match s with
  | SLabel l => ~ In l V
  | SGoto l => In l V
  | SIf t e =>
      legal_stmt t V /\
      match e with Some e' => legal_stmt e' (labels_of t ++ V) | None => True end
  | SBlock b =>
      let fix legal_list (ss : list stmt) : Prop :=
        match ss with
        | [] => True
        | s :: rest => legal_stmt s (later rest ++ V) /\ legal_list rest
        end in
      legal_list b
  | SOther => True
  end.

Fixpoint legal_list (ss : list stmt) (V : list name) : Prop :=
  match ss with
  | [] => True
  | s :: rest => legal_stmt s (later rest ++ V) /\ legal_list rest V
  end.

Lemma legal_block b V : legal_stmt (SBlock b) V <-> legal_list b V.
Proof.
  cbn [legal_stmt]. induction b as [|s rest IH]; cbn [legal_list]; [reflexivity|].
  now rewrite IH.
Qed.

Lemma app_nil_iff {A} (a b : list A) : a ++ b = [] <-> a = [] /\ b = [].
Proof. split; [apply app_eq_nil|intros [-> ->]; reflexivity]. Qed.

Lemma spec_nil_iff_legal : forall s V, spec_stmt s V = [] <-> legal_stmt s V.
Proof.
  induction s as [l|l|t IHt|t e IHt IHe|b IHb|] using stmt_ind2; intros V.
  - cbn [spec_stmt legal_stmt]. rewrite <- mem_name_false.
    destruct (mem_name l V); split; intros; congruence.
  - cbn [spec_stmt legal_stmt]. rewrite <- mem_name_In.
    destruct (mem_name l V); split; intros; congruence.
  - cbn [spec_stmt legal_stmt]. rewrite app_nil_r, IHt. tauto.
  - cbn [spec_stmt legal_stmt]. now rewrite app_nil_iff, IHt, IHe.
  - rewrite spec_block, legal_block.
    induction IHb as [|s rest Hs _ IH]; cbn [spec_list legal_list]; [tauto|].
    now rewrite app_nil_iff, Hs, IH.
  - cbn. tauto.
Qed.

Lemma spec_list_nil_iff_legal : forall b V, spec_list b V = [] <-> legal_list b V.
Proof. intros b V. rewrite <- spec_block, <- legal_block. apply spec_nil_iff_legal. Qed.

Theorem accept_iff_legal : forall body, scan_body body = [] <-> legal_list body [].
Proof. intros. rewrite scan_body_eq_spec. apply spec_list_nil_iff_legal. Qed.

Fixpoint count_gotos (s : stmt) : nat :=
  match s with
  | SGoto _ => 1
  | SIf t e => count_gotos t + match e with Some e' => count_gotos e' | None => 0 end
  | SBlock b => (fix go (ss : list stmt) := match ss with [] => 0 | s :: r => count_gotos s + go r end) b
  | _ => 0
  end.

Lemma spec_codes_are_E400_E420 : forall s V c, In c (spec_stmt s V) -> c = E400 \/ c = E420.
Proof.
  induction s as [l|l|t IHt|t e IHt IHe|b IHb|] using stmt_ind2; intros V c.
  - cbn [spec_stmt]. destruct (mem_name l V); cbn; intuition.
  - cbn [spec_stmt]. destruct (mem_name l V); cbn; intuition.
  - cbn [spec_stmt]. rewrite app_nil_r. apply IHt.
  - cbn [spec_stmt]. rewrite in_app_iff. intros [H|H]; eauto.
  - rewrite spec_block. revert V. induction IHb as [|s rest Hs _ IH]; intros V; cbn [spec_list].
    + intros [].
    + rewrite in_app_iff. intros [H|H]; eauto.
  - intros [].
Qed.

Lemma spec_list_app a b V : spec_list (a ++ b) V = spec_list a (later b ++ V) ++ spec_list b V.
Proof.
  induction a as [|s a IH]; [reflexivity|]. cbn [app spec_list].
  unfold later at 1. rewrite flat_map_app. fold (later a) (later b).
  now rewrite IH, <- !app_assoc.
Qed.

(* Backward, inward and forward jumps, stated on concrete shapes for every choice of
   surrounding statements; the goto before a block is rejected whatever the block declares. *)
Lemma backward_jump_rejected : forall pre mid post l,
  ~ In l (later post) ->
  In E400 (spec_body (pre ++ [SLabel l] ++ mid ++ [SGoto l] ++ post)).
Proof.
  intros pre mid post l Hl. apply mem_name_false in Hl. unfold spec_body.
  rewrite !spec_list_app, !in_app_iff. do 3 right. left.
  cbn [spec_list spec_stmt]. change (later []) with (@nil name). cbn [app]. rewrite !app_nil_r, Hl. now left.
Qed.

Lemma inward_jump_rejected : forall pre inner post l,
  ~ In l (later post) ->
  In E400 (spec_body (pre ++ [SGoto l] ++ [SBlock inner] ++ post)).
Proof.
  intros pre inner post l Hl. apply mem_name_false in Hl. unfold spec_body.
  rewrite !spec_list_app, !in_app_iff. right. left.
  cbn [spec_list spec_stmt later flat_map labels_of app]. fold (later post).
  rewrite !app_nil_r, Hl. now left.
Qed.

Lemma forward_jump_accepted : forall mid post l,
  ~ In l (later mid) -> ~ In l (later post) ->
  (forall s, In s mid -> s = SOther) ->
  (forall s, In s post -> s = SOther) ->
  spec_body ([SGoto l] ++ mid ++ [SLabel l] ++ post) = [].
Proof.
  intros mid post l _ _ Om Op. unfold spec_body.
  assert (Quiet : forall ss, (forall s, In s ss -> s = SOther) ->
                             later ss = [] /\ forall V, spec_list ss V = []).
  { induction ss as [|p ss IH]; intros O; [now split|].
    rewrite (O p (or_introl eq_refl)). cbn [later flat_map labels_of spec_list spec_stmt app].
    apply IH. intros; apply O; now right. }
  destruct (Quiet mid Om) as [Lm Sm], (Quiet post Op) as [Lp Sp].
  rewrite !spec_list_app, Sm, Sp. unfold later. rewrite !flat_map_app. fold (later mid) (later post).
  rewrite Lm, Lp. cbn. now rewrite N.eqb_refl.
Qed.
