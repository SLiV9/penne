(* Proofs about Model/Layout.v (property C10): the type checker's word layout
   (align_struct, E380) agrees with LLVM's StructLayout for words of primitives,
   is a sound over-approximation for words nested in words, and `|:T|` is the
   allocation size of T.

   StructLayout's loop is taken apart into its three results ([layout_loop_eq]):
   the folds [loop_size] and [loop_offs], and [max_align]; layouts are compared
   by lemmas about the folds.  [well_placed] says where the members of a struct
   lie; the facts about struct_offsets that Proofs/MemLowerProofs.v builds on
   follow from it. *)
From PV Require Import Base.Common Model.Layout.
Open Scope Z_scope.

Section ty_ind2.
  Variable P : ty -> Prop.
  Hypothesis HI : forall b, P (TInt b).
  Hypothesis HB : P TBool.
  Hypothesis HP : P TPtr.
  Hypothesis HA : forall n e, P e -> P (TArr n e).
  Hypothesis HS : forall ms, Forall P ms -> P (TStruct ms).
  Fixpoint ty_ind2 (t : ty) : P t :=
    match t with
    | TInt b => HI b
    | TBool => HB
    | TPtr => HP
    | TArr n e => HA n e (ty_ind2 e)
    | TStruct ms => HS ms (Forall_all P ty_ind2 ms)
    end.
End ty_ind2.

Section wmember_ind2.
  Variable P : wmember -> Prop.
  Hypothesis HP : forall s, P (Prim s).
  Hypothesis HN : forall d ms, Forall P ms -> P (Nested d ms).
  Fixpoint wmember_ind2 (m : wmember) : P m :=
    match m with
    | Prim s => HP s
    | Nested d ms => HN d ms (Forall_all P wmember_ind2 ms)
    end.
End wmember_ind2.

(* The model recurses over member lists by local fixes; these equations restate
   them with the model's named list functions. *)

Lemma llvm_align_struct ms : llvm_align (TStruct ms) = llvm_align_list ms.
Proof. reflexivity. Qed.

Lemma llvm_size_bits_struct ms :
  llvm_size_bits (TStruct ms) = 8 * layout_size (member_layouts ms).
Proof. reflexivity. Qed.

Lemma wf_ty_struct ms : wf_ty (TStruct ms) = wf_ty_list ms.
Proof. reflexivity. Qed.

Lemma wmember_ty_nested d ms : wmember_ty (Nested d ms) = TStruct (wmember_tys ms).
Proof. reflexivity. Qed.

Lemma wmember_accepted_nested d ms :
  wmember_accepted (Nested d ms) =
  valid_size d && word_accepted d (typer_sizes ms) && wmembers_accepted ms.
Proof. reflexivity. Qed.

Lemma wf_ty_list_forallb ms : wf_ty_list ms = forallb wf_ty ms.
Proof. reflexivity. Qed.

Lemma wmembers_accepted_forallb ms : wmembers_accepted ms = forallb wmember_accepted ms.
Proof. reflexivity. Qed.

Lemma wf_ty_list_Forall ms : wf_ty_list ms = true <-> Forall (fun m => wf_ty m = true) ms.
Proof. exact (forallb_Forall wf_ty ms). Qed.

Lemma wf_ty_list_nth ms k m :
  wf_ty_list ms = true -> nth_error ms k = Some m -> wf_ty m = true.
Proof. exact (forallb_nth_error wf_ty ms k m). Qed.

Lemma wmembers_accepted_Forall ms :
  wmembers_accepted ms = true <-> Forall (fun m => wmember_accepted m = true) ms.
Proof. exact (forallb_Forall wmember_accepted ms). Qed.

Lemma align_up_bounds x a : 0 < a -> x <= align_up x a < x + a.
Proof.
  intros Ha. unfold align_up.
  pose proof (Z.div_mod (x + a - 1) a ltac:(lia)) as Hdm.
  pose proof (Z.mod_pos_bound (x + a - 1) a Ha) as Hb.
  lia.
Qed.

Lemma align_up_divide x a : (a | align_up x a).
Proof. exists ((x + a - 1) / a). unfold align_up. ring. Qed.

Lemma align_up_least x a m : 0 < a -> x <= m -> (a | m) -> align_up x a <= m.
Proof.
  intros Ha Hx [k ->]. unfold align_up.
  assert (Hq : (x + a - 1) / a < Z.succ k).
  { apply Z.div_lt_upper_bound; [lia|]. nia. }
  nia.
Qed.

Theorem align_up_spec x a :
  0 < a -> 0 <= x ->
  (a | align_up x a) /\ x <= align_up x a /\
  (forall m, x <= m -> (a | m) -> align_up x a <= m).
Proof.
  intros Ha _. split; [apply align_up_divide|]. split.
  - apply (align_up_bounds x a Ha).
  - intros m Hm Hd. now apply align_up_least.
Qed.

Lemma align_up_id x a : 0 < a -> (a | x) -> align_up x a = x.
Proof.
  intros Ha Hd. pose proof (align_up_bounds x a Ha) as Hb.
  pose proof (align_up_least x a x Ha (Z.le_refl x) Hd) as Hl. lia.
Qed.

Lemma align_up_le_div x y a b :
  0 < a -> 0 < b -> (a | b) -> x <= y -> align_up x a <= align_up y b.
Proof.
  intros Ha Hb Hd Hxy. apply align_up_least; [assumption| |].
  - pose proof (align_up_bounds y b Hb). lia.
  - eapply Z.divide_trans; [exact Hd|apply align_up_divide].
Qed.

Lemma align_up_mono x y a : 0 < a -> x <= y -> align_up x a <= align_up y a.
Proof. intros Ha Hxy. apply align_up_le_div; try assumption. apply Z.divide_refl. Qed.

(* The alignments that occur under the module's data layout. *)
Definition al8 (a : Z) : Prop := a = 1 \/ a = 2 \/ a = 4 \/ a = 8.

Lemma al8_pos a : al8 a -> 1 <= a <= 8.
Proof. unfold al8. lia. Qed.

Lemma al8_max a b : al8 a -> al8 b -> al8 (Z.max a b).
Proof. intros Ha Hb. destruct (Z.max_spec a b) as [[_ ->]|[_ ->]]; assumption. Qed.

Lemma al8_le_divide a b : al8 a -> al8 b -> a <= b -> (a | b).
Proof.
  intros Ha Hb Hab.
  destruct Ha as [->|[->|[->| ->]]]; destruct Hb as [->|[->|[->| ->]]]; try lia;
    (apply Z.mod_divide; [lia|reflexivity]).
Qed.

Lemma valid_size_cases b :
  valid_size b = true <-> b = 1 \/ b = 2 \/ b = 4 \/ b = 8 \/ b = 16.
Proof.
  unfold valid_size. split.
  - intros H. repeat (apply orb_prop in H; destruct H as [H|H]); apply Z.eqb_eq in H; tauto.
  - intros [->|[->|[->|[->| ->]]]]; reflexivity.
Qed.

Lemma next_pow2_spec x :
  1 <= x -> x <= next_pow2 x < 2 * x /\ exists k, 0 <= k /\ next_pow2 x = 2 ^ k.
Proof.
  intros Hx. unfold next_pow2. destruct (Z.leb_spec x 1) as [H1|H1].
  - split; [lia|]. exists 0. split; [lia|reflexivity].
  - pose proof (Z.log2_up_spec x H1) as [Hlo Hhi].
    pose proof (Z.log2_up_pos x H1) as Hk.
    split.
    + split; [exact Hhi|].
      replace (Z.log2_up x) with (Z.succ (Z.pred (Z.log2_up x))) by lia.
      rewrite Z.pow_succ_r by lia. lia.
    + exists (Z.log2_up x). split; [lia|reflexivity].
Qed.

(* The type checker's member alignment is LLVM's integer ABI alignment under the
   module's data layout -- for every byte size, in particular 16 (i128): both 8. *)
Lemma member_alignment_int_abi b : 1 <= b -> member_alignment b = int_abi_align b.
Proof.
  intros Hb. destruct (Z.leb_spec b 8) as [H8|H8].
  - assert (Hc : b = 1 \/ b = 2 \/ b = 3 \/ b = 4 \/ b = 5 \/ b = 6 \/ b = 7 \/ b = 8) by lia.
    destruct Hc as [->|[->|[->|[->|[->|[->|[->| ->]]]]]]]; reflexivity.
  - pose proof (next_pow2_spec b Hb) as [[Hlo _] _].
    unfold member_alignment, MAXIMUM_ALIGNMENT, int_abi_align.
    destruct (Z.leb_spec b 1); [lia|]. destruct (Z.leb_spec b 2); [lia|].
    destruct (Z.leb_spec b 4); [lia|]. lia.
Qed.

Lemma int_abi_align_al8 b : al8 (int_abi_align b).
Proof.
  unfold int_abi_align, al8.
  destruct (b <=? 1); [tauto|]. destruct (b <=? 2); [tauto|]. destruct (b <=? 4); tauto.
Qed.

Lemma member_alignment_valid b :
  valid_size b = true -> member_alignment b = Z.min b 8 /\ al8 (member_alignment b).
Proof.
  rewrite valid_size_cases. unfold al8.
  intros [->|[->|[->|[->| ->]]]]; vm_compute; intuition congruence.
Qed.

Lemma llvm_align_list_al8 ms : Forall (fun m => al8 (llvm_align m)) ms -> al8 (llvm_align_list ms).
Proof.
  induction 1 as [|m rest Hm _ IH]; cbn [llvm_align_list].
  - left. reflexivity.
  - now apply al8_max.
Qed.

Lemma llvm_align_al8 t : al8 (llvm_align t).
Proof.
  induction t as [b| | |n e IHe|ms IHms] using ty_ind2.
  - apply int_abi_align_al8.
  - left. reflexivity.
  - right. right. right. reflexivity.
  - exact IHe.
  - rewrite llvm_align_struct. now apply llvm_align_list_al8.
Qed.

Lemma llvm_align_pos t : 0 < llvm_align t.
Proof. pose proof (al8_pos _ (llvm_align_al8 t)). lia. Qed.

Fixpoint max_align (ms : list (Z * Z)) : Z :=
  match ms with
  | [] => 1
  | (_, a) :: rest => Z.max a (max_align rest)
  end.

Lemma max_align_pos ms : 1 <= max_align ms.
Proof. induction ms as [|[sz a] rest IH]; cbn [max_align]; lia. Qed.

Lemma max_align_app a b : max_align (a ++ b) = Z.max (max_align a) (max_align b).
Proof.
  induction a as [|[sz al] rest IH]; cbn [app max_align].
  - pose proof (max_align_pos b). lia.
  - rewrite IH. lia.
Qed.

Lemma max_align_al8 ms : Forall (fun p => al8 (snd p)) ms -> al8 (max_align ms).
Proof.
  induction 1 as [|[sz a] rest Hp _ IH]; cbn [max_align].
  - left. reflexivity.
  - now apply al8_max.
Qed.

(* The three results of StructLayout's loop, one at a time: the alignment is
   [max_align], the size and the offsets are the folds below. *)
Fixpoint loop_size (ms : list (Z * Z)) (size : Z) : Z :=
  match ms with
  | [] => size
  | (sz, a) :: rest => loop_size rest (align_up size a + sz)
  end.

Fixpoint loop_offs (ms : list (Z * Z)) (size : Z) : list Z :=
  match ms with
  | [] => []
  | (sz, a) :: rest => align_up size a :: loop_offs rest (align_up size a + sz)
  end.

Lemma layout_loop_eq ms : forall size al,
  1 <= al ->
  layout_loop ms size al = (loop_offs ms size, loop_size ms size, Z.max al (max_align ms)).
Proof.
  induction ms as [|[sz a] rest IH]; intros size al Hal;
    cbn [layout_loop loop_offs loop_size max_align].
  - f_equal. lia.
  - rewrite IH by lia. cbv beta iota. f_equal. lia.
Qed.

Lemma layout_size_eq ms : layout_size ms = align_up (loop_size ms 0) (max_align ms).
Proof.
  unfold layout_size. rewrite layout_loop_eq by lia. now rewrite Z.max_r by apply max_align_pos.
Qed.

Lemma layout_align_max ms : layout_align ms = max_align ms.
Proof.
  unfold layout_align. rewrite layout_loop_eq by lia. apply Z.max_r, max_align_pos.
Qed.

Lemma layout_offsets_eq ms : layout_offsets ms = loop_offs ms 0.
Proof. unfold layout_offsets. now rewrite layout_loop_eq by lia. Qed.

Lemma layout_size_divide ms : (layout_align ms | layout_size ms).
Proof. rewrite layout_size_eq, layout_align_max. apply align_up_divide. Qed.

Lemma loop_size_app a b : forall size, loop_size (a ++ b) size = loop_size b (loop_size a size).
Proof. induction a as [|[sz al] rest IH]; intros size; cbn [app loop_size]; auto. Qed.

Definition le_layout (p q : Z * Z) : Prop :=
  fst p <= fst q /\ al8 (snd p) /\ al8 (snd q) /\ snd p <= snd q.

(* the loop keeps its state (size, alignment) below that of a run over larger members *)
Lemma loop_le ps qs : Forall2 le_layout ps qs -> forall s1 s2, s1 <= s2 ->
  le_layout (loop_size ps s1, max_align ps) (loop_size qs s2, max_align qs).
Proof.
  induction 1 as [|[sz1 b1] [sz2 b2] ps qs (Hsz & Hb1 & Hb2 & Hb) _ IH]; intros s1 s2 Hs;
    unfold le_layout in *; cbn [loop_size max_align fst snd] in *.
  - repeat split; [exact Hs|now left|now left|lia].
  - pose proof (al8_pos _ Hb1). pose proof (al8_pos _ Hb2).
    pose proof (align_up_le_div s1 s2 b1 b2 ltac:(lia) ltac:(lia) (al8_le_divide _ _ Hb1 Hb2 Hb) Hs).
    destruct (IH (align_up s1 b1 + sz1) (align_up s2 b2 + sz2) ltac:(lia)) as (I1 & I2 & I3 & I4).
    repeat split; [exact I1|now apply al8_max|now apply al8_max|lia].
Qed.

Lemma layout_size_le ps qs : Forall2 le_layout ps qs -> layout_size ps <= layout_size qs.
Proof.
  intros HF. rewrite !layout_size_eq. destruct (loop_le ps qs HF 0 0 (Z.le_refl 0)) as (Hs & Ha1 & Ha2 & Ha).
  cbn [fst snd] in *. pose proof (al8_pos _ Ha1). pose proof (al8_pos _ Ha2).
  apply align_up_le_div; try lia. now apply al8_le_divide.
Qed.

(* "alignment 1, or alignment at most the size": true of primitives and words,
   not of arrays (zero-length) -- used to bound a nested word's alignment. *)
Definition tight (p : Z * Z) : Prop :=
  0 <= fst p /\ 1 <= snd p /\ (snd p = 1 \/ snd p <= fst p).

Lemma loop_size_tight ms : Forall tight ms -> forall size, 0 <= size ->
  size <= loop_size ms size /\ (max_align ms = 1 \/ max_align ms <= loop_size ms size).
Proof.
  induction 1 as [|[sz a] rest (Hsz & Ha & Hta) _ IH]; intros size Hs;
    cbn [loop_size max_align fst snd] in *; [lia|].
  pose proof (align_up_bounds size a ltac:(lia)).
  destruct (IH (align_up size a + sz) ltac:(lia)). lia.
Qed.

Lemma layout_tight ms :
  Forall tight ms ->
  0 <= layout_size ms /\ (layout_align ms = 1 \/ layout_align ms <= layout_size ms).
Proof.
  intros HF. rewrite layout_size_eq, layout_align_max.
  destruct (loop_size_tight ms HF 0 (Z.le_refl 0)). pose proof (max_align_pos ms).
  pose proof (align_up_bounds (loop_size ms 0) (max_align ms) ltac:(lia)). lia.
Qed.

Lemma max_align_member_layouts ms : max_align (member_layouts ms) = llvm_align_list ms.
Proof.
  induction ms as [|m rest IH]; cbn [member_layouts max_align llvm_align_list]; [reflexivity|].
  now rewrite IH.
Qed.

Lemma layout_align_members ms : layout_align (member_layouts ms) = llvm_align (TStruct ms).
Proof. now rewrite layout_align_max, max_align_member_layouts, llvm_align_struct. Qed.

Lemma store_of_bytes x : (8 * x + 7) / 8 = x.
Proof. symmetry. apply (Z.div_unique (8 * x + 7) 8 x 7); lia. Qed.

Lemma bytes_of_bits x : (8 * x) / 8 = x.
Proof. symmetry. apply (Z.div_unique (8 * x) 8 x 0); lia. Qed.

(* StructLayout's size is already padded to the alignment. *)
Lemma llvm_alloc_size_struct ms :
  llvm_alloc_size (TStruct ms) = layout_size (member_layouts ms).
Proof.
  unfold llvm_alloc_size, alloc_of. rewrite llvm_size_bits_struct, store_of_bytes.
  apply align_up_id; [apply llvm_align_pos|].
  rewrite <- layout_align_members. apply layout_size_divide.
Qed.

Lemma llvm_alloc_size_divide t : (llvm_align t | llvm_alloc_size t).
Proof. unfold llvm_alloc_size, alloc_of. apply align_up_divide. Qed.

Lemma llvm_alloc_size_int b : valid_size b = true -> llvm_alloc_size (TInt b) = b.
Proof. rewrite valid_size_cases. intros [->|[->|[->|[->| ->]]]]; reflexivity. Qed.

Lemma llvm_size_bits_arr n t : llvm_size_bits (TArr n t) = 8 * (n * llvm_alloc_size t).
Proof. cbn [llvm_size_bits]. fold (llvm_alloc_size t). ring. Qed.

Lemma llvm_alloc_size_arr n t : llvm_alloc_size (TArr n t) = n * llvm_alloc_size t.
Proof.
  unfold llvm_alloc_size at 1. unfold alloc_of. rewrite llvm_size_bits_arr, store_of_bytes.
  apply align_up_id; [apply llvm_align_pos|]. cbn [llvm_align].
  apply Z.divide_mul_r. apply llvm_alloc_size_divide.
Qed.

Lemma llvm_size_bytes_arr n t : llvm_size_bytes (TArr n t) = n * llvm_alloc_size t.
Proof. unfold llvm_size_bytes. rewrite llvm_size_bits_arr. apply bytes_of_bits. Qed.

Theorem sizeof_array n t :
  llvm_size_bytes (TArr n t) = n * llvm_alloc_size t /\
  llvm_alloc_size (TArr n t) = n * llvm_alloc_size t.
Proof. split; [apply llvm_size_bytes_arr|apply llvm_alloc_size_arr]. Qed.

Fixpoint sum_alloc (ms : list ty) : Z :=
  match ms with
  | [] => 0
  | m :: rest => llvm_alloc_size m + sum_alloc rest
  end.

(* [well_placed lo ms offs hi]: the members lie, in order and without overlap,
   between lo and hi, each at a multiple of its alignment. *)
Fixpoint well_placed (lo : Z) (ms : list ty) (offs : list Z) (hi : Z) : Prop :=
  match ms, offs with
  | [], [] => lo <= hi
  | m :: ms', o :: offs' =>
      lo <= o /\ (llvm_align m | o) /\ well_placed (o + llvm_alloc_size m) ms' offs' hi
  | _, _ => False
  end.

Lemma loop_well_placed ms : forall size hi, loop_size (member_layouts ms) size <= hi ->
  well_placed size ms (loop_offs (member_layouts ms) size) hi.
Proof.
  induction ms as [|m rest IH]; intros size hi Hhi; cbn [member_layouts loop_offs loop_size well_placed] in *.
  - exact Hhi.
  - split; [|split].
    + apply (align_up_bounds size (llvm_align m) (llvm_align_pos m)).
    + apply align_up_divide.
    + apply IH, Hhi.
Qed.

Theorem struct_offsets_well_placed ms :
  well_placed 0 ms (struct_offsets ms) (llvm_alloc_size (TStruct ms)).
Proof.
  rewrite llvm_alloc_size_struct, layout_size_eq. unfold struct_offsets. rewrite layout_offsets_eq.
  apply loop_well_placed. pose proof (max_align_pos (member_layouts ms)). apply align_up_bounds. lia.
Qed.

Lemma well_placed_sum ms : forall lo offs hi,
  well_placed lo ms offs hi -> lo + sum_alloc ms <= hi.
Proof.
  induction ms as [|m rest IH]; intros lo [|o offs] hi H; cbn [well_placed sum_alloc] in *;
    try tauto; [lia|].
  destruct H as [H1 [_ H3]]. apply IH in H3. lia.
Qed.
Arguments well_placed_sum {ms lo offs hi}.

Lemma sum_alloc_nonneg ms : Forall (fun m => 0 <= llvm_alloc_size m) ms -> 0 <= sum_alloc ms.
Proof. induction 1; cbn [sum_alloc]; lia. Qed.

Lemma well_placed_length ms : forall lo offs hi,
  well_placed lo ms offs hi -> length offs = length ms.
Proof.
  induction ms as [|m rest IH]; intros lo offs hi H; destruct offs as [|o offs'];
    cbn [well_placed] in H; try tauto; try reflexivity.
  cbn [length]. f_equal. destruct H as [_ [_ H]]. eapply IH. exact H.
Qed.

Lemma well_placed_nth ms : forall lo offs hi i m o,
  Forall (fun m => 0 <= llvm_alloc_size m) ms ->
  well_placed lo ms offs hi ->
  nth_error ms i = Some m -> nth_error offs i = Some o ->
  lo <= o /\ (llvm_align m | o) /\ o + llvm_alloc_size m <= hi /\
  forall j mj oj, (i < j)%nat -> nth_error ms j = Some mj -> nth_error offs j = Some oj ->
    o + llvm_alloc_size m <= oj.
Proof.
  induction ms as [|m0 rest IH]; intros lo offs hi i m o Hnn H Hm Ho.
  - destruct i; discriminate.
  - destruct offs as [|o0 offs']; cbn [well_placed] in H; [tauto|].
    destruct H as [H1 [H2 H3]]. inversion Hnn as [|? ? Hm0 Hnn']; subst.
    destruct i as [|i']; cbn [nth_error] in Hm, Ho.
    + inversion Hm; inversion Ho; subst.
      pose proof (well_placed_sum H3) as Hhi. pose proof (sum_alloc_nonneg _ Hnn').
      split; [exact H1|]. split; [exact H2|]. split; [lia|].
      intros [|j'] mj oj Hj Hmj Hoj; [lia|].
      exact (proj1 (IH _ _ _ _ _ _ Hnn' H3 Hmj Hoj)).
    + destruct (IH _ _ _ _ _ _ Hnn' H3 Hm Ho) as (Ha & Hb & Hc & Hd).
      split; [lia|]. split; [exact Hb|]. split; [exact Hc|].
      intros [|j'] mj oj Hj; [lia|]. apply Hd. lia.
Qed.

Lemma llvm_alloc_size_nonneg t : wf_ty t = true -> 0 <= llvm_alloc_size t.
Proof.
  induction t as [b| | |n e IHe|ms IHms] using ty_ind2; intros Hwf.
  - cbn [wf_ty] in Hwf. rewrite (llvm_alloc_size_int b Hwf).
    apply valid_size_cases in Hwf. lia.
  - discriminate.   (* 0 <= 1 is (0 ?= 1) = Gt -> False, and 0 ?= 1 computes to Lt *)
  - discriminate.   (* 0 <= 8 likewise *)
  - cbn [wf_ty] in Hwf. apply andb_true_iff in Hwf as [Hn He].
    rewrite llvm_alloc_size_arr. apply Z.leb_le in Hn. specialize (IHe He). nia.
  - rewrite wf_ty_struct in Hwf. apply wf_ty_list_Forall in Hwf.
    pose proof (well_placed_sum (struct_offsets_well_placed ms)).
    pose proof (sum_alloc_nonneg ms (Forall_mp _ _ _ IHms Hwf)). lia.
Qed.

Lemma nonneg_sizes ms :
  wf_ty_list ms = true -> Forall (fun m => 0 <= llvm_alloc_size m) ms.
Proof.
  intros Hwf. apply wf_ty_list_Forall in Hwf. exact (Forall_impl _ llvm_alloc_size_nonneg Hwf).
Qed.

Lemma struct_offsets_length ms : length (struct_offsets ms) = length ms.
Proof. exact (well_placed_length _ _ _ _ (struct_offsets_well_placed ms)). Qed.

Lemma struct_offsets_nth ms i m o :
  wf_ty_list ms = true -> nth_error ms i = Some m -> nth_error (struct_offsets ms) i = Some o ->
  0 <= o /\ (llvm_align m | o) /\ o + llvm_alloc_size m <= llvm_alloc_size (TStruct ms).
Proof.
  intros Hwf Hm Ho.
  destruct (well_placed_nth ms 0 _ _ i m o (nonneg_sizes ms Hwf) (struct_offsets_well_placed ms)
              Hm Ho) as (H1 & H2 & H3 & _).
  auto.
Qed.

Lemma struct_offsets_disjoint ms i j mi oi mj oj :
  wf_ty_list ms = true -> (i < j)%nat ->
  nth_error ms i = Some mi -> nth_error (struct_offsets ms) i = Some oi ->
  nth_error ms j = Some mj -> nth_error (struct_offsets ms) j = Some oj ->
  oi + llvm_alloc_size mi <= oj.
Proof.
  intros Hwf Hij Hmi Hoi.
  destruct (well_placed_nth ms 0 _ _ i mi oi (nonneg_sizes ms Hwf) (struct_offsets_well_placed ms)
              Hmi Hoi) as (_ & _ & _ & H).
  exact (H j mj oj Hij).
Qed.

(* `|:T|` is exactly the storage LLVM allocates for T, and the generator's
   assert_eq!(size_in_bits % 8, 0) cannot fail. *)
Theorem penne_sizeof_is_alloc_size t :
  wf_ty t = true -> penne_sizeof t = llvm_alloc_size t /\ sizeof_assert_ok t = true.
Proof.
  destruct t as [b| | |n e|ms]; intros Hwf.
  - cbn [wf_ty] in Hwf. apply valid_size_cases in Hwf.
    destruct Hwf as [->|[->|[->|[->| ->]]]]; split; reflexivity.
  - split; reflexivity.
  - split; reflexivity.
  - split.
    + cbn [penne_sizeof]. now rewrite llvm_size_bytes_arr, llvm_alloc_size_arr.
    + unfold sizeof_assert_ok. rewrite llvm_size_bits_arr. apply Z.eqb_eq.
      rewrite Z.mul_comm. apply Z_mod_mult.
  - split.
    + cbn [penne_sizeof]. unfold llvm_size_bytes.
      rewrite llvm_size_bits_struct, llvm_alloc_size_struct. apply bytes_of_bits.
    + unfold sizeof_assert_ok. rewrite llvm_size_bits_struct. apply Z.eqb_eq.
      rewrite Z.mul_comm. apply Z_mod_mult.
Qed.

Theorem E380_iff declared members :
  word_accepted declared members = true <-> typer_aligned_size members <= declared.
Proof. unfold word_accepted. apply Z.leb_le. Qed.

Corollary E380_emitted_iff declared members :
  align_struct_word declared members = [E380] <->
  declared < typer_aligned_size (known_sizes members).
Proof.
  unfold align_struct_word, word_accepted.
  destruct (Z.leb_spec (typer_aligned_size (known_sizes members)) declared); split;
    intros; try lia; try discriminate; reflexivity.
Qed.

Definition typer_layouts (sizes : list Z) : list (Z * Z) :=
  map (fun s => (s, member_alignment s)) sizes.

Lemma typer_loop_layout sizes : forall size al,
  1 <= al ->
  typer_loop sizes size al =
  (loop_size (typer_layouts sizes) size, Z.max al (max_align (typer_layouts sizes))).
Proof.
  induction sizes as [|s rest IH]; intros size al Hal;
    cbn [typer_loop typer_layouts map loop_size max_align].
  - f_equal. lia.
  - fold (typer_layouts rest).
    destruct (Z.ltb_spec al (member_alignment s)); rewrite IH by lia; f_equal; lia.
Qed.

Lemma typer_aligned_size_layout sizes :
  typer_aligned_size sizes = layout_size (typer_layouts sizes).
Proof.
  unfold typer_aligned_size. rewrite typer_loop_layout, layout_size_eq by lia.
  now rewrite Z.max_r by apply max_align_pos.
Qed.

Lemma member_layouts_prims sizes :
  Forall (fun s => valid_size s = true) sizes ->
  member_layouts (map TInt sizes) = typer_layouts sizes.
Proof.
  induction 1 as [|s rest Hs _ IH]; [reflexivity|].
  cbn [map member_layouts typer_layouts]. fold (typer_layouts rest). rewrite IH.
  rewrite (llvm_alloc_size_int s Hs). cbn [llvm_align].
  rewrite member_alignment_int_abi; [reflexivity|].
  apply valid_size_cases in Hs. lia.
Qed.

Theorem word_size_agrees sizes :
  Forall (fun s => valid_size s = true) sizes ->
  typer_aligned_size sizes = llvm_alloc_size (TStruct (map TInt sizes)).
Proof.
  intros HF. rewrite llvm_alloc_size_struct, (member_layouts_prims sizes HF).
  apply typer_aligned_size_layout.
Qed.

Corollary word_sizeof_agrees sizes :
  Forall (fun s => valid_size s = true) sizes ->
  penne_sizeof (TStruct (map TInt sizes)) = typer_aligned_size sizes.
Proof.
  intros HF. rewrite (word_size_agrees sizes HF).
  apply penne_sizeof_is_alloc_size. rewrite wf_ty_struct.
  apply wf_ty_list_Forall, Forall_map. exact HF.
Qed.

(* A bool member (i1: one byte, align 1) is laid out as a u8. *)
Lemma bool_layout_is_u8 :
  llvm_alloc_size TBool = llvm_alloc_size (TInt 1) /\ llvm_align TBool = llvm_align (TInt 1).
Proof. split; reflexivity. Qed.

(* What acceptance guarantees of a word member: its LLVM layout lies below the one the type checker
   assumes for it, and is tight. *)
Definition winv (m : wmember) : Prop :=
  le_layout (llvm_alloc_size (wmember_ty m), llvm_align (wmember_ty m))
            (typer_size_of m, member_alignment (typer_size_of m)) /\
  tight (llvm_alloc_size (wmember_ty m), llvm_align (wmember_ty m)).

Lemma winv_le_layout ms :
  Forall winv ms ->
  Forall2 le_layout (member_layouts (wmember_tys ms)) (typer_layouts (typer_sizes ms)).
Proof. induction 1 as [|m rest [Hm _] _ IH]; constructor; assumption. Qed.

Lemma winv_tight ms : Forall winv ms -> Forall tight (member_layouts (wmember_tys ms)).
Proof. induction 1 as [|m rest [_ Hm] _ IH]; constructor; assumption. Qed.

Lemma members_conservative ms :
  Forall winv ms ->
  llvm_alloc_size (TStruct (wmember_tys ms)) <= typer_aligned_size (typer_sizes ms).
Proof.
  intros HF. rewrite llvm_alloc_size_struct, typer_aligned_size_layout.
  apply layout_size_le. now apply winv_le_layout.
Qed.

Lemma wmember_accepted_winv m : wmember_accepted m = true -> winv m.
Proof.
  induction m as [s|d ms IH] using wmember_ind2; intros Hacc.
  - cbn [wmember_accepted] in Hacc. unfold winv, le_layout, tight. cbn [wmember_ty typer_size_of llvm_align fst snd].
    rewrite (llvm_alloc_size_int s Hacc).
    destruct (member_alignment_valid s Hacc) as [Hmin H8].
    pose proof (valid_size_cases s) as [Hc _]. specialize (Hc Hacc).
    rewrite <- member_alignment_int_abi by lia.
    repeat split; try assumption; try lia.
  - rewrite wmember_accepted_nested in Hacc.
    apply andb_true_iff in Hacc as [Hacc Hms]. apply andb_true_iff in Hacc as [Hd Hw].
    apply wmembers_accepted_Forall in Hms.
    pose proof (Forall_mp _ _ _ IH Hms) as HF.
    pose proof (members_conservative ms HF) as Hle.
    apply E380_iff in Hw.
    pose proof (layout_tight _ (winv_tight ms HF)) as [Hnn Htight].
    rewrite layout_align_members in Htight.
    rewrite <- llvm_alloc_size_struct in Hnn, Htight.
    destruct (member_alignment_valid d Hd) as [Hmin H8].
    pose proof (llvm_align_al8 (TStruct (wmember_tys ms))) as H8'. pose proof (al8_pos _ H8') as Hb.
    apply valid_size_cases in Hd.
    unfold winv, le_layout, tight. rewrite wmember_ty_nested. cbn [typer_size_of fst snd].
    repeat split; try assumption; try lia.
Qed.

(* If every nested word was itself accepted, LLVM's layout of the actual members
   never exceeds the size the type checker computes from the declared sizes:
   E380 never under-estimates. *)
Theorem nested_word_conservative ms :
  wmembers_accepted ms = true ->
  llvm_alloc_size (TStruct (wmember_tys ms)) <= typer_aligned_size (typer_sizes ms).
Proof.
  intros Hacc. apply members_conservative. apply wmembers_accepted_Forall in Hacc.
  exact (Forall_impl _ wmember_accepted_winv Hacc).
Qed.

Corollary accepted_word_fits declared ms :
  wmember_accepted (Nested declared ms) = true ->
  0 <= llvm_alloc_size (wmember_ty (Nested declared ms)) <= declared /\
  penne_sizeof (wmember_ty (Nested declared ms)) <= declared.
Proof.
  intros Hacc. destruct (wmember_accepted_winv _ Hacc) as [[Hsz _] [H0 _]].
  cbn [typer_size_of fst] in Hsz, H0. split; [now split|].
  rewrite wmember_ty_nested in *. cbn [penne_sizeof]. unfold llvm_size_bytes.
  rewrite llvm_size_bits_struct, bytes_of_bits. rewrite llvm_alloc_size_struct in Hsz. lia.
Qed.

(* The inequality is strict in general, E380 can reject a word whose LLVM layout
   would fit, and an accepted `wordN` need not occupy N/8 bytes. *)
Example nested_word_not_exact :
  exists ms, wmembers_accepted ms = true /\
    llvm_alloc_size (TStruct (wmember_tys ms)) < typer_aligned_size (typer_sizes ms).
Proof. exists [Nested 8 [Prim 1]; Prim 1]. vm_compute. split; reflexivity. Qed.

Example E380_over_rejects :
  exists d ms, wmembers_accepted ms = true /\
    llvm_alloc_size (TStruct (wmember_tys ms)) <= d /\
    word_accepted d (typer_sizes ms) = false.
Proof.
  exists 8, [Nested 8 [Prim 1]; Prim 1]. vm_compute.
  split; [reflexivity|]. split; [discriminate|reflexivity].
Qed.

Example accepted_word_smaller_than_declared :
  exists d ms, wmember_accepted (Nested d ms) = true /\
    penne_sizeof (wmember_ty (Nested d ms)) < d.
Proof. exists 8, [Prim 1]. vm_compute. split; reflexivity. Qed.

Lemma member_layouts_aligns_al8 ms : Forall (fun p => al8 (snd p)) (member_layouts ms).
Proof.
  induction ms; cbn [member_layouts]; constructor; [apply llvm_align_al8|assumption].
Qed.

Lemma member_layouts_app a b : member_layouts (a ++ b) = member_layouts a ++ member_layouts b.
Proof. exact (map_app _ a b). Qed.

Theorem struct_size_prefix ms ms' :
  wf_ty_list ms' = true ->
  llvm_alloc_size (TStruct ms) <= llvm_alloc_size (TStruct (ms ++ ms')).
Proof.
  intros Hwf. rewrite !llvm_alloc_size_struct, member_layouts_app, !layout_size_eq.
  rewrite loop_size_app, max_align_app.
  pose proof (max_align_al8 _ (member_layouts_aligns_al8 ms)) as H8.
  pose proof (max_align_al8 _ (member_layouts_aligns_al8 ms')) as H8'.
  pose proof (al8_pos _ H8). pose proof (al8_pos _ H8').
  apply align_up_le_div; try lia.
  - apply al8_le_divide; [assumption|now apply al8_max|lia].
  - pose proof (well_placed_sum (loop_well_placed ms' (loop_size (member_layouts ms) 0) _ (Z.le_refl _))).
    pose proof (sum_alloc_nonneg ms' (nonneg_sizes ms' Hwf)). lia.
Qed.

Theorem struct_size_monotone ms m :
  wf_ty_list ms = true -> wf_ty m = true ->
  llvm_alloc_size (TStruct ms) <= llvm_alloc_size (TStruct (ms ++ [m])).
Proof. intros _ Hm. apply struct_size_prefix. cbn [wf_ty_list]. now rewrite Hm. Qed.

Theorem struct_layout_facts ms :
  wf_ty_list ms = true ->
  sum_alloc ms <= llvm_alloc_size (TStruct ms) /\
  (llvm_align (TStruct ms) | llvm_alloc_size (TStruct ms)) /\
  length (struct_offsets ms) = length ms /\
  (forall i m o, nth_error ms i = Some m -> nth_error (struct_offsets ms) i = Some o ->
     0 <= o /\ (llvm_align m | o) /\ o + llvm_alloc_size m <= llvm_alloc_size (TStruct ms)) /\
  (forall i j mi oi mj oj, (i < j)%nat ->
     nth_error ms i = Some mi -> nth_error (struct_offsets ms) i = Some oi ->
     nth_error ms j = Some mj -> nth_error (struct_offsets ms) j = Some oj ->
     oi + llvm_alloc_size mi <= oj).
Proof.
  intros Hwf. split; [|split; [|split; [|split]]].
  - exact (well_placed_sum (struct_offsets_well_placed ms)).
  - apply llvm_alloc_size_divide.
  - apply struct_offsets_length.
  - intros i m o. now apply struct_offsets_nth.
  - intros i j mi oi mj oj. now apply struct_offsets_disjoint.
Qed.

(* {i8, i128, i8} occupies 32 bytes (confirmed by experiment), offsets 0, 8, 24. *)
Example ex_i128 :
  llvm_alloc_size (TStruct [TInt 1; TInt 16; TInt 1]) = 32 /\
  struct_offsets [TInt 1; TInt 16; TInt 1] = [0; 8; 24] /\
  typer_aligned_size [1; 16; 1] = 32.
Proof. vm_compute. repeat split; reflexivity. Qed.

Example ex_word64_ok : word_accepted 8 [1; 2; 4] = true /\ typer_aligned_size [1; 2; 4] = 8.
Proof. vm_compute. split; reflexivity. Qed.

Example ex_word64_E380 : align_struct_word 8 [PUint8; PUint32; PUint8; PBool] = [E380].
Proof. reflexivity. Qed.

Example ex_nested_accepted :
  wmembers_accepted [Nested 8 [Prim 1; Prim 4]; Prim 2; Nested 4 [Nested 2 [Prim 1; Prim 1]; Prim 2]] = true.
Proof. reflexivity. Qed.

Example ex_sizeof :
  penne_sizeof (TArr 3 (TStruct [TInt 4; TBool])) = 24 /\
  penne_sizeof (TArr 5 TBool) = 5 /\ penne_sizeof TPtr = 8 /\ penne_sizeof (TStruct []) = 0 /\
  penne_sizeof (TStruct [TPtr; TInt 8]) = 16.
Proof. vm_compute. repeat split; reflexivity. Qed.

Print Assumptions align_up_spec.
Print Assumptions word_size_agrees.
Print Assumptions nested_word_conservative.
Print Assumptions accepted_word_fits.
Print Assumptions sizeof_array.
Print Assumptions penne_sizeof_is_alloc_size.
Print Assumptions struct_size_monotone.
Print Assumptions struct_layout_facts.
Print Assumptions struct_offsets_well_placed.
Print Assumptions E380_iff.
