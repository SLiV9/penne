(* Proofs about Model/Escape.v: what the rebuilder prints for a string literal
   (and for an import path) lexes back, with the first-generation lexer of
   Model/LexAlpha.v, to ONE string-literal token carrying the same bytes.
   Character literals are printed as hexadecimal integers and come back as
   such; a seeded mutant of the lexer loses the apostrophe. *)
From Coq Require Import String.
From PV Require Import Base.Common Base.IR Base.Tok Model.LexAlpha Model.Escape Proofs.LexAlphaProofs.

Local Open Scope N_scope.

Fixpoint upto (n : nat) (s : N) : list N :=
  match n with O => [] | S k => s :: upto k (N.succ s) end.

Definition all_bytes : list N := upto 256 0.

Lemma In_upto n : forall s b, In b (upto n s) <-> s <= b < s + N.of_nat n.
Proof.
  induction n as [|n IH]; intros s b; cbn [upto In].
  - change (N.of_nat 0) with 0. lia.
  - rewrite IH, Nat2N.inj_succ. lia.
Qed.

Lemma all_bytes_lt b : In b all_bytes -> b < 256.
Proof. intros H. apply In_upto in H. change (N.of_nat 256) with 256 in H. lia. Qed.

Lemma forall_upto (P : N -> bool) n s :
  forallb P (upto n s) = true -> forall b, s <= b < s + N.of_nat n -> P b = true.
Proof. intros H b Hb. rewrite forallb_forall in H. now apply H, In_upto. Qed.

Example all_bytes_ok : length all_bytes = 256%nat /\ hd 1 all_bytes = 0 /\ last all_bytes 0 = 255.
Proof. vm_compute. repeat split; reflexivity. Qed.

Example escape_default_examples :
  map escape_default [0; 9; 10; 13; 31; 32; 34; 39; 92; 126; 127; 128; 255] =
  [str "\x00"; str "\t"; str "\n"; str "\r"; str "\x1f"; str " "; [92; 34]; str "\'"; str "\\";
   str "~"; str "\x7f"; str "\x80"; str "\xff"].
Proof. vm_compute. reflexivity. Qed.

Example rebuild_const_string_spelling :
  rebuild_const_string [] = str "const S: []char8 = " ++ [34; 34] ++ str ";" ++ [10] /\
  rebuild_import [] [97] = str "import " ++ [34; 97; 34] ++ str ";" ++ [10].
Proof. vm_compute. split; reflexivity. Qed.

Example empty_literal : lex_alpha (rebuild_string []) = [mk KStringLiteral 0%Z None [] 0 2 1 0].
Proof. vm_compute. reflexivity. Qed.

(* Two adjacent literals stay two tokens: the lexer does not merge them (the
   parser does, parser.rs parse_primary_expression, arm Token::StringLiteral). *)
Example adjacent_literals_not_merged :
  map pay (lex_alpha (rebuild_string [97] ++ rebuild_string [98])) =
  [(KStringLiteral, 0%Z, None, [97]); (KStringLiteral, 0%Z, None, [98])].
Proof. vm_compute. reflexivity. Qed.

Definition printable (c : N) : bool := in_range 32 126 c.

(* The item that escape_default prints for a byte.  LexAlphaProofs: an [sitem] is one unit of the
   contents of a quoted literal (a character standing for itself, backslash + character, \xHH,
   \u{..}); [render] is its spelling, [decode] the bytes it stands for, [item_ok q] whether the
   lexer accepts it between quotes [q]. *)
Definition item_of (b : N) : sitem :=
  if b =? 9 then ISimple 116 9
  else if b =? 13 then ISimple 114 13
  else if b =? 10 then ISimple 110 10
  else if b =? 92 then ISimple 92 92
  else if b =? 39 then ISimple 39 39
  else if b =? 34 then ISimple 34 34
  else if (32 <=? b) && (b <=? 126) then IChar b
  else IHex (hex_digit_lower (b / 16)) (hex_digit_lower (b mod 16)).

(* One row per byte; the 256 rows are checked by evaluation. *)
Definition byte_check (b : N) : bool :=
  let i := item_of b in let e := escape_default b in
  forallb printable e && str_eqb (render i) e && item_ok 34 i && item_ok 39 i && str_eqb (decode i) [b].

Lemma byte_check_all : forallb byte_check all_bytes = true.
Proof. vm_compute. reflexivity. Qed.

Lemma item_of_spec b : b < 256 ->
  forallb printable (escape_default b) = true /\
  render (item_of b) = escape_default b /\
  item_ok 34 (item_of b) = true /\ item_ok 39 (item_of b) = true /\
  decode (item_of b) = [b].
Proof.
  intros Hb. assert (H : byte_check b = true).
  { apply (forall_upto byte_check 256 0 byte_check_all). change (N.of_nat 256) with 256. lia. }
  unfold byte_check in H. cbv zeta in H. rewrite !andb_true_iff in H.
  destruct H as ((((H0 & H1) & H2) & H3) & H4).
  repeat split; try assumption; now apply str_eqb_eq.
Qed.

Lemma printable_range cs : forallb printable cs = true -> Forall (fun c => 32 <= c <= 126) cs.
Proof.
  intros H. apply Forall_forall. intros c Hc. apply in_range_spec.
  exact (proj1 (forallb_forall _ _) H c Hc).
Qed.

(* Every byte escape_default produces is in 0x20..0x7e, so the
   String::from_utf8_lossy of the rebuilder changes nothing. *)
Theorem escape_default_ascii : forall b, b < 256 -> Forall (fun c => 32 <= c <= 126) (escape_default b).
Proof. intros b Hb. apply printable_range, item_of_spec, Hb. Qed.

Theorem rebuild_string_ascii bs :
  Forall (fun b => b < 256) bs -> Forall (fun c => 32 <= c <= 126) (rebuild_string bs).
Proof.
  intros H. unfold rebuild_string, escape_bytes.
  constructor; [lia|]. apply Forall_app. split; [|repeat constructor; lia].
  apply Forall_flat_map. eapply Forall_impl; [|exact H]. apply escape_default_ascii.
Qed.

Definition nonl (c : N) : bool := negb (c =? 10) && negb (c =? 13).

Lemma ascii_nonl cs : Forall (fun c => 32 <= c <= 126) cs -> forallb nonl cs = true.
Proof.
  intros H. apply forallb_forall. intros c Hc. rewrite Forall_forall in H. specialize (H c Hc).
  unfold nonl. apply andb_true_iff. split; apply negb_true_iff, N.eqb_neq; lia.
Qed.

Lemma rebuild_string_nonl bs : Forall (fun b => b < 256) bs -> forallb nonl (rebuild_string bs) = true.
Proof. intros H. now apply ascii_nonl, rebuild_string_ascii. Qed.

Lemma len_rebuild_string bs : len (rebuild_string bs) = 2 + len (escape_bytes bs).
Proof. unfold rebuild_string. rewrite len_cons, len_app, len_cons, len_nil. lia. Qed.

Lemma items_of_spec bs : Forall (fun b => b < 256) bs ->
  renders (map item_of bs) = escape_bytes bs /\
  decodes (map item_of bs) = bs /\
  forallb (item_ok 34) (map item_of bs) = true.
Proof.
  intros H. induction H as [|b bs Hb _ (IH1 & IH2 & IH3)].
  - repeat split; reflexivity.
  - destruct (item_of_spec b Hb) as (_ & H1 & H2 & _ & H4).
    unfold renders, decodes, escape_bytes in *. cbn [map flat_map forallb].
    rewrite H1, H2, H4, IH1, IH2, IH3. repeat split; reflexivity.
Qed.

(* At the opening quote of a rebuilt literal, whatever follows the closing
   quote: one string token carrying the bytes, consuming exactly the literal.
   LexAlphaProofs.escape_decode: a double quote, the spellings of accepted items and a double
   quote lex to one string token carrying the bytes the items stand for.
   (lex_quote computes its own fuel, [length rest]; the equation holds for
   every length of [bs].) *)
Theorem rebuilt_string_step bs rest :
  Forall (fun b => b < 256) bs ->
  lex_step 34 (escape_bytes bs ++ 34 :: rest) =
  StTok KStringLiteral 0%Z None bs (len (rebuild_string bs)) rest.
Proof.
  intros H. destruct (items_of_spec bs H) as (H1 & H2 & H3).
  pose proof (escape_decode (map item_of bs) rest H3) as He.
  rewrite H1, H2 in He. rewrite He, len_rebuild_string. reflexivity.
Qed.

(* The same escaped bytes between apostrophes: a character literal exactly when
   there is one byte (LexAlphaProofs.escape_decode_char, the companion of escape_decode).
   (The rebuilder does not print this; it prints character literals as integers, see below.) *)
Theorem escaped_char_step b rest :
  b < 256 ->
  lex_step 39 (escape_default b ++ 39 :: rest) =
  StTok KCharLiteral (Z.of_N b) None [] (2 + len (escape_default b)) rest.
Proof.
  intros Hb. destruct (item_of_spec b Hb) as (_ & H1 & _ & H3 & H4).
  pose proof (escape_decode_char [item_of b] rest) as He.
  unfold renders, decodes in He. cbn [flat_map forallb] in He. rewrite !app_nil_r in He.
  rewrite H1, H3, H4 in He. apply He. reflexivity.
Qed.

(* The rebuilt literal as a whole source: one token, carrying the bytes,
   spanning the whole text on line 1; no further token. *)
Theorem rebuilt_string_lexes_back : forall bs, Forall (fun b => b < 256) bs ->
  lex_alpha (rebuild_string bs) =
  [mk KStringLiteral 0%Z None bs 0 (len (rebuild_string bs)) 1 0].
Proof.
  intros bs H. apply lex_alpha_one_token; [now apply no_nl_cr_spec, rebuild_string_nonl|].
  apply (rebuilt_string_step bs [] H).
Qed.

(* The same for the repaired lexer::lex (the rebuilt text has no CR). *)
Theorem rebuilt_string_lexes_back_fixed : forall bs, Forall (fun b => b < 256) bs ->
  lex_alpha_fixed (rebuild_string bs) =
  [mk KStringLiteral 0%Z None bs 0 (len (rebuild_string bs)) 1 0].
Proof.
  intros bs H. apply lex_alpha_one_token; [now apply no_nl_cr_spec, rebuild_string_nonl|].
  apply (rebuilt_string_step bs [] H).
Qed.

Example rebuilt_string_hyp_ok :
  Forall (fun b => b < 256) [0; 39; 34; 92; 200; 255] /\
  rebuild_string [0; 39; 34; 92; 200; 255] = 34 :: str "\x00\'\" ++ [34] ++ str "\\\xc8\xff" ++ [34].
Proof. split; [repeat constructor|vm_compute; reflexivity]. Qed.

Definition single_byte_round_trip (lexer : list N -> list tok) (b : N) : bool :=
  match lexer (rebuild_string [b]) with
  | [t] =>
      match kind t with
      | KStringLiteral =>
          str_eqb (bytes t) [b] && (tstart t =? 0) && (tend t =? len (rebuild_string [b]))
          && (line t =? 1) && (lstart t =? 0)
      | _ => false
      end
  | _ => false
  end.

Lemma single_byte_round_trip_intro lexer b :
  lexer (rebuild_string [b]) = [mk KStringLiteral 0%Z None [b] 0 (len (rebuild_string [b])) 1 0] ->
  single_byte_round_trip lexer b = true.
Proof.
  intros H. unfold single_byte_round_trip. rewrite H.
  cbn [mk kind bytes tstart tend line lstart str_eqb]. now rewrite !N.eqb_refl.
Qed.

Lemma all_bytes_Forall : Forall (fun b => b < 256) all_bytes.
Proof. apply Forall_forall. exact all_bytes_lt. Qed.

Example all_single_bytes_round_trip : forallb (single_byte_round_trip lex_alpha) all_bytes = true.
Proof.
  apply forallb_forall. intros b Hb. apply single_byte_round_trip_intro, rebuilt_string_lexes_back.
  constructor; [exact (all_bytes_lt b Hb)|constructor].
Qed.

Example all_single_bytes_round_trip_fixed :
  forallb (single_byte_round_trip lex_alpha_fixed) all_bytes = true.
Proof.
  apply forallb_forall. intros b Hb. apply single_byte_round_trip_intro, rebuilt_string_lexes_back_fixed.
  constructor; [exact (all_bytes_lt b Hb)|constructor].
Qed.

Example all_bytes_in_one_literal :
  lex_alpha (rebuild_string all_bytes) =
  [mk KStringLiteral 0%Z None all_bytes 0 (len (rebuild_string all_bytes)) 1 0].
Proof. apply rebuilt_string_lexes_back, all_bytes_Forall. Qed.

(* LexAlphaProofs: [toks ln sos lo cs] is [lex_line_fuel (length cs) ln sos lo cs]; [boundary a b] -
   when the line [a ++ b] is lexed, the scanner is between two tokens when it reaches [b];
   [boundary_line]: the tokens of [a] are then the same before every [b'] that is [quiet x b b'] -
   empty, or starting with a blank, with a slash (unless [x] is one) or with the character [b]
   starts with. *)
Lemma toks_rebuilt_string bs post ln sos lo : Forall (fun b => b < 256) bs ->
  toks ln sos lo (rebuild_string bs ++ post) =
  mk KStringLiteral 0%Z None bs sos (sos + len (rebuild_string bs)) ln lo
  :: toks ln (sos + len (rebuild_string bs)) (lo + len (rebuild_string bs)) post.
Proof.
  intros H. change (rebuild_string bs ++ post) with (34 :: (escape_bytes bs ++ [34]) ++ post).
  rewrite <- app_assoc. cbn [app]. now rewrite toks_cons, (rebuilt_string_step bs post H).
Qed.

(* A rebuilt literal at a token boundary of a line ([pre] followed by a double
   quote is lexed up to that quote: [boundary pre [34]]), followed by ANY text:
   the tokens before it are those of [pre] followed by an empty literal (so
   they do not depend on the bytes), then the literal token carrying [bs] at
   its exact position, then the tokens of [post] lexed on its own from the
   position behind the closing quote. *)
Theorem rebuilt_string_in_context pre off ln :
  boundary pre [34] ->
  forall bs post, Forall (fun b => b < 256) bs ->
  lex_line (pre ++ rebuild_string bs ++ post) off ln =
  removelast (lex_line (pre ++ [34; 34]) off ln)
  ++ mk KStringLiteral 0%Z None bs (off + len pre) (off + len pre + len (rebuild_string bs)) ln (len pre)
  :: lex_line_fuel (length post) ln (off + len pre + len (rebuild_string bs))
                   (len pre + len (rebuild_string bs)) post.
Proof.
  intros Hb bs post H. destruct (boundary_line pre [34] Hb ltac:(discriminate) ln off 0) as (T & HT).
  (* quiet: the same first character, the quote *)
  assert (Hq : forall cs x, quiet x [34] (34 :: cs)) by (intros cs x; right; right; right; now exists []).
  change (lex_line ?cs off ln) with (toks ln off 0 cs).
  rewrite (HT [34; 34] (Hq _)), (HT (rebuild_string bs ++ post) (Hq _)), (toks_rebuilt_string bs post _ _ _ H).
  change (toks ln ?a ?b [34; 34]) with [mk KStringLiteral 0%Z None [] a (a + 2) ln b].
  now rewrite removelast_last, N.add_0_l.
Qed.

Lemma rebuilt_line_nonl pre post bs :
  forallb nonl pre = true -> forallb nonl post = true -> Forall (fun b => b < 256) bs ->
  forallb nonl (pre ++ rebuild_string bs ++ post) = true.
Proof. intros Hpre Hpost H. now rewrite !forallb_app, Hpre, Hpost, rebuild_string_nonl. Qed.

Theorem rebuilt_string_in_line pre post bs :
  boundary pre [34] -> forallb nonl pre = true -> forallb nonl post = true ->
  Forall (fun b => b < 256) bs ->
  let n := len (rebuild_string bs) in
  lex_alpha (pre ++ rebuild_string bs ++ post) =
  removelast (lex_line (pre ++ [34; 34]) 0 1)
  ++ mk KStringLiteral 0%Z None bs (len pre) (len pre + n) 1 (len pre)
  :: lex_line_fuel (length post) 1 (len pre + n) (len pre + n) post.
Proof.
  intros Hb Hpre Hpost H n. rewrite lex_alpha_single_line.
  - rewrite (rebuilt_string_in_context pre 0 1 Hb bs post H). rewrite !N.add_0_l. reflexivity.
  - destruct pre; discriminate.
  - now apply rebuilt_line_nonl.
Qed.

Lemma lex_alpha_one_line_nl cs : forallb nonl cs = true -> lex_alpha (cs ++ [10]) = lex_line cs 0 1.
Proof.
  intros H. unfold lex_alpha. rewrite (lines_of_line cs [] H). cbn [lines_of lex_lines].
  destruct cs; cbn [app is_nil]; now rewrite !app_nil_r.
Qed.

Theorem rebuilt_string_in_line_nl pre post bs :
  boundary pre [34] -> forallb nonl pre = true -> forallb nonl post = true ->
  Forall (fun b => b < 256) bs ->
  let n := len (rebuild_string bs) in
  lex_alpha (pre ++ rebuild_string bs ++ post ++ [10]) =
  removelast (lex_line (pre ++ [34; 34]) 0 1)
  ++ mk KStringLiteral 0%Z None bs (len pre) (len pre + n) 1 (len pre)
  :: lex_line_fuel (length post) 1 (len pre + n) (len pre + n) post.
Proof.
  intros Hb Hpre Hpost H n.
  replace (pre ++ rebuild_string bs ++ post ++ [10]) with ((pre ++ rebuild_string bs ++ post) ++ [10])
    by now rewrite <- !app_assoc.
  rewrite lex_alpha_one_line_nl by now apply rebuilt_line_nonl.
  rewrite (rebuilt_string_in_context pre 0 1 Hb bs post H). rewrite !N.add_0_l. reflexivity.
Qed.

(* The statement lines the rebuilder prints: the literal, a semicolon, a newline. *)
Lemma rebuilt_string_statement pre bs :
  boundary pre [34] -> forallb nonl pre = true -> Forall (fun b => b < 256) bs ->
  let n := len (rebuild_string bs) in
  lex_alpha (pre ++ rebuild_string bs ++ [59; 10]) =
  removelast (lex_line (pre ++ [34; 34]) 0 1)
  ++ [mk KStringLiteral 0%Z None bs (len pre) (len pre + n) 1 (len pre);
      mk KSemicolon 0%Z None [] (len pre + n) (len pre + n + 1) 1 (len pre + n)].
Proof.
  intros Hb Hpre H. exact (rebuilt_string_in_line_nl pre [59] bs Hb Hpre eq_refl H).
Qed.

Definition const_prefix : list N := str "const S: []char8 = ".

Lemma const_prefix_boundary : boundary const_prefix [34].
Proof.
  unfold const_prefix.
  apply (Bd_tok 99 (str "onst") (str " S: []char8 = ") [34]); [reflexivity|].
  apply Bd_skip; [now left|].
  apply (Bd_tok 83 [] (str ": []char8 = ") [34]); [reflexivity|].
  apply (Bd_tok 58 [] (str " []char8 = ") [34]); [reflexivity|].
  apply Bd_skip; [now left|].
  apply (Bd_tok 91 [] (str "]char8 = ") [34]); [reflexivity|].
  apply (Bd_tok 93 [] (str "char8 = ") [34]); [reflexivity|].
  apply (Bd_tok 99 (str "har8") (str " = ") [34]); [reflexivity|].
  apply Bd_skip; [now left|].
  apply (Bd_tok 61 [] (str " ") [34]); [reflexivity|].
  apply Bd_skip; [now left|]. constructor.
Qed.

Theorem rebuilt_string_in_const bs : Forall (fun b => b < 256) bs ->
  let n := len (rebuild_string bs) in
  lex_alpha (rebuild_const_string bs) =
  [mk KConst 0%Z None [] 0 5 1 0;
   mk KIdentifier 0%Z None [] 6 7 1 6;
   mk KColon 0%Z None [] 7 8 1 7;
   mk KBracketLeft 0%Z None [] 9 10 1 9;
   mk KBracketRight 0%Z None [] 10 11 1 10;
   mk KType 0%Z (Some (TyPrim Char8)) [] 11 16 1 11;
   mk KAssignment 0%Z None [] 17 18 1 17;
   mk KStringLiteral 0%Z None bs 19 (19 + n) 1 19;
   mk KSemicolon 0%Z None [] (19 + n) (19 + n + 1) 1 (19 + n)].
Proof.
  intros H n.
  change (rebuild_const_string bs) with (const_prefix ++ rebuild_string bs ++ [59; 10]).
  rewrite (rebuilt_string_statement _ bs const_prefix_boundary eq_refl H).
  cbv zeta. fold n. clearbody n. vm_compute. reflexivity.
Qed.

Lemma import_prefix_boundary : boundary (str "import ") [34].
Proof.
  apply (Bd_tok 105 (str "mport") (str " ") [34]); [reflexivity|].
  apply Bd_skip; [now left|]. constructor.
Qed.

Theorem rebuilt_import_lexes_back path : Forall (fun b => b < 256) path ->
  let n := len (rebuild_string path) in
  lex_alpha (rebuild_import [] path) =
  [mk KImport 0%Z None [] 0 6 1 0;
   mk KStringLiteral 0%Z None path 7 (7 + n) 1 7;
   mk KSemicolon 0%Z None [] (7 + n) (7 + n + 1) 1 (7 + n)].
Proof.
  intros H n.
  change (rebuild_import [] path) with (str "import " ++ rebuild_string path ++ [59; 10]).
  rewrite (rebuilt_string_statement _ path import_prefix_boundary eq_refl H).
  cbv zeta. fold n. clearbody n. vm_compute. reflexivity.
Qed.

(* Character literals.  The rebuilder has no arm for them: the parser made a BitIntegerLiteral of
   type char8 out of the token, and every BitIntegerLiteral is printed with
   {:#x}.  So the text that comes back is a hexadecimal integer; it lexes to
   KBitInteger with the right value, NOT to KCharLiteral (and the parser then
   builds a BitIntegerLiteral without the char8 type). *)

Local Open Scope Z_scope.

Definition nibble_check (d : N) : bool :=
  (digit_val (hex_digit_lower d) =? Z.of_N d) && is_hex (hex_digit_lower d).

Lemma hex_digit_lower_spec d : (d < 16)%N ->
  digit_val (hex_digit_lower d) = Z.of_N d /\ is_hex (hex_digit_lower d) = true.
Proof.
  intros Hd. rewrite <- Z.eqb_eq. apply andb_true_iff.
  apply (forall_upto nibble_check 16 0); [vm_compute; reflexivity|]. change (N.of_nat 16) with 16%N. lia.
Qed.

Lemma lower_hex_fuel_S f v acc :
  lower_hex_fuel (S f) v acc =
  if (v / 16 =? 0)%N then hex_digit_lower (v mod 16) :: acc
  else lower_hex_fuel f (v / 16) (hex_digit_lower (v mod 16) :: acc).
Proof. reflexivity. Qed.

(* The loop puts the spellings of the base-16 digits [ds] of [v] in front of [acc]
   (LexAlphaProofs.horner: the value of a digit list, most significant digit first). *)
Lemma lower_hex_fuel_spec : forall f v acc, (v < 16 ^ N.of_nat (S f))%N ->
  exists ds, lower_hex_fuel (S f) v acc = map hex_digit_lower ds ++ acc /\ ds <> [] /\
    Forall (fun d => (d < 16)%N) ds /\ horner 16 ds 0 = v.
Proof.
  assert (Hone : forall v acc, (v / 16 = 0)%N ->
    exists ds, hex_digit_lower (v mod 16) :: acc = map hex_digit_lower ds ++ acc /\ ds <> [] /\
      Forall (fun d => (d < 16)%N) ds /\ horner 16 ds 0 = v).
  { intros v acc Hz. apply N.div_small_iff in Hz; [|lia]. rewrite (N.mod_small v 16 Hz).
    exists [v]. split; [reflexivity|]. split; [discriminate|]. split; [now constructor|reflexivity]. }
  induction f as [|f IH]; intros v acc Hv; rewrite lower_hex_fuel_S.
  - change (16 ^ N.of_nat 1)%N with 16%N in Hv.
    assert (Hz : (v / 16 = 0)%N) by (apply N.div_small; exact Hv).
    rewrite Hz. change (0 =? 0)%N with true. cbv iota. now apply Hone.
  - destruct (v / 16 =? 0)%N eqn:E; [apply N.eqb_eq in E; now apply Hone|].
    assert (Hq : (v / 16 < 16 ^ N.of_nat (S f))%N).
    { rewrite (Nat2N.inj_succ (S f)), N.pow_succ_r' in Hv. apply N.div_lt_upper_bound; [lia|exact Hv]. }
    destruct (IH (v / 16)%N (hex_digit_lower (v mod 16) :: acc) Hq) as (ds & Hds & Hne & Hall & Hval).
    exists (ds ++ [v mod 16]%N). rewrite Hds, map_app, <- app_assoc. split; [reflexivity|].
    split; [destruct ds; discriminate|]. split.
    + apply Forall_app. split; [exact Hall|]. constructor; [apply N.mod_lt; lia|constructor].
    + rewrite horner_app, Hval. cbn [horner fold_left]. rewrite N.mul_comm. symmetry. apply N.div_mod'.
Qed.

(* LexAlphaProofs.digit_chars: digits below the base, spelled by a function whose characters the
   digit class accepts with the right values, make a digit string without underscores whose
   value is [horner] of the digits. *)
Lemma lower_hex_spec v : (v < 2 ^ 128)%N ->
  lower_hex v <> [] /\ digits_us is_hex (lower_hex v) = true /\ strip_us (lower_hex v) = lower_hex v /\
  value_of_digits 16 (lower_hex v) = Z.of_N v.
Proof.
  intros Hv. destruct (lower_hex_fuel_spec 31 v [] Hv) as (ds & Hds & Hne & Hall & Hval).
  unfold lower_hex. rewrite Hds, app_nil_r, <- Hval.
  split; [destruct ds; [congruence|discriminate]|].
  exact (digit_chars is_hex hex_digit_lower 16 16 ds eq_refl eq_refl Hall hex_digit_lower_spec).
Qed.

Lemma len_rebuild_bit_integer v : len (rebuild_bit_integer v) = (2 + len (lower_hex v))%N.
Proof. unfold rebuild_bit_integer. rewrite !len_cons. lia. Qed.

(* What {:#x} prints for any u128 comes back as a bit integer of that value
   (followed by anything that does not continue an identifier).  LexAlphaProofs.hex_value: 0x,
   then hexadecimal digits and underscores ([digits_us]; [strip_us] drops the underscores) with a
   digit among them, before [stops rest] (the end of the line or a character that cannot continue
   an identifier), lex to a bit integer of the digits' value if that is below 2^128. *)
Theorem rebuilt_bit_integer_step v rest : (v < 2 ^ 128)%N -> stops rest ->
  lex_step 48 (120%N :: lower_hex v ++ rest) =
  StTok KBitInteger (Z.of_N v) None [] (len (rebuild_bit_integer v)) rest.
Proof.
  intros Hv Hr. destruct (lower_hex_spec v Hv) as (Hne & Hus & Hstrip & Hval).
  pose proof (hex_value (lower_hex v) rest Hus) as Hh. rewrite Hstrip in Hh.
  specialize (Hh Hne Hr). cbv zeta in Hh. rewrite Hval in Hh. rewrite Hh, len_rebuild_bit_integer.
  assert (Hlt : (Z.of_N v <? 2 ^ 128) = true).
  { apply Z.ltb_lt. change (2 ^ 128) with (Z.of_N (2 ^ 128)). now apply N2Z.inj_lt. }
  now rewrite Hlt.
Qed.

Theorem rebuilt_bit_integer_lexes_back v : (v < 2 ^ 128)%N ->
  lex_alpha (rebuild_bit_integer v) =
  [mk KBitInteger (Z.of_N v) None [] 0 (len (rebuild_bit_integer v)) 1 0].
Proof.
  intros Hv. destruct (lower_hex_spec v Hv) as (_ & Hhex & _ & _). apply lex_alpha_one_token.
  - apply no_nl_cr_spec. cbn [forallb]. exact (digits_no_nl is_hex _ eq_refl eq_refl Hhex).
  - rewrite <- (app_nil_r (lower_hex v)). now apply rebuilt_bit_integer_step.
Qed.

Theorem rebuilt_char_lexes_back b : (b < 256)%N ->
  lex_alpha (rebuild_char b) =
  [mk KBitInteger (Z.of_N b) None [] 0 (len (rebuild_char b)) 1 0].
Proof. intros Hb. apply rebuilt_bit_integer_lexes_back. lia. Qed.

(* It is never the character-literal token the original text lexed to: the
   kind of the literal is lost by rebuilding. *)
Theorem rebuilt_char_never_char_literal b : (b < 256)%N ->
  forall t, In t (lex_alpha (rebuild_char b)) -> kind t = KBitInteger /\ value t = Z.of_N b.
Proof.
  intros Hb t Hin. rewrite (rebuilt_char_lexes_back b Hb) in Hin.
  destruct Hin as [<-|[]]. split; reflexivity.
Qed.

Theorem rebuilt_char_lexes_back_refuted :
  exists b, (b < 256)%N /\
    lex_alpha [39%N; b; 39%N] = [mk KCharLiteral (Z.of_N b) None [] 0 3 1 0] /\
    map kind (lex_alpha (rebuild_char b)) <> [KCharLiteral].
Proof.
  exists 65%N. split; [lia|]. split; [vm_compute; reflexivity|]. vm_compute. discriminate.
Qed.

Example rebuild_char_examples :
  map rebuild_char [0; 10; 39; 65; 255]%N = [str "0x0"; str "0xa"; str "0x27"; str "0x41"; str "0xff"].
Proof. vm_compute. reflexivity. Qed.

Example all_chars_come_back_as_integers :
  forallb (fun b => match lex_alpha (rebuild_char b) with
                    | [t] => match kind t with KBitInteger => (value t =? Z.of_N b) | _ => false end
                    | _ => false
                    end) all_bytes = true.
Proof.
  apply forallb_forall. intros b Hb. cbv beta. rewrite (rebuilt_char_lexes_back b (all_bytes_lt b Hb)).
  apply Z.eqb_refl.
Qed.

(* Printing the escaped byte between apostrophes instead WOULD come back as
   the character literal, for every byte: *)
Lemma escaped_char_lexes_back b : (b < 256)%N ->
  lex_alpha (39%N :: escape_default b ++ [39%N]) =
  [mk KCharLiteral (Z.of_N b) None [] 0 (2 + len (escape_default b)) 1 0].
Proof.
  intros Hb. apply lex_alpha_one_token; [|now apply escaped_char_step].
  apply no_nl_cr_spec. fold nonl. cbn [forallb]. rewrite forallb_app, (ascii_nonl _ (escape_default_ascii b Hb)). reflexivity.
Qed.

Example all_escaped_chars_round_trip :
  forallb (fun b => match lex_alpha (39%N :: escape_default b ++ [39%N]) with
                    | [t] => match kind t with KCharLiteral => (value t =? Z.of_N b) | _ => false end
                    | _ => false
                    end) all_bytes = true.
Proof.
  apply forallb_forall. intros b Hb. cbv beta. rewrite (escaped_char_lexes_back b (all_bytes_lt b Hb)).
  apply Z.eqb_refl.
Qed.

Local Close Scope Z_scope.

(* The seeded mutant: backslash-quote accepted only for the quote that
   opened the literal.  escape_default escapes BOTH quotes in every literal,
   so under the mutant the apostrophe inside a string does not come back. *)

Theorem mutant_breaks_apostrophe :
  rebuild_string [39] = [34; 92; 39; 34] /\
  lex_alpha (rebuild_string [39]) = [mk KStringLiteral 0%Z None [39] 0 4 1 0] /\
  lex_alpha_mutant (rebuild_string [39]) = [mk KError E162 None [] 1 3 1 2].
Proof. vm_compute. repeat split; reflexivity. Qed.

Theorem mutant_round_trip_refuted :
  exists bs, Forall (fun b => b < 256) bs /\
    lex_alpha_mutant (rebuild_string bs) <>
    [mk KStringLiteral 0%Z None bs 0 (len (rebuild_string bs)) 1 0].
Proof.
  exists [39]. split; [repeat constructor|]. intros H. apply (f_equal (map kind)) in H.
  vm_compute in H. discriminate.
Qed.

Example mutant_breaks_only_apostrophe :
  filter (fun b => negb (single_byte_round_trip lex_alpha_mutant b)) all_bytes = [39].
Proof. vm_compute. reflexivity. Qed.

Example mutant_breaks_only_double_quote_in_chars :
  filter (fun b => negb match lex_alpha_mutant (39 :: escape_default b ++ [39]) with
                        | [t] => match kind t with KCharLiteral => (value t =? Z.of_N b)%Z | _ => false end
                        | _ => false
                        end) all_bytes = [34].
Proof. vm_compute. reflexivity. Qed.

Example mutant_agrees_elsewhere :
  lex_alpha_mutant (rebuild_const_string [97; 34; 0; 200]) = lex_alpha (rebuild_const_string [97; 34; 0; 200]) /\
  lex_alpha_mutant (str "x = 'a' + '\'' + f(""a\""b"", 0x1f); // c") =
  lex_alpha (str "x = 'a' + '\'' + f(""a\""b"", 0x1f); // c").
Proof. vm_compute. split; reflexivity. Qed.

Print Assumptions escape_default_ascii.
Print Assumptions rebuild_string_ascii.
Print Assumptions rebuilt_string_step.
Print Assumptions escaped_char_step.
Print Assumptions rebuilt_string_lexes_back.
Print Assumptions rebuilt_string_lexes_back_fixed.
Print Assumptions rebuilt_string_in_context.
Print Assumptions rebuilt_string_in_line.
Print Assumptions rebuilt_string_in_line_nl.
Print Assumptions rebuilt_string_in_const.
Print Assumptions rebuilt_import_lexes_back.
Print Assumptions rebuilt_bit_integer_step.
Print Assumptions rebuilt_bit_integer_lexes_back.
Print Assumptions rebuilt_char_lexes_back.
Print Assumptions rebuilt_char_never_char_literal.
Print Assumptions rebuilt_char_lexes_back_refuted.
Print Assumptions mutant_breaks_apostrophe.
Print Assumptions mutant_round_trip_refuted.
