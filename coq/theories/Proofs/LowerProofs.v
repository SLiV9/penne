(* The instructions the generator selects (Gen/LowerTables.v) compute, on bit
   patterns, what the source semantics (Model/Lower.v) prescribes.  Each fact is
   proved for any width.  The generated tables enter only through
   what they select and through evaluations over the finite lists of types. *)
From Coq Require Import ZArith Lia Bool.
From PV Require Import Base.Common Base.IR Base.Bits Model.Lower Proofs.LiteralProofs.
Open Scope Z_scope.

(* among the values of one signedness the pattern tells the value *)
Lemma repr_eqb s w x y : 0 < w -> in_range s w x -> in_range s w y -> (repr w x =? repr w y) = (x =? y).
Proof.
  intros Hw Hx Hy. destruct (Z.eqb_spec x y) as [->|N]; [apply Z.eqb_refl|].
  apply Z.eqb_neq. intros E. apply N.
  rewrite <- (value_of_repr s w x Hw Hx), <- (value_of_repr s w y Hw Hy). now rewrite E.
Qed.

Lemma repr_eqb_zero_s w y : 0 < w -> in_s w y -> (repr w y =? 0) = (y =? 0).
Proof.
  intros Hw Hy. apply (repr_eqb true w y 0 Hw Hy).
  pose proof (Z.pow_pos_nonneg 2 (w - 1) ltac:(lia) ltac:(lia)). cbn [in_range]. unfold in_s. lia.
Qed.

(* signed division and remainder: the undefined cases are the same (the signed reading of a pattern is the
   value, the pattern is zero where the value is), then the operation on the signed readings *)
Lemma L_sdivrem op w x y v : op = Divide \/ op = Modulo -> 0 < w -> in_s w x -> in_s w y ->
  src_binop op true w x y = Some v ->
  ir_binop (select_binop op true) w (repr w x) (repr w y) = Some (repr w v).
Proof.
  intros [-> | ->] Hw Hx Hy; cbn [select_binop src_binop ir_binop]; unfold div_ub; cbn [andb];
    rewrite !sgn_repr, repr_eqb_zero_s by assumption;
    (destruct (_ || _); [discriminate|]); now intros [= <-].
Qed.

Lemma div_ub_unsigned w x y : div_ub false w x y = (y =? 0).
Proof. unfold div_ub. cbn. now rewrite orb_false_r. Qed.

(* unsigned operands are their own patterns *)
Lemma L_unsigned i w x y : in_u w x -> in_u w y -> ir_binop i w (repr w x) (repr w y) = ir_binop i w x y.
Proof. intros Hx Hy. now rewrite (repr_small w x Hx), (repr_small w y Hy). Qed.

Lemma div_in_u w x y : in_u w x -> 0 < y -> in_u w (x / y).
Proof.
  intros [Hx0 Hx] Hy. split; [apply Z.div_pos; lia|].
  apply Z.le_lt_trans with x; [|lia]. apply Z.div_le_upper_bound; nia.
Qed.

Lemma L_udiv w x y v : in_u w x -> in_u w y ->
  src_binop Divide false w x y = Some v ->
  ir_binop IUDiv w (repr w x) (repr w y) = Some (repr w v).
Proof.
  intros Hx Hy. rewrite L_unsigned by assumption. cbn [src_binop ir_binop]. rewrite div_ub_unsigned.
  destruct (Z.eqb_spec y 0); [discriminate|]. intros [= <-].
  rewrite Z.quot_div_nonneg by (destruct Hx, Hy; lia). f_equal. symmetry.
  apply repr_small, div_in_u; [assumption | destruct Hy; lia].
Qed.

Lemma L_urem w x y v : in_u w x -> in_u w y ->
  src_binop Modulo false w x y = Some v ->
  ir_binop IURem w (repr w x) (repr w y) = Some (repr w v).
Proof.
  intros Hx Hy. rewrite L_unsigned by assumption. cbn [src_binop ir_binop]. rewrite div_ub_unsigned.
  destruct (Z.eqb_spec y 0); [discriminate|]. intros [= <-].
  destruct Hx, Hy. rewrite Z.rem_mod_nonneg by lia. f_equal. symmetry. apply repr_small.
  pose proof (Z.mod_pos_bound x y ltac:(lia)). split; lia.
Qed.

Lemma L_shl w x y v : 0 < w -> in_u w x -> in_u w y ->
  src_binop ShiftLeft false w x y = Some v ->
  ir_binop IShl w (repr w x) (repr w y) = Some (repr w v).
Proof.
  intros Hw Hx Hy. rewrite L_unsigned by assumption. cbn [src_binop ir_binop].
  destruct (y <? w); [|discriminate]. intros [= <-]. f_equal.
  (* the source semantics writes [repr w] out *) symmetry. apply repr_repr. lia.
Qed.

Lemma L_lshr w x y v : in_u w x -> in_u w y ->
  src_binop ShiftRight false w x y = Some v ->
  ir_binop ILShr w (repr w x) (repr w y) = Some (repr w v).
Proof.
  intros Hx Hy. rewrite L_unsigned by assumption. cbn [src_binop ir_binop].
  destruct (y <? w); [|discriminate]. intros [= <-]. f_equal. symmetry.
  apply repr_small, div_in_u; [assumption | apply Z.pow_pos_nonneg; [lia | apply Hy]].
Qed.

Definition bit_operator (op : binop) : bool :=
  match op with BitwiseAnd | BitwiseOr | BitwiseXor | ShiftLeft | ShiftRight => true | _ => false end.

(* every operator at any width and signedness, the bit operators on unsigned operands *)
Theorem binop_lowering_width s w op x y v : 0 < w -> in_range s w x -> in_range s w y ->
  (bit_operator op = true -> s = false) ->
  src_binop op s w x y = Some v ->
  ir_binop (select_binop op s) w (repr w x) (repr w y) = Some (repr w v).
Proof.
  intros Hw Hx Hy Hbit Hs.
  (* [Hbit eq_refl] is well typed exactly where [bit_operator op] computes to [true]: for the five
     bit operators the operands become unsigned, for the others the [try] does nothing *)
  destruct op; cbn [select_binop]; try (rewrite (Hbit eq_refl) in *; cbn [in_range] in Hx, Hy).
  - (* Add, Subtract, Multiply: wrapping *)
    injection Hs as <-. cbn. now rewrite repr_wrap, repr_add by lia.
  - injection Hs as <-. cbn. now rewrite repr_wrap, repr_sub by lia.
  - injection Hs as <-. cbn. now rewrite repr_wrap, repr_mul by lia.
  - (* Divide, Modulo *)
    destruct s; [apply (L_sdivrem Divide); auto | now apply L_udiv].
  - destruct s; [apply (L_sdivrem Modulo); auto | now apply L_urem].
  - (* BitwiseAnd, BitwiseOr, BitwiseXor *)
    injection Hs as <-. now apply L_unsigned.
  - injection Hs as <-. now apply L_unsigned.
  - injection Hs as <-. now apply L_unsigned.
  - (* ShiftLeft, ShiftRight *)
    now apply L_shl.
  - now apply L_lshr.
  - (* AdvancePointer is no integer operation *)
    discriminate Hs.
Qed.

Lemma L_neg s w x : 0 < w -> ir_unop INeg w (repr w x) = Some (repr w (wrap s w (- x))).
Proof. intros. cbn. now rewrite repr_wrap, repr_opp by lia. Qed.

Lemma L_not w x : in_u w x -> ir_unop INot w (repr w x) = Some (repr w (2 ^ w - 1 - x)).
Proof. intros H. cbn [ir_unop]. now rewrite (repr_small w x H). Qed.

Lemma L_icmp s w op x y : 0 < w -> in_range s w x -> in_range s w y ->
  ir_icmp (select_icmp op s) w (repr w x) (repr w y) = src_cmp op x y.
Proof.
  intros Hw Hx Hy.
  pose proof (repr_eqb s w x y Hw Hx Hy) as E.
  destruct s; cbn in Hx, Hy.
  - destruct op; cbn [select_icmp ir_icmp src_cmp]; rewrite ?E, ?sgn_repr by assumption; reflexivity.
  - destruct op; cbn [select_icmp ir_icmp src_cmp]; rewrite ?E, ?repr_small by assumption; reflexivity.
Qed.

(* when a cast maps the pattern of a value of the given signedness at width ws to its pattern at width wd *)
Definition cast_sound (c : cast) (s_signed : bool) (ws wd : Z) : bool :=
  match c with
  | CTrunc => wd <=? ws
  | CSExt => s_signed
  | CZExt => negb s_signed && (ws <=? wd)
  | CNone => ws =? wd
  end.

Lemma cast_sound_correct c sg ws wd x : cast_sound c sg ws wd = true ->
  0 < ws -> 0 <= wd -> in_range sg ws x -> ir_cast c ws wd (repr ws x) = repr wd x.
Proof.
  intros Hc Hws Hwd Hx. destruct c; cbn [cast_sound] in Hc.
  - apply Z.leb_le in Hc. apply cast_trunc. lia.
  - subst sg. now apply cast_sext.
  - apply andb_true_iff in Hc as [S L]. apply negb_true_iff in S. subst sg.
    apply Z.leb_le in L. apply cast_zext; [lia | assumption].
  - apply Z.eqb_eq in Hc. now subst wd.
Qed.

(* A class of operand types without a signed type.  That the generated class of each bit operator and
   of the complement is one is an evaluation of the table: the [eq_refl] given to [unsigned_class] in
   binop_lowering_correct and unop_lowering_correct. *)
Definition all_unsigned (l : list operand_type) : bool :=
  forallb (fun o => match o with OPrim t => negb (signed t) | OPointer => true end) l.

Lemma unsigned_class l t : mem_operand (OPrim t) l = true -> all_unsigned l = true -> signed t = false.
Proof.
  unfold all_unsigned, mem_operand. rewrite forallb_forall, existsb_exists. intros (o & Hin & E) A.
  specialize (A o Hin). destruct o as [t'|]; [|discriminate E].
  apply prim_eqb_eq in E. subst t'. now apply negb_true_iff.
Qed.

Section Tables.
Variable usize_bits : Z.
Hypothesis usize_ok : usize_bits = 32 \/ usize_bits = 64.

Notation bits := (bits usize_bits).
Notation type_range := (type_range usize_bits).

Lemma bits_pos t : 0 < bits t.
Proof. unfold Lower.bits. destruct t, usize_ok; cbn; lia. Qed.

Theorem binop_lowering_correct : forall op t x y v,
  mem_operand (OPrim t) (binop_valid_types op) = true ->
  type_range t x -> type_range t y ->
  src_binop op (signed t) (bits t) x y = Some v ->
  ir_binop (select_binop op (signed t)) (bits t) (repr (bits t) x) (repr (bits t) y)
  = Some (repr (bits t) v).
Proof.
  intros op t x y v Hc Hx Hy. apply binop_lowering_width; auto using bits_pos.
  destruct op; try discriminate; intros _; exact (unsigned_class _ t Hc eq_refl).
Qed.

Theorem unop_lowering_correct : forall op t x v,
  mem_operand (OPrim t) (unop_valid_types op) = true ->
  type_range t x ->
  src_unop op (signed t) (bits t) x = Some v ->
  ir_unop (select_unop op (signed t)) (bits t) (repr (bits t) x) = Some (repr (bits t) v).
Proof.
  intros op t x v Hc Hx Hs. pose proof (bits_pos t) as Hw.
  unfold Lower.type_range in Hx.
  destruct op; cbn [select_unop]; cbn in Hs; injection Hs as <-.
  - now apply L_neg.
  - rewrite (unsigned_class _ t Hc eq_refl) in Hx. now apply L_not.
Qed.

Theorem icmp_lowering_correct : forall op t x y,
  type_range t x -> type_range t y ->
  ir_icmp (select_icmp op (signed t)) (bits t) (repr (bits t) x) (repr (bits t) y)
  = src_cmp op x y.
Proof. intros. apply L_icmp; auto using bits_pos. Qed.

(* Casts: every conversion the resolver admits is lowered, and the selected
   cast maps the bit pattern of x (in the source type) to the bit pattern of
   `x as D`. Bool is the 1-bit unsigned type; char8 the 8-bit one. *)
Theorem cast_lowering_correct : forall s d x,
  is_valid_primitive_conversion s d (vt_is_integral s) (vt_is_integral d) = true ->
  type_range s x ->
  exists c,
    select_cast s d (vt_is_integral s) (vt_is_integral d) (signed s) (bits s) (bits d) = Some c /\
    ir_cast c (bits s) (bits d) (repr (bits s) x) = repr (bits d) (src_cast (signed d) (bits d) x).
Proof.
  intros s d x Hv Hx. unfold src_cast. rewrite repr_wrap by apply bits_pos.
  (* every admitted pair of types selects a cast that is sound for their widths: the whole table *)
  assert (T : forallb (fun s => forallb (fun d =>
      implb (is_valid_primitive_conversion s d (vt_is_integral s) (vt_is_integral d))
        match select_cast s d (vt_is_integral s) (vt_is_integral d) (signed s) (bits s) (bits d) with
        | Some c => cast_sound c (signed s) (bits s) (bits d)
        | None => false
        end) all_prims) all_prims = true)
    by (unfold Lower.bits; destruct usize_ok as [U|U]; rewrite U; vm_compute; reflexivity).
  rewrite forallb_forall in T. specialize (T s (all_prims_complete s)).
  rewrite forallb_forall in T. specialize (T d (all_prims_complete d)).
  rewrite Hv in T. cbn [implb] in T.
  destruct (select_cast _ _ _ _ _ _ _) as [c|]; [|discriminate T].
  exists c. split; [reflexivity|].
  pose proof (bits_pos d). apply cast_sound_correct with (sg := signed s); auto using bits_pos. lia.
Qed.

(* The linter's ranges (value_type.rs min_i128 / max_u128) are exactly the
   ranges of the LLVM integer types the generator uses, on a 64-bit target; bool
   apart, whose linter range is 0..0 and whose LLVM type is i1. *)
Theorem ranges_agree_with_widths : forall t x, t <> Bool -> usize_bits = 64 ->
  (vt_min t <= x <= vt_max t) <-> type_range t x.
Proof.
  intros t x Hb U. unfold Lower.type_range, Lower.bits, Lower.signed. rewrite U, <- lint_max_64.
  destruct (lint_range_is_width 64 t (or_intror eq_refl) Hb) as [Hw R].
  pose proof (modulus_half (vt_bits 64 t) ltac:(lia)) as Hh. unfold modulus in Hh.
  unfold in_range, in_s, in_u. destruct (vt_is_signed t); destruct R as [-> ->]; lia.
Qed.
End Tables.

(* What a wrong table would look like: udiv chosen for a signed type. *)
Lemma udiv_for_signed_refuted :
  exists x y v, in_s 8 x /\ in_s 8 y /\ src_binop Divide true 8 x y = Some v /\
    ir_binop IUDiv 8 (repr 8 x) (repr 8 y) <> Some (repr 8 v).
Proof. exists (-6), 2, (-3). unfold in_s. repeat split; try lia. vm_compute. discriminate. Qed.
