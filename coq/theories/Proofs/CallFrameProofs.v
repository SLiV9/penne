(* Proofs about Model/CallFrame.v (property C08): what the mutability gate
   (Model/Mutability.v) guarantees about MEMORY.

   [safe] is the invariant: the objects a frame gives access to are typed by a
   shadow typing K of memory and confined to an address set A, and so is,
   transitively, everything their pointer cells point to.  [safe_mono] says which
   changes of memory preserve it, and both kinds of store are such changes.
   [walk_ok] follows a reference chain, one [step_ok] at a time, from a confined
   binding to a confined object that may be written iff the binding is mutable or
   the chain crosses a pointer -- which is what the gate asks at an assignment
   target and at `&src`: the sites of an accepted statement are permitted
   ([MutabilityProofs.stmt_walk], [gated_ref_writable]).  Hence
   [callee_writes_confined]: an accepted body whose execution is defined changes
   nothing outside A.

   The property as worded ("only through pointer parameters") is false of the
   compiler: a pointer stored in a structure passed as a view, or in an array
   passed as []&T, can be written through ([pointer_params_only_refuted]; the
   real compiler exits with code 5 on the program quoted there).  [frame_safe]
   therefore asks the pointers stored in view targets to point into A as well,
   and [untyped_memory_refuted] is a frame over memory that no K types (an integer
   and a pointer in one cell) whose accepted body writes outside even that region.
   Frames whose visible objects hold no pointer cells need no hypothesis on memory
   ([flat_frame_confined], [no_pointer_parameter_no_effect]). *)
From PV Require Import Base.Common Model.Layout Proofs.LayoutProofs Model.MemLower
  Proofs.MemLowerProofs Model.CallFrame.
From PV Require Model.Mutability Proofs.MutabilityProofs.
Open Scope Z_scope.

(* A shadow typing of memory: every byte is a data byte, or byte j of a cell
   holding a pointer to a [u].  It forbids what a well-typed caller cannot build:
   an integer and a pointer (or pointers of different pointee types) at the same
   address. *)
Inductive ktag : Type :=
| KData
| KPtr (u : lt) (j : Z).

Definition bytes_ok (A : Z -> Prop) (K : Z -> ktag) (w : bool) (a n : Z) : Prop :=
  forall j, 0 <= j < n -> K (a + j) = KData /\ (w = true -> A (a + j)).

(* [safe m A K w T a]: the object of type T at a is typed by K; if [w] its bytes
   lie in A; every pointer cell in it that holds a value points to an object that
   is typed by K, LIES IN A, and so on, transitively.  (Recursion on the type: a
   pointee type is a subterm.) *)
Fixpoint safe (m : mem) (A : Z -> Prop) (K : Z -> ktag) (w : bool) (T : lt) (a : Z)
  {struct T} : Prop :=
  match T with
  | LInt b => bytes_ok A K w a (lsize (LInt b))
  | LBool => bytes_ok A K w a (lsize LBool)
  | LPtr u =>
      (forall j, 0 <= j < 8 -> K (a + j) = KPtr u j /\ (w = true -> A (a + j)))
      /\ (forall z, load_scalar m a 8 = Some z -> safe m A K true u z)
  | LArr n e => forall i, 0 <= i < n -> safe m A K w e (a + i * lsize e)
  | LStruct ms =>
      (fix go (l : list lt) (offs : list Z) : Prop :=
         match l, offs with
         | x :: r, off :: offs' => safe m A K w x (a + off) /\ go r offs'
         | _, _ => True
         end) ms (struct_offsets (erase_list ms))
  end.

Lemma safe_struct m A K w ms a :
  safe m A K w (LStruct ms) a <->
  forall k x off, nth_error ms k = Some x ->
    nth_error (struct_offsets (erase_list ms)) k = Some off -> safe m A K w x (a + off).
Proof.
  cbn [safe]. generalize (struct_offsets (erase_list ms)) as offs.
  induction ms as [|x r IH]; intros offs.
  - split; [intros _ [|k] ? ? Hk; discriminate|intros _; exact I].
  - destruct offs as [|o offs'].
    + split; [intros _ [|k] ? ? _ Ho; discriminate|intros _; exact I].
    + rewrite IH. split.
      * intros [H0 Hr] [|k] y off Hk Ho; cbn [nth_error] in Hk, Ho.
        -- injection Hk as <-. injection Ho as <-. exact H0.
        -- exact (Hr k y off Hk Ho).
      * intros H. split; [exact (H O x o eq_refl eq_refl)|]. intros k. exact (H (S k)).
Qed.

(* [safe] survives a change of memory after which every pointer cell holds what it
   held, or a pointer to a confined object; and writable implies readable. *)
Lemma safe_mono m m' A K :
  (forall u a z, (forall j, 0 <= j < 8 -> K (a + j) = KPtr u j) ->
     load_scalar m' a 8 = Some z -> load_scalar m a 8 = Some z \/ safe m A K true u z) ->
  forall T w w' a, (w' = true -> w = true) -> safe m A K w T a -> safe m' A K w' T a.
Proof.
  intros Hm.
  induction T as [b| |u IHu|n e IHe|ms IHms] using lt_ind2; intros w w' a Hw H.
  1-2: intros j Hj; destruct (H j Hj); auto.
  - cbn [safe] in *. destruct H as [H1 H2]. split.
    + intros j Hj. destruct (H1 j Hj). auto.
    + intros z Hz. apply (IHu true true); [auto|].
      destruct (Hm u a z (fun j Hj => proj1 (H1 j Hj)) Hz); auto.
  - cbn [safe] in *. intros i Hi. apply (IHe w w'); auto.
  - rewrite safe_struct in *. rewrite Forall_forall in IHms. intros k x off Hk Ho.
    apply (IHms x (nth_error_In _ _ Hk) w w'); eauto.
Qed.

Lemma safe_weaken m A K T w a : safe m A K true T a -> safe m A K w T a.
Proof. apply safe_mono; auto. Qed.

Lemma safe_ext m m' A K :
  (forall x, K x <> KData -> m' x = m x) ->
  forall T w a, safe m A K w T a -> safe m' A K w T a.
Proof.
  intros Hext T w a. apply safe_mono; [|auto]. intros u c z Hc Hz. left.
  rewrite <- Hz. symmetry. apply load_scalar_ext; [lia|]. intros j Hj.
  apply Hext. rewrite (Hc j Hj). discriminate.
Qed.

(* Storing a confined pointer into a pointer cell of the right pointee type
   preserves the invariant: by K, a pointer cell that overlaps the cell at c is the
   cell at c. *)
Lemma safe_ptr_store m A K c u z :
  (forall j, 0 <= j < 8 -> K (c + j) = KPtr u j) ->
  safe m A K true u z ->
  forall T w a, safe m A K w T a -> safe (store m c TPtr (VS z)) A K w T a.
Proof.
  intros Hc Hz T w a. apply safe_mono; [|auto]. intros u1 a1 z1 Ha Hz1.
  destruct (Z.eq_dec a1 c) as [->|Hne].
  - right. rewrite load_scalar_store_ptr in Hz1. injection Hz1 as <-.
    pose proof (Ha 0 ltac:(lia)) as Hk. rewrite (Hc 0 ltac:(lia)) in Hk.
    injection Hk as <-. exact Hz.
  - left. rewrite <- Hz1. symmetry. apply load_scalar_ext; [lia|]. intros j Hj.
    apply (store_outside (fun x => K x = KPtr u (x - c))).
    + intros i Hi. rewrite (Hc i Hi). f_equal. lia.
    + rewrite (Ha j Hj). intros [= _ Hi]. lia.
Qed.

Definition with_len (slen : option Z) (T : lt) : lt :=
  match slen, T with
  | Some len, LArr _ e => LArr len e
  | _, _ => T
  end.

(* The location l (with the slice length known right after an Autodeslice) holds a
   value of Penne type t, confined; [w]: the object may be written. *)
Definition loc_ok (m : mem) (A : Z -> Prop) (K : Z -> ktag) (w : bool) (l : loc)
  (slen : option Z) (t : pty) : Prop :=
  match l with
  | LocMem a T => T = gen t /\ safe m A K w (with_len slen T) a
  | LocPtr z U =>
      match t with
      | PPtr u => U = gen u /\ safe m A K true U z
      | PView u => U = gen u /\ safe m A K w U z
      | _ => False
      end
  | LocSlice p len E =>
      match t with
      | PSlicePtr e => E = gen e /\ safe m A K true (LArr len E) p
      | PSlice e => E = gen e /\ safe m A K w (LArr len E) p
      | _ => False
      end
  end.

Lemma loc_ok_mono m m' A K :
  (forall T w a, safe m A K w T a -> safe m' A K w T a) ->
  forall w l slen t, loc_ok m A K w l slen t -> loc_ok m' A K w l slen t.
Proof.
  intros Hs w l slen t H.
  destruct l as [a T|z U|p len E], t; cbn [loc_ok] in *; try exact H;
    (split; [apply H|apply Hs, H]).
Qed.

Lemma gen_struct ms : gen (PStruct ms) = LStruct (map gen ms).
Proof. reflexivity. Qed.

Lemma with_len_struct slen ms : with_len slen (LStruct ms) = LStruct ms.
Proof. now destruct slen. Qed.

Lemma with_len_ptr slen u : with_len slen (LPtr u) = LPtr u.
Proof. now destruct slen. Qed.

Definition mut_step (t : pty) (s : rstep) : option (Mutability.rstep * pty) :=
  match s, t with
  | RElem _ false, PArr _ e => Some (Mutability.Element Mutability.ELeaf, e)
  | RMember k, PStruct ms =>
      match nth_error ms k with
      | Some mk => Some (Mutability.Member (N.of_nat k), mk)
      | None => None
      end
  | RAutoderef, PPtr u => Some (Mutability.Autoderef, u)
  | RAutoview, PView u => Some (Mutability.Autoview, u)
  | RDeslice0, PSlice e => Some (Mutability.AutodesliceByView, PArr 0 e)
  | RDeslice0, PSlicePtr e => Some (Mutability.AutodesliceByPointer, PArr 0 e)
  | _, _ => None
  end.

Lemma mut_chain_cons t s rest :
  mut_chain t (s :: rest) =
  match mut_step t s with
  | Some (st, t1) => cons_step st (mut_chain t1 rest)
  | None => None
  end.
Proof.
  destruct s as [i [|]|k| | | |], t; try reflexivity.
  cbn [mut_chain mut_step]. now destruct (nth_error ms k).
Qed.

(* A slice length is only known for the arraylike [PArr 0 e] right after an
   Autodeslice. *)
Lemma step_ok m A K s t st t1 l slen w l1 :
  mut_step t s = Some (st, t1) ->
  loc_ok m A K w l slen t ->
  step_defined l slen s = true ->
  sem_step m l s = Some l1 ->
  loc_ok m A K (w || Mutability.is_pointer_step st) l1 (next_slen l s) t1 /\
  (next_slen l s = None \/ exists e, t1 = PArr 0 e).
Proof.
  intros Hst Hl Hdef Hstep.
  (* the steps that fit the type *)
  destruct s as [i [|]|k| | | |], t; try discriminate; cbn [mut_step] in Hst.
  2: destruct (nth_error ms k) as [mk|] eqn:Hmk; [|discriminate].
  all: injection Hst as <- <-; cbn [Mutability.is_pointer_step];
    rewrite ?orb_true_r, ?orb_false_r.
  (* the locations that hold a value of the type *)
  all: destruct l as [a T|z U|p len E]; cbn [loc_ok] in Hl; try contradiction;
    destruct Hl as [-> Hsafe]; rewrite ?gen_struct in *;
    cbn [gen sem_step next_slen] in *; try discriminate.
  - (* Element *)
    injection Hstep as <-. cbn [step_defined] in Hdef.
    apply andb_true_iff in Hdef as [Hlo%Z.leb_le Hhi%Z.ltb_lt].
    split; [split; [reflexivity|]|now left].
    destruct slen; cbn [with_len safe] in *; apply Hsafe; lia.
  - (* Member *)
    rewrite (map_nth_error gen k ms Hmk) in Hstep.
    destruct (nth_error (struct_offsets (erase_list (map gen ms))) k) as [off|] eqn:Hoff;
      [|discriminate].
    injection Hstep as <-. split; [split; [reflexivity|]|now left].
    rewrite with_len_struct, safe_struct in Hsafe.
    exact (Hsafe k (gen mk) off (map_nth_error gen k ms Hmk) Hoff).
  - (* Autoderef of a pointer in memory *)
    destruct (load_scalar m a 8) as [z|] eqn:Hld; [|discriminate]. injection Hstep as <-.
    split; [split; [reflexivity|]|now left].
    rewrite with_len_ptr in Hsafe. now apply Hsafe.
  - (* Autoderef of a pointer parameter *)
    injection Hstep as <-. split; [split; [reflexivity|exact Hsafe]|now left].
  - (* Autoview of a view in memory *)
    destruct (load_scalar m a 8) as [z|] eqn:Hld; [|discriminate]. injection Hstep as <-.
    split; [split; [reflexivity|]|now left].
    rewrite with_len_ptr in Hsafe. apply safe_weaken. now apply Hsafe.
  - (* Autoview of a view parameter *)
    injection Hstep as <-. split; [split; [reflexivity|exact Hsafe]|now left].
  - (* Autodeslice of a slice parameter *)
    injection Hstep as <-. split; [split; [reflexivity|exact Hsafe]|right; now exists t].
  - (* Autodeslice of a slice pointer parameter *)
    injection Hstep as <-. split; [split; [reflexivity|exact Hsafe]|right; now exists t].
Qed.

Lemma walk_ok m A K : forall rs t ch t' l slen w a T,
  mut_chain t rs = Some (ch, t') ->
  (slen = None \/ exists e, t = PArr 0 e) ->
  loc_ok m A K w l slen t ->
  sem_checked m l slen rs = Some (LocMem a T) ->
  safe m A K (w || Mutability.crosses_pointer ch) T a.
Proof.
  induction rs as [|s rest IH]; intros t ch t' l slen w a T Hc Hsl Hl Hs.
  - injection Hc as <- <-. injection Hs as ->. destruct Hl as [HT Hsafe].
    cbn. rewrite orb_false_r.
    destruct Hsl as [->|[e ->]]; [exact Hsafe|].
    (* right after an Autodeslice: the slice's array seen at type [0 x e] *)
    subst T. intros i Hi. lia.
  - cbn [sem_checked] in Hs. rewrite mut_chain_cons in Hc.
    destruct (step_defined l slen s) eqn:Hdef; [|discriminate].
    destruct (sem_step m l s) as [l1|] eqn:Hstep; [|discriminate].
    destruct (mut_step t s) as [[st t1]|] eqn:Hst; [|discriminate].
    destruct (mut_chain t1 rest) as [[ch0 t0]|] eqn:Hc0; [|discriminate].
    injection Hc as <- <-.
    destruct (step_ok m A K s t st t1 l slen w l1 Hst Hl Hdef Hstep) as [Hl1 Hsl1].
    change (Mutability.crosses_pointer (st :: ch0))
      with (Mutability.is_pointer_step st || Mutability.crosses_pointer ch0).
    rewrite orb_assoc. exact (IH t1 ch0 t0 l1 _ _ a T Hc0 Hsl1 Hl1 Hs).
Qed.

(* What Mutability.v records for a binding: only a `var` whose type is not a
   slice, slice pointer or view is mutable. *)
Definition binding_mutable (b : binding) : bool :=
  match b_kind b with
  | KLocal => Mutability.var_is_mutable (Mutability.POk (to_mty (b_ty b)))
  | KParam | KConst => false
  end.

Lemma declare_binding_eq v i b :
  declare_binding v i b = (N.of_nat i, binding_mutable b) :: v.
Proof.
  unfold declare_binding, binding_mutable. destruct (b_kind b); reflexivity.
Qed.

Lemma frame_menv_from_snoc f b : forall i v,
  frame_menv_from i (f ++ [b]) v
  = (N.of_nat (i + length f), binding_mutable b) :: frame_menv_from i f v.
Proof.
  induction f as [|b0 f IH]; intros i v; cbn [app frame_menv_from length].
  - now rewrite declare_binding_eq, Nat.add_0_r.
  - now rewrite IH, Nat.add_succ_comm.
Qed.

Lemma lookup_frame_menv f : forall k b,
  nth_error f k = Some b ->
  Mutability.lookup (frame_menv f) (N.of_nat k) = Some (binding_mutable b).
Proof.
  unfold frame_menv. induction f as [|b0 f IH] using rev_ind; intros k b Hk;
    [destruct k; discriminate|].
  rewrite frame_menv_from_snoc. cbn [Mutability.lookup Nat.add].
  destruct (N.eqb_spec (N.of_nat k) (N.of_nat (length f))) as [He|Hne].
  - apply Nat2N.inj in He. subst k. rewrite nth_error_app2, Nat.sub_diag in Hk by lia.
    now injection Hk as <-.
  - apply IH. rewrite <- Hk. symmetry. apply nth_error_app1.
    assert (k < length (f ++ [b0]))%nat by (apply nth_error_Some; congruence).
    rewrite app_length in *. cbn [length] in *. assert (k <> length f) by congruence. lia.
Qed.

Definition binding_safe (m : mem) (A : Z -> Prop) (K : Z -> ktag) (b : binding) : Prop :=
  match base_loc b with
  | Some l => loc_ok m A K (binding_mutable b) l None (b_ty b)
  | None => True
  end.

Definition frame_safe (m : mem) (A : Z -> Prop) (K : Z -> ktag) (f : frame) : Prop :=
  forall k b, nth_error f k = Some b -> binding_safe m A K b.

Lemma frame_safe_mono m m' A K f :
  (forall T w a, safe m A K w T a -> safe m' A K w T a) ->
  frame_safe m A K f -> frame_safe m' A K f.
Proof.
  intros Hs Hf k b Hk. specialize (Hf k b Hk). unfold binding_safe in *.
  destruct (base_loc b); [|exact I]. eapply loc_ok_mono; eassumption.
Qed.

(* A translated reference at a site the gate permits (an assignment target, or an
   operand whose address is taken: there Mutability.v asks that it be writable, i.e.
   its binding is mutable or its chain crosses a pointer) denotes a confined object
   that may be written. *)
Lemma gated_ref_writable m A K f r ad ado mr asg a T :
  frame_safe m A K f ->
  to_mut_ref_at f r ad ado = Some mr ->
  Mutability.site_ok (frame_menv f, asg, mr) = true -> asg || N.ltb 0 ado = true ->
  ref_loc m f {| r_base := r_base r; r_path := r_path r; r_ad := ad |} = Some (a, T) ->
  safe m A K true T a.
Proof.
  unfold to_mut_ref_at, ref_loc. cbn [r_base r_path r_ad]. intros Hf Ht Hok Hg Hr.
  destruct (nth_error f (r_base r)) as [b|] eqn:Hb; [|discriminate].
  destruct (elab_assign (b_ty b) (r_path r) ad) as [[rs tfin]|]; [|discriminate].
  destruct (mut_chain (b_ty b) rs) as [[ch t2]|] eqn:Hc; [|discriminate].
  injection Ht as <-. unfold Mutability.site_ok, Mutability.writable in Hok.
  cbn [Mutability.r_base Mutability.r_steps Mutability.r_ad] in Hok.
  rewrite Hg, (lookup_frame_menv f _ b Hb) in Hok.
  specialize (Hf _ _ Hb). unfold binding_safe in Hf.
  destruct (base_loc b) as [l|]; [|discriminate].
  destruct (sem_checked m l None rs) as [[a' T'| |]|] eqn:Hs; try discriminate.
  injection Hr as -> ->. rewrite <- Hok.
  exact (walk_ok m A K rs (b_ty b) ch t2 l None _ a T Hc (or_introl eq_refl) Hf Hs).
Qed.

Lemma lt_eqb_eq : forall a b, lt_eqb a b = true -> a = b.
Proof.
  induction a as [x| |u IHu|n e IHe|ms IHms] using lt_ind2; intros b H;
    destruct b as [y| |v|k e'|ys]; try discriminate.
  - cbn [lt_eqb] in H. apply Z.eqb_eq in H. now subst.
  - reflexivity.
  - cbn [lt_eqb] in H. f_equal. now apply IHu.
  - cbn [lt_eqb] in H. apply andb_true_iff in H as [H1 H2]. apply Z.eqb_eq in H1.
    subst. f_equal. now apply IHe.
  - cbn [lt_eqb] in H. f_equal. revert ys H.
    induction IHms as [|x xs Hx _ IHxs]; intros ys H; destruct ys as [|y ys'];
      try discriminate; [reflexivity|].
    apply andb_true_iff in H as [H1 H2]. f_equal; [now apply Hx|now apply IHxs].
Qed.

Lemma data_store_confined m A K f T a z :
  frame_safe m A K f -> is_data T = true -> safe m A K true T a ->
  (forall x, ~ A x -> store m a (erase T) (VS z) x = m x) /\
  frame_safe (store m a (erase T) (VS z)) A K f.
Proof.
  intros Hf Hd Hs.
  assert (Hb : bytes_ok A K true a (lsize T)) by (destruct T; try discriminate; exact Hs).
  split.
  - apply store_outside. intros j Hj. now apply Hb.
  - apply (frame_safe_mono m); [|exact Hf]. apply safe_ext.
    apply (store_outside (fun x => K x = KData)). intros j Hj. now apply Hb.
Qed.

Lemma ptr_store_confined m A K f U a z :
  frame_safe m A K f -> safe m A K true (LPtr U) a -> safe m A K true U z ->
  (forall x, ~ A x -> store m a TPtr (VS z) x = m x) /\
  frame_safe (store m a TPtr (VS z)) A K f.
Proof.
  intros Hf [Hcell _] Hz. split.
  - apply store_outside. intros j Hj. now apply Hcell.
  - apply (frame_safe_mono m); [|exact Hf]. apply (safe_ptr_store m A K a U z); [|exact Hz].
    intros j Hj. now apply Hcell.
Qed.

(* The gate's part is [MutabilityProofs.stmt_walk]: where no code is reported, every site
   of the statement is permitted -- the target, and in `&dst = &src` the source, whose
   address depth is 1. *)
Theorem stmt_confined m A K f s m' :
  frame_safe m A K f ->
  accepted f s = true ->
  exec_stmt m f s = Some m' ->
  (forall x, ~ A x -> m' x = m x) /\ frame_safe m' A K f.
Proof.
  intros Hf Hacc Hex. unfold accepted, stmt_codes in Hacc.
  destruct (to_mut_stmt f s) as [ms|] eqn:Hms; [|discriminate].
  destruct (proj1 MutabilityProofs.stmt_walk ms (frame_menv f)) as (_ & _ & _ & Hok).
  specialize (Hok (is_nil_true _ Hacc)).
  destruct s as [d z|d s'|d s']; cbn [to_mut_stmt] in Hms; cbn [exec_stmt] in Hex;
    destruct (to_mut_ref f d) as [d'|] eqn:Hd; try discriminate;
    destruct (ref_loc m f d) as [[a T]|] eqn:Hr; try discriminate.
  - (* SSetConst *)
    injection Hms as <-. destruct (is_data T) eqn:Hdata; [|discriminate].
    injection Hex as <-. apply Forall_inv in Hok. destruct d.
    exact (data_store_confined m A K f T a z Hf Hdata
             (gated_ref_writable m A K f _ _ _ d' true a T Hf Hd Hok eq_refl Hr)).
  - (* SCopy *)
    destruct (to_mut_ref_at f s' 0 0%N) as [s''|]; [|discriminate]. injection Hms as <-.
    destruct (read_scalar m f s') as [z|]; [|discriminate].
    destruct (is_data T) eqn:Hdata; [|discriminate]. injection Hex as <-.
    apply Forall_inv in Hok. destruct d.
    exact (data_store_confined m A K f T a z Hf Hdata
             (gated_ref_writable m A K f _ _ _ d' true a T Hf Hd Hok eq_refl Hr)).
  - (* SSetAddr *)
    destruct (to_mut_ref_at f s' (src_ad f s') 1%N) as [s''|] eqn:Hsrc; [|discriminate].
    injection Hms as <-. destruct T as [| |U| |]; try discriminate.
    destruct (addr_of m f s') as [[z U']|] eqn:Hao; [|discriminate].
    destruct (lt_eqb U U') eqn:Heq; [|discriminate]. apply lt_eqb_eq in Heq. subst U'.
    injection Hex as <-. inversion Hok as [|? ? Hd' Hok']; subst. apply Forall_inv in Hok'.
    destruct d.
    exact (ptr_store_confined m A K f U a z Hf
             (gated_ref_writable m A K f _ _ _ d' true a _ Hf Hd Hd' eq_refl Hr)
             (gated_ref_writable m A K f s' _ _ s'' false z U Hf Hsrc Hok' eq_refl Hao)).
Qed.

(* For every set A of addresses and every typing K of memory such that the frame
   is confined to A -- the callee's variables lie in A; the objects its POINTER
   parameters (&T, &[]T) point to lie in A; every pointer stored in any object
   the callee can see (in those objects, in its variables, but also in the
   objects its VIEW parameters and constants denote) points to an object in A,
   transitively --: a body accepted by mutability.rs, if its execution is
   defined, leaves every address outside A as it was. *)
Theorem callee_writes_confined : forall body m A K f m',
  frame_safe m A K f ->
  accepted_body f body = true ->
  exec_body m f body = Some m' ->
  (forall x, ~ A x -> m' x = m x) /\ frame_safe m' A K f.
Proof.
  induction body as [|s rest IH]; intros m A K f m' Hf Hacc Hex.
  - cbn [exec_body] in Hex. inversion Hex; subst m'. split; [reflexivity|exact Hf].
  - cbn [accepted_body forallb] in Hacc. apply andb_true_iff in Hacc as [Hs Hrest].
    cbn [exec_body] in Hex. destruct (exec_stmt m f s) as [m1|] eqn:H1; [|discriminate].
    destruct (stmt_confined m A K f s m1 Hf Hs H1) as [Hout1 Hf1].
    destruct (IH m1 A K f m' Hf1 Hrest Hex) as [Hout2 Hf2].
    split; [|exact Hf2]. intros x Hx. rewrite Hout2 by exact Hx. now apply Hout1.
Qed.

(* An object passed by value has no storage the callee shares (it is an SSA
   value); an object passed as a view ([]T, a structure) -- any set of addresses
   [Obj], in fact -- is bit-for-bit unchanged, PROVIDED it does not overlap the
   confinement set A.  (With `f(a, &a)` it does overlap: see [aliasing_example].) *)
Corollary view_object_unchanged body m A K f m' (Obj : Z -> Prop) :
  frame_safe m A K f -> accepted_body f body = true -> exec_body m f body = Some m' ->
  (forall x, Obj x -> ~ A x) ->
  forall x, Obj x -> m' x = m x.
Proof.
  intros Hf Hacc Hex Hdis x Hx.
  exact (proj1 (callee_writes_confined body m A K f m' Hf Hacc Hex) x (Hdis x Hx)).
Qed.

(* Constants: the storage of a constant is never the target of an accepted
   assignment, so it may be left out of A; then it is unchanged.  This is
   [view_object_unchanged] on a byte range: a constant is confined with w = false,
   like a view. *)
Corollary constant_unchanged body m A K f m' a T :
  frame_safe m A K f -> accepted_body f body = true -> exec_body m f body = Some m' ->
  (forall x, a <= x < a + lsize T -> ~ A x) ->
  forall x, a <= x < a + lsize T -> m' x = m x.
Proof.
  intros Hf Hacc Hex Hdis.
  exact (view_object_unchanged body m A K f m' (fun x => a <= x < a + lsize T)
           Hf Hacc Hex Hdis).
Qed.

Definition i32 : pty := PInt 4.
Definition Holder : pty := PStruct [i32; PPtr i32].     (* struct Holder { a: i32, p: &i32 } *)

Definition rf (b : nat) (p : path) (ad : nat) : reference :=
  {| r_base := b; r_path := p; r_ad := ad |}.

(* The caller: var x: i32 = 7 at 1000; var arr: [4]i32 = [1,2,3,4] at 1100;
   var h = Holder { a: 70, p: &x } at 1200; var y: i32 = 8 at 1300;
   var ps: [1]&i32 = [&x] at 1400. *)
Definition caller_inits : list (Z * ty * value) :=
  [(1000, TInt 4, VS 7);
   (1100, TArr 4 (TInt 4), VArr [VS 1; VS 2; VS 3; VS 4]);
   (1200, erase (gen Holder), VStruct [VS 70; VS 1000]);
   (1300, TInt 4, VS 8);
   (1400, TArr 1 TPtr, VArr [VS 1000])].

Definition caller_probe : list range :=
  [(1000, 1004); (1100, 1116); (1200, 1216); (1300, 1304); (1400, 1408)].

(* fn f(p: &i32) { p = 5; }   f(&x): accepted, and it does change x. *)
Example pointer_param_writes_caller :
  run_frame_case [arg_pointer 1000 i32] caller_inits [SSetConst (rf 0 [] 0) 5]
    caller_probe false
  = CaseRan [1000; 1001; 1002; 1003] [] [].
Proof. vm_compute. reflexivity. Qed.

(* fn f(v: []i32) { v[1] = 9; }   f(arr): rejected (E530); executed nevertheless,
   the store WOULD change arr[1] in the caller -- the gate is what protects it. *)
Example view_write_rejected :
  run_frame_case [arg_slice 1100 4 i32] caller_inits [SSetConst (rf 0 [SElem 1] 0) 9]
    caller_probe false
  = CaseRejected [Mutability.E530]
  /\ run_frame_case [arg_slice 1100 4 i32] caller_inits [SSetConst (rf 0 [SElem 1] 0) 9]
       caller_probe true
     = CaseRan [1104; 1105; 1106; 1107] [1104; 1105; 1106; 1107] [1104; 1105; 1106; 1107].
Proof. split; vm_compute; reflexivity. Qed.

(* fn f(s: Holder) { s.a = 5; }   f(h): rejected;  fn f(x: i32) { x = 9; }: rejected. *)
Example struct_view_member_write_rejected :
  run_frame_case [arg_view 1200 Holder] caller_inits [SSetConst (rf 0 [SMember 0] 0) 5]
    caller_probe false = CaseRejected [Mutability.E530]
  /\ run_frame_case [arg_value i32 3] caller_inits [SSetConst (rf 0 [] 0) 9]
       caller_probe false = CaseRejected [Mutability.E530].
Proof. split; vm_compute; reflexivity. Qed.

(* fn f(v: []i32, p: &[]i32) { p[2] = 9; }   f(arr, &arr): the view and the pointer
   overlap; accepted; the object "passed as a view" DOES change (at arr[2]) -- inside
   the region reachable from the pointer parameter. *)
Example aliasing_example :
  run_frame_case [arg_slice 1100 4 i32; arg_slice_pointer 1100 4 i32] caller_inits
    [SSetConst (rf 1 [SElem 2] 0) 9] caller_probe false
  = CaseRan [1108; 1109; 1110; 1111] [] [].
Proof. vm_compute. reflexivity. Qed.

(* fn f(p: &i32) { var t: i32; &p = &t; }: re-pointing a pointer PARAMETER is rejected
   (the parameter binding is immutable, and no pointer is crossed). *)
Example repoint_pointer_param_rejected :
  run_frame_case [arg_pointer 1000 i32; local_var 2000 i32] caller_inits
    [SSetAddr (rf 0 [] 1) (rf 1 [] 0)] caller_probe false
  = CaseRejected [Mutability.E530].
Proof. vm_compute. reflexivity. Qed.

(* fn f(v: []i32) { var q: &i32; &q = &v[1]; }: taking the address of a view element
   is rejected (is_addressed). *)
Example address_of_view_element_rejected :
  run_frame_case [arg_slice 1100 4 i32; local_var 2008 (PPtr i32)] caller_inits
    [SSetAddr (rf 1 [] 1) (rf 0 [SElem 1] 0)] caller_probe false
  = CaseRejected [Mutability.E530].
Proof. vm_compute. reflexivity. Qed.

(* fn f(v: []i32, out: &i32) { var t: i32; var q: &i32; t = v[3]; &q = &t; q = 11;
   out = t; }   f(arr, &y): accepted; only t, q and y change. *)
Example locals_and_pointer_example :
  run_frame_case
    [arg_slice 1100 4 i32; local_var 2000 i32; local_var 2008 (PPtr i32); arg_pointer 1300 i32]
    caller_inits
    [SCopy (rf 1 [] 0) (rf 0 [SElem 3] 0); SSetAddr (rf 2 [] 1) (rf 1 [] 0);
     SSetConst (rf 2 [] 0) 11; SCopy (rf 3 [] 0) (rf 1 [] 0)]
    ((2000, 2016) :: caller_probe) false
  = CaseRan [2000; 2001; 2002; 2003; 2008; 2009; 2010; 2011; 2012; 2013; 2014; 2015;
             1300; 1301; 1302; 1303] [] [].
Proof. vm_compute. reflexivity. Qed.

Example out_of_range_undefined :
  run_frame_case [arg_slice_pointer 1100 4 i32] caller_inits
    [SSetConst (rf 0 [SElem 4] 0) 9] caller_probe false = CaseUndefined.
Proof. vm_compute. reflexivity. Qed.

(* "A function can change a caller's variable only if ... the parameter has pointer
   type (&T, &[]T)" is FALSE of the compiler:

     struct Holder { a: i32, p: &i32 }
     fn poke(h: Holder) { h.p = 5; }            // accepted
     fn main() -> i32 { var x: i32 = 7; var h = Holder { a: 70, p: &x }; poke(h);
                        return: x }             // 5

   The parameter is a VIEW; the chain is Autoview, Member p, Autoderef;
   needs_outer_mutability stops at the Autoderef and never asks whether the pointer
   was read out of a read-only object.  The bytes of x (1000..1003) change; they
   are outside [allowed true] (the callee's own variables and what is reachable
   from pointer-typed parameters) -- and inside [allowed false]. *)
Theorem pointer_params_only_refuted :
  exists f inits body probe ch out_strict,
    Forall (fun b => param_class (b_ty b) <> CPointer) f /\
    accepted_body f body = true /\
    run_frame_case f inits body probe false = CaseRan ch [] out_strict /\
    out_strict <> [].
Proof.
  exists [arg_view 1200 Holder], caller_inits, [SSetConst (rf 0 [SMember 1] 0) 5],
    caller_probe, [1000; 1001; 1002; 1003], [1000; 1001; 1002; 1003].
  split; [repeat constructor; discriminate|].
  split; [vm_compute; reflexivity|]. split; [vm_compute; reflexivity|discriminate].
Qed.

(* The same through an array view of pointers:
     fn poke(v: []&i32) { v[0] = 5; }   var ps: [1]&i32 = [&x]; poke(ps);   // x = 5 *)
Theorem pointer_params_only_refuted_slice :
  exists f body ch out_strict,
    Forall (fun b => param_class (b_ty b) <> CPointer) f /\
    accepted_body f body = true /\
    run_frame_case f caller_inits body caller_probe false = CaseRan ch [] out_strict /\
    out_strict <> [].
Proof.
  exists [arg_slice 1400 1 (PPtr i32)], [SSetConst (rf 0 [SElem 0] 0) 5],
    [1000; 1001; 1002; 1003], [1000; 1001; 1002; 1003].
  split; [repeat constructor; discriminate|].
  split; [vm_compute; reflexivity|]. split; [vm_compute; reflexivity|discriminate].
Qed.

(* Without the shadow typing (an integer and a pointer at the same address: what a
   caller can only build with casts) even [allowed false] is escaped:
     fn f(p: &i64, q: &&i32) { p = 1300; q = 1; }   with p and q both 3000,
   where the cell at 3000 holds the address 1000: the first store overwrites the
   pointer q points to, the second writes y at 1300. *)
Theorem untyped_memory_refuted :
  exists f inits body probe ch out_allowed,
    accepted_body f body = true /\
    run_frame_case f inits body probe false = CaseRan ch out_allowed out_allowed /\
    out_allowed <> [].
Proof.
  exists [arg_pointer 3000 (PInt 8); arg_pointer 3000 (PPtr i32)],
    ((3000, TPtr, VS 1000) :: caller_inits),
    [SSetConst (rf 0 [] 0) 1300; SSetConst (rf 1 [] 0) 1],
    ((3000, 3008) :: caller_probe),
    [3000; 3001; 3002; 3003; 3004; 3005; 3006; 3007; 1300; 1301; 1302; 1303],
    [1300; 1301; 1302; 1303].
  split; [vm_compute; reflexivity|]. split; [vm_compute; reflexivity|discriminate].
Qed.

Fixpoint ptr_free (T : lt) : bool :=
  match T with
  | LInt _ | LBool => true
  | LPtr _ => false
  | LArr _ e => ptr_free e
  | LStruct ms =>
      (fix go (l : list lt) : bool :=
         match l with
         | [] => true
         | x :: r => ptr_free x && go r
         end) ms
  end.

Lemma ptr_free_member ms : forall k mk,
  ptr_free (LStruct ms) = true -> nth_error ms k = Some mk -> ptr_free mk = true.
Proof. exact (forallb_nth_error ptr_free ms). Qed.

(* An object without pointer cells is confined as soon as its bytes are (if it is
   to be written); memory and typing play no role. *)
Lemma safe_ptrfree m (A : Z -> Prop) w : forall T a,
  ptr_free T = true -> wf_ty (erase T) = true ->
  (w = true -> forall x, a <= x < a + lsize T -> A x) ->
  safe m A (fun _ => KData) w T a.
Proof.
  induction T as [b| |u IHu|n e IHe|ms IHms] using lt_ind2; intros a Hpf Hwf HA.
  1-2: cbn [safe]; intros j Hj; split; [reflexivity|]; intros Hw; apply (HA Hw); lia.
  - discriminate.
  - cbn [safe]. intros i Hi. cbn [ptr_free] in Hpf. cbn [erase wf_ty] in Hwf.
    apply andb_true_iff in Hwf as [_ Hwe]. apply IHe; [exact Hpf|exact Hwe|].
    intros Hw x Hx. apply (HA Hw). unfold lsize in *. cbn [erase].
    rewrite llvm_alloc_size_arr.
    pose proof (llvm_alloc_size_nonneg (erase e) Hwe) as Hnn. nia.
  - rewrite safe_struct. intros k mk off Hmk Hoff.
    rewrite erase_struct, wf_ty_struct in Hwf.
    pose proof (erase_list_nth' ms k mk Hmk) as Hek.
    rewrite Forall_forall in IHms.
    apply (IHms mk (nth_error_In _ _ Hmk)).
    + eapply ptr_free_member; eassumption.
    + eapply wf_ty_list_nth; eassumption.
    + intros Hw x Hx. apply (HA Hw).
      destruct (struct_offsets_nth (erase_list ms) k (erase mk) off Hwf Hek Hoff) as [H0 [_ Hhi]].
      unfold lsize in *. rewrite erase_struct. lia.
Qed.

(* The regions of a first-order frame: the callee's variables and the objects its
   pointer parameters point to (no memory needed to compute them). *)
Definition flat_ranges (b : binding) : list range :=
  match b_kind b, b_store b, b_ty b with
  | KLocal, SAddr a, t => [obj_range a (gen t)]
  | KParam, SImm z, PPtr u => [obj_range z (gen u)]
  | KParam, SImmSlice p len, PSlicePtr e => [obj_range p (LArr len (gen e))]
  | _, _, _ => []
  end.

Definition flat_allowed (f : frame) : list range := flat_map flat_ranges f.

(* Every object the binding gives access to is free of pointer cells. *)
Definition flat_binding (b : binding) : Prop :=
  storage_ok b = true /\
  match b_store b, b_ty b with
  | SAddr _, t => ptr_free (gen t) = true /\ wf_ty (erase (gen t)) = true
  | SImm _, (PPtr u | PView u) => ptr_free (gen u) = true /\ wf_ty (erase (gen u)) = true
  | SImmSlice _ len, (PSlice e | PSlicePtr e) =>
      ptr_free (gen e) = true /\ wf_ty (erase (gen e)) = true /\ 0 <= len
  | _, _ => True
  end.

(* A pointer-free object of binding k is confined to the frame's regions: it need
   lie in them only if it is to be written, and then it is one of the binding's. *)
Lemma flat_obj_safe m f k b : nth_error f k = Some b -> forall w T a,
  ptr_free T = true -> wf_ty (erase T) = true ->
  (w = true -> In (obj_range a T) (flat_ranges b)) ->
  safe m (fun x => in_ranges x (flat_allowed f) = true) (fun _ => KData) w T a.
Proof.
  intros Hk w T a Hpf Hwf Hr. apply safe_ptrfree; [exact Hpf|exact Hwf|]. intros Hw x Hx.
  apply existsb_exists. exists (obj_range a T). split.
  - apply in_flat_map. exists b. split; [exact (nth_error_In _ _ Hk)|exact (Hr Hw)].
  - apply andb_true_iff. split; [apply Z.leb_le|apply Z.ltb_lt]; apply Hx.
Qed.

Lemma flat_frame_safe m f :
  (forall k b, nth_error f k = Some b -> flat_binding b) ->
  frame_safe m (fun x => in_ranges x (flat_allowed f) = true) (fun _ => KData) f.
Proof.
  intros Hflat k b Hk. destruct (Hflat k b Hk) as [Hst Hb].
  pose proof (flat_obj_safe m f k b Hk) as Hobj.
  unfold binding_safe, base_loc, binding_mutable.
  unfold storage_ok in Hst. unfold flat_ranges in Hobj.
  destruct (b_store b) as [a|z|p len].
  - (* alloca / global *)
    destruct Hb as [Hpf Hwf]. cbn [loc_ok with_len]. split; [reflexivity|].
    apply (Hobj _ _ _ Hpf Hwf).
    destruct (b_kind b); try discriminate. intros _. now left.
  - (* pointer / view / scalar immediate *)
    destruct (b_ty b) as [sz| |n e|ms|u|u|e|e|e]; try exact I;
      destruct (b_kind b); try discriminate Hst; destruct Hb as [Hpf Hwf];
      cbn [loc_ok]; (split; [reflexivity|]); apply (Hobj _ _ _ Hpf Hwf); try discriminate.
    intros _. now left.
  - (* slice / slice pointer immediate *)
    destruct (b_ty b) as [sz| |n e|ms|u|u|e|e|e]; try exact I;
      destruct (b_kind b); try discriminate Hst; destruct Hb as [Hpf [Hwf Hlen]];
      cbn [loc_ok]; (split; [reflexivity|]); apply (Hobj _ (LArr len (gen e)) _ Hpf);
      try discriminate.
    1,2: cbn [erase wf_ty]; apply andb_true_iff; split; [now apply Z.leb_le|exact Hwf].
    intros _. now left.
Qed.

(* A callee all of whose visible objects are free of pointer cells changes nothing
   but its own variables and the objects its pointer parameters (&T, &[]T) point
   to.  No hypothesis on memory, none on aliasing. *)
Theorem flat_frame_confined f body m m' :
  (forall k b, nth_error f k = Some b -> flat_binding b) ->
  accepted_body f body = true ->
  exec_body m f body = Some m' ->
  forall x, in_ranges x (flat_allowed f) = false -> m' x = m x.
Proof.
  intros Hflat Hacc Hex x Hx.
  refine (proj1 (callee_writes_confined body m _ _ f m' (flat_frame_safe m f Hflat) Hacc Hex)
            x _).
  rewrite Hx. discriminate.
Qed.

Lemma flat_allowed_no_pointer f :
  Forall (fun b => b_kind b = KParam -> param_class (b_ty b) <> CPointer) f ->
  flat_allowed f = own_ranges f.
Proof.
  induction 1 as [|b rest Hb _ IH]; [reflexivity|].
  unfold flat_allowed, own_ranges in *. cbn [flat_map]. rewrite IH. f_equal.
  unfold flat_ranges. destruct (b_kind b) eqn:Hk; [|destruct (b_store b); reflexivity|
    destruct (b_store b); reflexivity].
  specialize (Hb eq_refl).
  destruct (b_store b); destruct (b_ty b); try reflexivity; exfalso; apply Hb; reflexivity.
Qed.

(* No pointer parameter: nothing but the callee's own variables changes -- all
   caller memory disjoint from them is unchanged. *)
Corollary no_pointer_parameter_no_effect f body m m' :
  (forall k b, nth_error f k = Some b -> flat_binding b) ->
  Forall (fun b => b_kind b = KParam -> param_class (b_ty b) <> CPointer) f ->
  accepted_body f body = true ->
  exec_body m f body = Some m' ->
  forall x, in_ranges x (own_ranges f) = false -> m' x = m x.
Proof.
  intros Hflat Hnp Hacc Hex x Hx. rewrite <- (flat_allowed_no_pointer f Hnp) in Hx.
  exact (flat_frame_confined f body m m' Hflat Hacc Hex x Hx).
Qed.

Fixpoint to_mut_body (f : frame) (body : list stmt) : option (list Mutability.stmt) :=
  match body with
  | [] => Some []
  | s :: rest =>
      match to_mut_stmt f s, to_mut_body f rest with
      | Some ms, Some mr => Some (ms :: mr)
      | _, _ => None
      end
  end.

Lemma to_mut_stmt_assignment f s ms :
  to_mut_stmt f s = Some ms -> exists r v, ms = Mutability.SAssignment r v.
Proof.
  destruct s as [d z|d s'|d s']; cbn [to_mut_stmt]; unfold to_mut_ref;
    repeat (destruct (to_mut_ref_at _ _ _ _); [|discriminate]); intros [= <-]; eauto.
Qed.

(* The codes of a body are what Mutability.mut_stmts (the statement loop of
   `impl Analyzable for FunctionBody`) reports for the translated statements in
   the analyzer state of the frame. *)
Theorem body_codes_literal f : forall body mb,
  to_mut_body f body = Some mb ->
  Mutability.mut_stmts (frame_menv f) mb = (frame_menv f, body_codes f body).
Proof.
  induction body as [|s rest IH]; intros mb H.
  - cbn [to_mut_body] in H. inversion H. reflexivity.
  - cbn [to_mut_body] in H.
    destruct (to_mut_stmt f s) as [ms|] eqn:Hs; [|discriminate].
    destruct (to_mut_body f rest) as [mr|] eqn:Hr; [|discriminate].
    inversion H; subst mb. cbn [Mutability.mut_stmts].
    destruct (to_mut_stmt_assignment f s ms Hs) as (r & v & ->).
    unfold body_codes. cbn [flat_map]. unfold stmt_codes at 1. rewrite Hs.
    cbn [Mutability.mut_stmt]. rewrite (IH mr eq_refl). reflexivity.
Qed.

Lemma defined_ex {X} (o : option X) :
  match o with Some _ => True | None => False end -> exists x, o = Some x.
Proof. destruct o as [x|]; [now exists x|contradiction]. Qed.

(* fn f(v: []i32, out: &i32) { var t: i32; t = v[3]; out = t; }   f(arr, &y) *)
Example flat_frame_example :
  let f := [arg_slice 1100 4 i32; local_var 2000 i32; arg_pointer 1300 i32] in
  let body := [SCopy (rf 1 [] 0) (rf 0 [SElem 3] 0); SCopy (rf 2 [] 0) (rf 1 [] 0)] in
  (forall k b, nth_error f k = Some b -> flat_binding b) /\
  accepted_body f body = true /\
  flat_allowed f = [(2000, 2004); (1300, 1304)] /\
  exists m', exec_body (mem_of caller_inits (fun _ => CPad)) f body = Some m'.
Proof.
  cbv zeta. split; [|split; [vm_compute; reflexivity|split; [vm_compute; reflexivity|]]].
  - intros [|[|[|[|k]]]] b Hk; try discriminate; injection Hk as <-;
      vm_compute; repeat split; discriminate.
  - apply defined_ex. vm_compute. exact I.
Qed.

(* A frame with a real pointer cell: fn poke(h: Holder) {...}   poke(h), h.p = &x.
   Whatever accepted body poke has, only the four bytes of x can change: h itself
   (passed as a view), arr, y, ps are unchanged. *)
Definition holder_K (x : Z) : ktag :=
  if (1208 <=? x) && (x <? 1216) then KPtr (LInt 4) (x - 1208) else KData.

Lemma holder_K_data x : x < 1208 \/ 1216 <= x -> holder_K x = KData.
Proof.
  intros H. unfold holder_K.
  destruct (Z.leb_spec 1208 x), (Z.ltb_spec x 1216); try lia; reflexivity.
Qed.

Example holder_view_confined : forall body m',
  let m0 := mem_of caller_inits (fun _ => CPad) in
  accepted_body [arg_view 1200 Holder] body = true ->
  exec_body m0 [arg_view 1200 Holder] body = Some m' ->
  forall x, ~ (1000 <= x < 1004) -> m' x = m0 x.
Proof.
  intros body m' m0 Hacc Hex.
  refine (proj1 (callee_writes_confined body m0 (fun x => 1000 <= x < 1004) holder_K
                   [arg_view 1200 Holder] m' _ Hacc Hex)).
  intros [|[|k]] b Hk; try discriminate. injection Hk as <-.
  split; [reflexivity|]. apply safe_struct.
  intros [|[|[|k]]] x off Hk Ho; try discriminate; injection Hk as <-;
    vm_compute in Ho; injection Ho as <-.
  - cbn [safe]. change (lsize (LInt 4)) with 4.
    intros j Hj. split; [apply holder_K_data; lia|discriminate].
  - split.
    + intros j Hj. split; [|discriminate]. unfold holder_K.
      destruct (Z.leb_spec 1208 (1200 + 8 + j)), (Z.ltb_spec (1200 + 8 + j) 1216); try lia.
      cbn [andb]. f_equal. lia.
    + assert (Hz0 : load_scalar m0 (1200 + 8) 8 = Some 1000) by (vm_compute; reflexivity).
      intros z Hz. rewrite Hz0 in Hz. injection Hz as <-.
      cbn [safe]. change (lsize (LInt 4)) with 4.
      intros j Hj. split; [apply holder_K_data; lia|intros _; lia].
Qed.

Print Assumptions callee_writes_confined.
Print Assumptions flat_frame_confined.
Print Assumptions no_pointer_parameter_no_effect.
Print Assumptions pointer_params_only_refuted.
Print Assumptions untyped_memory_refuted.
Print Assumptions holder_view_confined.
