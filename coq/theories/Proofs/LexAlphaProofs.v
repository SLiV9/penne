(* Proofs about Model/LexAlpha.v (first-generation lexer, src/alpha/lexer.rs).

   The notion that carries the structural results is tok_arm: an arm of
   lex_step reads its token off a prefix of the line and looks at most one
   character past it (lex_step_arm: every arm ends the line, skips a blank, is
   such an arm, or is the quote arm, which is treated through the string loop:
   lex_quote_local).  From lex_step_arm and the invariant of the string loop
   follow the exact spans (lex_alpha_fixed on every source, lex_alpha on sources
   without CR) and the invariance of the payloads under blanks and comments
   between tokens. *)
From Coq Require Import String Ascii.
From PV Require Import Base.Common Base.IR Base.Tok Model.LexAlpha.

Local Open Scope N_scope.

(* Readable test inputs: Coq strings as code point lists (ASCII only). *)
Definition str (s : string) : list N := map N_of_ascii (list_ascii_of_string s).

Definition pay (t : tok) : tkind * Z * option tykw * list N := (kind t, value t, vtype t, bytes t).

Definition payl : Type := tkind * Z * option tykw * list N.

Lemma len_nil : len [] = 0.
Proof. reflexivity. Qed.

Lemma len_cons x l : len (x :: l) = 1 + len l.
Proof. unfold len. cbn [length]. lia. Qed.

Lemma len_app a b : len (a ++ b) = len a + len b.
Proof. unfold len. rewrite app_length. lia. Qed.

Lemma len_pos_ne (u : list N) : 1 <= len u -> u <> [].
Proof. intros H ->. cbn in H. lia. Qed.

Lemma in_range_spec lo hi c : in_range lo hi c = true <-> lo <= c <= hi.
Proof. apply N_between_iff. Qed.

Definition stops (rest : list N) : Prop :=
  match rest with [] => True | y :: _ => is_ident_cont y = false end.

(* [stops] is [headQ is_ident_cont] by conversion (quiet_stops uses that). *)
Definition headQ (Q : N -> bool) (r : list N) : Prop :=
  match r with [] => True | h :: _ => Q h = false end.

Lemma dec_is_cont c : is_dec c = true -> is_ident_cont c = true.
Proof. intros H. unfold is_ident_cont. rewrite H, orb_true_r. reflexivity. Qed.
Lemma hex_is_cont c : is_hex c = true -> is_ident_cont c = true.
Proof.
  unfold is_hex, is_ident_cont, is_lower, is_upper, is_dec. intros H.
  rewrite !orb_true_iff, !in_range_spec in H. rewrite !orb_true_iff, !in_range_spec, N.eqb_eq. lia.
Qed.
Lemma bin_is_cont c : is_bin c = true -> is_ident_cont c = true.
Proof. unfold is_bin. rewrite orb_true_iff, !N.eqb_eq. intros [->| ->]; reflexivity. Qed.
Lemma take_ident_stops rest : stops rest -> take_ident rest = ([], rest).
Proof. destruct rest as [|y r]; cbn [take_ident stops]; [reflexivity|]. now intros ->. Qed.

Lemma take_ident_app s rest :
  forallb is_ident_cont s = true -> stops rest -> take_ident (s ++ rest) = (s, rest).
Proof.
  induction s as [|c s IH]; intros Hs Hr.
  - now apply take_ident_stops.
  - cbn [forallb] in Hs. apply andb_true_iff in Hs. destruct Hs as [Hc Hs].
    cbn [app take_ident]. rewrite Hc, (IH Hs Hr). reflexivity.
Qed.

Lemma ident_split cs : exists t r, cs = t ++ r /\ forallb is_ident_cont t = true /\ stops r.
Proof.
  induction cs as [|y cs (t & r & -> & Ht & Hr)]; [now exists [], []|].
  destruct (is_ident_cont y) eqn:E.
  - exists (y :: t), r. cbn [forallb]. now rewrite E.
  - now exists [], (y :: t ++ r).
Qed.

Lemma take_ident_wf cs : forall t r, take_ident cs = (t, r) -> cs = t ++ r.
Proof.
  intros t r. destruct (ident_split cs) as (t' & r' & -> & Ht & Hr). rewrite (take_ident_app t' r' Ht Hr).
  now intros [= <- <-].
Qed.

Definition digits_us (isd : N -> bool) (ds : list N) : bool :=
  forallb (fun c => isd c || (c =? 95)) ds.

Definition strip_us (ds : list N) : list N := filter (fun c => negb (c =? 95)) ds.

Definition ends_digits (isd : N -> bool) (rest : list N) : Prop :=
  match rest with [] => True | y :: _ => isd y = false /\ y <> 95 end.

Lemma take_digits_stop isd r : ends_digits isd r -> take_digits isd r = ([], 0, r).
Proof.
  destruct r as [|h t]; [reflexivity|]. intros [Ha Hb]. apply N.eqb_neq in Hb.
  cbn [take_digits]. now rewrite Ha, Hb.
Qed.

Lemma take_digits_app isd ds rest :
  isd 95 = false -> digits_us isd ds = true -> ends_digits isd rest ->
  take_digits isd (ds ++ rest) = (strip_us ds, len ds, rest).
Proof.
  intros H95. induction ds as [|c ds IH]; intros Hds Hr.
  - now apply take_digits_stop.
  - cbn [digits_us forallb] in Hds. apply andb_true_iff in Hds. destruct Hds as [Hc Hds].
    cbn [app take_digits strip_us filter]. fold (strip_us ds). rewrite (IH Hds Hr), len_cons.
    destruct (isd c) eqn:Hi.
    + destruct (c =? 95) eqn:He; [apply N.eqb_eq in He; congruence|]. reflexivity.
    + cbn [orb] in Hc. rewrite Hc. reflexivity.
Qed.

Lemma stops_not_digit isd rest :
  (forall c, isd c = true -> is_ident_cont c = true) ->
  stops rest -> ends_digits isd rest.
Proof.
  intros Himp. destruct rest as [|y r]; [trivial|]. cbn [stops ends_digits]. intros Hy. split.
  - destruct (isd y) eqn:E; [|reflexivity]. apply Himp in E. congruence.
  - intros ->. discriminate Hy.
Qed.

Lemma digits_split isd cs : exists ds r, cs = ds ++ r /\ digits_us isd ds = true /\ ends_digits isd r.
Proof.
  induction cs as [|y cs (ds & r & -> & Hds & Hr)]; [now exists [], []|].
  destruct (isd y || (y =? 95)) eqn:E.
  - exists (y :: ds), r. unfold digits_us in *. cbn [forallb]. now rewrite E.
  - exists [], (y :: ds ++ r). apply orb_false_iff in E. destruct E as [E1 E2]. apply N.eqb_neq in E2.
    repeat split; assumption.
Qed.

Lemma take_uhex_closed ds r : forallb is_hex ds = true ->
  take_uhex (ds ++ 125 :: r) = (ds, true, 1 + len ds, r).
Proof.
  induction ds as [|d ds IH]; intros H; [reflexivity|].
  cbn [forallb] in H. apply andb_true_iff in H. destruct H as [Hd H].
  cbn [app take_uhex]. rewrite Hd, (IH H), len_cons. reflexivity.
Qed.

Lemma take_uhex_open ds r : forallb is_hex ds = true ->
  match r with [] => True | y :: _ => is_hex y = false /\ y <> 125 end ->
  take_uhex (ds ++ r) = (ds, false, len ds, r).
Proof.
  intros Hds Hr. induction ds as [|d ds IH].
  - cbn [app]. destruct r as [|y r']; [reflexivity|]. destruct Hr as [Hy Hn].
    cbn [take_uhex]. rewrite Hy. apply N.eqb_neq in Hn. now rewrite Hn.
  - cbn [forallb] in Hds. apply andb_true_iff in Hds. destruct Hds as [Hd Hds].
    cbn [app take_uhex]. rewrite Hd, (IH Hds), len_cons. reflexivity.
Qed.

Lemma take_uhex_local cs : forall l c k r, take_uhex cs = (l, c, k, r) ->
  exists u, cs = u ++ r /\ len u = k /\
    forall z w w', r = z :: w -> take_uhex (u ++ z :: w') = (l, c, k, z :: w').
Proof.
  induction cs as [|y cs IH]; intros l c k r H; cbn [take_uhex] in H.
  - inversion H. exists []. repeat split. discriminate.
  - destruct (is_hex y) eqn:Ey; [|destruct (y =? 125) eqn:E125].
    + destruct (take_uhex cs) as [[[l' c'] k'] r'] eqn:E. inversion H; subst.
      destruct (IH _ _ _ _ eq_refl) as (u & Hu & Hk & Hloc).
      exists (y :: u). split; [cbn [app]; now f_equal|]. split; [now rewrite len_cons, Hk|].
      intros z w w' Hr. cbn [app take_uhex]. now rewrite Ey, (Hloc z w w' Hr).
    + inversion H; subst. exists [y]. repeat split. intros z w w' ->. cbn [app take_uhex].
      now rewrite Ey, E125.
    + inversion H; subst. exists []. repeat split. intros z w w' Hr. inversion Hr; subst.
      cbn [app take_uhex]. now rewrite Ey, E125.
Qed.

Definition blank (w : N) : Prop := w = 32 \/ w = 9.

Lemma blank_step w rest : blank w -> lex_step w rest = StSkip.
Proof. intros [->| ->]; reflexivity. Qed.

Lemma lex_step_decimal x rest : is_nonzero_dec x = true -> lex_step x rest = lex_decimal x rest.
Proof.
  intros Hx. assert (H : In x [49; 50; 51; 52; 53; 54; 55; 56; 57]%N)
    by (apply in_range_spec in Hx; cbn [In]; lia).
  cbn [In] in H. repeat (destruct H as [<-|H]; [reflexivity|]). contradiction.
Qed.

(* [r2] may replace [r1] behind a token starting with [x]. *)
Definition quiet (x : N) (r1 r2 : list N) : Prop :=
  match r2 with
  | [] => True
  | h :: _ => h = 32 \/ h = 9 \/ (h = 47 /\ x <> 47) \/ (exists t, r1 = h :: t)
  end.

Lemma quiet_refl x r : quiet x r r.
Proof. destruct r as [|h t]; [exact I|]. cbn. right. right. right. now exists t. Qed.

Lemma quiet_headQ x r1 r2 Q : quiet x r1 r2 ->
  Q 32 = false -> Q 9 = false -> (x <> 47 -> Q 47 = false) -> headQ Q r1 -> headQ Q r2.
Proof.
  intros Hq H32 H9 H47 H1. destruct r2 as [|h t]; [exact I|]. cbn [quiet headQ] in *.
  destruct Hq as [->|[->|[[-> Hx]|[t' ->]]]]; auto.
Qed.

Lemma quiet_stops x r1 r2 : quiet x r1 r2 -> stops r1 -> stops r2.
Proof. intros Hq. exact (quiet_headQ x r1 r2 is_ident_cont Hq eq_refl eq_refl (fun _ => eq_refl)). Qed.

Lemma quiet_blank x b w t : blank w -> quiet x b (w :: t).
Proof. intros [->| ->]; cbn; tauto. Qed.

(* [F], an arm of lex_step for a first character [x], reads one token off the
   front [u] of the line and depends on nothing behind [u] but the character it
   peeks at: what follows may be replaced by anything quiet.  Taking [r2 := r1]
   says what [F rest] is; every other fact about these arms is read off this one.  The clause
   [k = KError -> v <> OOF] (no arm makes the out-of-fuel marker) is carried
   from here through esc_wf, str_inv, step_wf and tok_at to lex_alpha_fixed_no_oof. *)
Definition tok_arm (x : N) (F : list N -> step) (rest : list N) : Prop :=
  exists u r1 k v ty bs, rest = u ++ r1 /\ (k = KError -> v <> OOF) /\
    forall r2, quiet x r1 r2 -> F (u ++ r2) = StTok k v ty bs (1 + len u) r2.

Lemma tok1_arm x k v rest : (k = KError -> v <> OOF) ->
  tok_arm x (fun r => StTok k v None [] 1 r) rest.
Proof.
  intros H. exists [], rest, k, v, None, []. split; [reflexivity|]. split; [exact H|].
  intros r2 _. reflexivity.
Qed.

(* An arm that yields the one-character token [k1] unless the next character
   satisfies [Q]. *)
Lemma stay_arm x Q F k1 rest :
  Q 32 = false -> Q 9 = false -> (x <> 47 -> Q 47 = false) ->
  (forall r, headQ Q r -> F r = StTok k1 0%Z None [] 1 r) ->
  headQ Q rest -> tok_arm x F rest.
Proof.
  intros H32 H9 H47 HF Hr. exists [], rest, k1, 0%Z, None, [].
  split; [reflexivity|]. split; [discriminate|].
  intros r2 Hq. apply HF. apply (quiet_headQ x rest r2 Q Hq H32 H9 H47 Hr).
Qed.

(* ... and a two-character token when it does. *)
Lemma peek_arm x Q F k1 rest :
  Q 32 = false -> Q 9 = false -> Q 47 = false ->
  (forall z, Q z = true -> exists k2, forall r, F (z :: r) = StTok k2 0%Z None [] 2 r) ->
  (forall r, headQ Q r -> F r = StTok k1 0%Z None [] 1 r) ->
  tok_arm x F rest.
Proof.
  intros H32 H9 H47 Hyes Hno.
  assert (Hstay : forall r, headQ Q r -> tok_arm x F r)
    by (intros r; now apply (stay_arm x Q F k1)).
  destruct rest as [|z r]; [now apply Hstay|].
  destruct (Q z) eqn:Ez; [|now apply Hstay].
  destruct (Hyes z Ez) as (k2 & H2). exists [z], r, k2, 0%Z, None, [].
  split; [reflexivity|]. split; [discriminate|]. intros r2 _. apply H2.
Qed.

Lemma double_arm x y k2 k1 rest :
  y <> 32 -> y <> 9 -> y <> 47 -> tok_arm x (double y k2 k1) rest.
Proof.
  intros H32 H9 H47.
  apply (peek_arm x (fun h => h =? y) _ k1); try (apply N.eqb_neq; congruence).
  - intros z Hz. exists k2. intros r. unfold double. now rewrite Hz.
  - intros r Hr. destruct r as [|h t]; [reflexivity|]. cbn [headQ] in Hr.
    unfold double. now rewrite Hr.
Qed.

(* the arms of '<' and '>': doubled, or followed by '=' *)
Lemma triple_arm x y k3 k2 k1 rest :
  y <> 32 -> y <> 9 -> y <> 47 ->
  tok_arm x (fun rest => match rest with
                           | z :: r => if z =? y then StTok k3 0%Z None [] 2 r
                                       else if z =? 61 then StTok k2 0%Z None [] 2 r
                                       else single k1 rest
                           | [] => single k1 rest
                           end) rest.
Proof.
  intros H32 H9 H47.
  apply (peek_arm x (fun h => (h =? y) || (h =? 61)) _ k1);
    try (apply orb_false_iff; split; [apply N.eqb_neq; congruence|reflexivity]).
  - intros z Hz. destruct (z =? y) eqn:E1; [exists k3|exists k2]; intros r; cbv beta iota;
      [reflexivity|]. cbn [orb] in Hz. now rewrite Hz.
  - intros r Hr. destruct r as [|h t]; [reflexivity|]. cbn [headQ] in Hr.
    apply orb_false_iff in Hr. destruct Hr as [E1 E2]. cbv beta iota. now rewrite E1, E2.
Qed.

Lemma slash_arm rest : headQ (fun h => h =? 47) rest -> tok_arm 47 (lex_step 47) rest.
Proof.
  apply (stay_arm 47 (fun h => h =? 47) _ KDivide); try reflexivity.
  - intros H. now destruct H.
  - intros r Hr. destruct r as [|h t]; [reflexivity|]. cbn [headQ] in Hr.
    change (lex_step 47 (h :: t)) with (if h =? 47 then StEnd else single KDivide (h :: t)).
    now rewrite Hr.
Qed.

Lemma str_eqb_eq a : forall b, str_eqb a b = true -> a = b.
Proof.
  induction a as [|x a IH]; intros [|y b] H; cbn [str_eqb] in H; try discriminate; [reflexivity|].
  apply andb_true_iff in H. destruct H as [H1 H2]. apply N.eqb_eq in H1. subst y.
  now rewrite (IH b H2).
Qed.

Lemma assoc_In {A} k (t : list (list N * A)) v : assoc k t = Some v -> In (k, v) t.
Proof.
  induction t as [|[k' v'] t IH]; cbn [assoc]; [discriminate|].
  destruct (str_eqb k k') eqn:E; intros H; [left; apply str_eqb_eq in E; congruence|right; auto].
Qed.

Lemma classify_word_kind w k v ty : classify_word w = Some (k, v, ty) -> k <> KError.
Proof.
  unfold classify_word. destruct (assoc w keyword_table) as [k0|] eqn:E1.
  - intros H; inversion H; subst. apply assoc_In, (in_map snd) in E1.
    assert (HF : Forall (fun k => k <> KError) (map snd keyword_table)) by (repeat constructor; discriminate).
    rewrite Forall_forall in HF. exact (HF _ E1).
  - destruct (assoc w bool_table); [intros H; inversion H; discriminate|].
    destruct (assoc w type_table); intros H; inversion H; discriminate.
Qed.

Lemma lex_word_arm x rest : tok_arm x (lex_word x) rest.
Proof.
  destruct (ident_split rest) as (t & r & -> & Ht & Hs).
  pose proof (fun r2 => take_ident_app t r2 Ht) as Hloc.
  destruct (classify_word (x :: t)) as [[[k v] ty]|] eqn:Ec.
  - exists t, r, k, v, ty, []. split; [reflexivity|]. split.
    + intros Hk. destruct (classify_word_kind _ _ _ _ Ec Hk).
    + intros r2 Hq. unfold lex_word. now rewrite (Hloc r2 (quiet_stops _ _ _ Hq Hs)), Ec.
  - (* an identifier, unless '!' follows *)
    assert (Hid : headQ (fun h => h =? 33) r -> tok_arm x (lex_word x) (t ++ r)).
    { intros H33. exists t, r, KIdentifier, 0%Z, None, []. split; [reflexivity|]. split; [discriminate|].
      intros r2 Hq. unfold lex_word. rewrite (Hloc r2 (quiet_stops _ _ _ Hq Hs)), Ec.
      pose proof (quiet_headQ x r r2 _ Hq eq_refl eq_refl (fun _ => eq_refl) H33) as H2.
      destruct r2 as [|h t2]; [reflexivity|]. cbn [headQ] in H2. now rewrite H2. }
    destruct r as [|y r']; [now apply Hid|].
    destruct (y =? 33) eqn:E33; [|now apply Hid].
    apply N.eqb_eq in E33. subst y. exists (t ++ [33]), r', KBuiltin, 0%Z, None, [].
    split; [now rewrite <- app_assoc|]. split; [discriminate|].
    intros r2 _. unfold lex_word. rewrite <- app_assoc. cbn [app].
    rewrite (Hloc (33 :: r2) eq_refl), Ec. change (33 =? 33) with true. cbv iota.
    rewrite len_app, len_cons, len_nil. f_equal. lia.
Qed.

Definition not_radix (cs : list N) : Prop :=
  match cs with [] => True | y :: _ => (y =? 120) = false /\ (y =? 98) = false end.

Lemma stops_not_radix r : stops r -> not_radix r.
Proof.
  destruct r as [|h t]; [trivial|]. cbn [stops not_radix]. intros Hh.
  split; apply N.eqb_neq; intros ->; discriminate Hh.
Qed.

Local Open Scope Z_scope.

Fixpoint value_of_digits (base : Z) (ds : list N) : Z :=
  match ds with
  | [] => 0
  | d :: r => digit_val d * base ^ Z.of_nat (length r) + value_of_digits base r
  end.

Lemma value_of_digits_nonneg base ds :
  Forall (fun d => 0 <= digit_val d < base) ds -> 0 <= value_of_digits base ds.
Proof.
  intros H. induction H as [|d r Hd _ IH]; cbn [value_of_digits]; [lia|].
  assert (0 < base ^ Z.of_nat (length r)) by (apply Z.pow_pos_nonneg; lia). nia.
Qed.

Lemma parse_acc_spec limit base :
  forall ds acc, 0 <= acc < limit -> Forall (fun d => 0 <= digit_val d < base) ds ->
  parse_acc limit base acc ds =
  let v := acc * base ^ Z.of_nat (length ds) + value_of_digits base ds in
  if v <? limit then Some v else None.
Proof.
  induction ds as [|d r IH]; intros acc Hacc Hv.
  - cbn [parse_acc length value_of_digits Z.of_nat]. cbv zeta.
    replace (acc * base ^ 0 + 0) with acc by (rewrite Z.pow_0_r; lia).
    destruct (Z.ltb_spec acc limit); [reflexivity|lia].
  - inversion Hv as [|d' r' Hd Hr]; subst.
    (* a digit below it makes the base positive; nia is much slower when it has to find that *)
    assert (Hb : 0 < base) by lia.
    pose proof (value_of_digits_nonneg base r Hr) as Hnn.
    assert (Hp : 0 < base ^ Z.of_nat (length r)) by (apply Z.pow_pos_nonneg; lia).
    cbn [parse_acc]. cbv zeta.
    assert (Hexp : base ^ Z.of_nat (length (d :: r)) = base * base ^ Z.of_nat (length r)).
    { cbn [length]. rewrite Nat2Z.inj_succ, Z.pow_succ_r; lia. }
    rewrite Hexp. cbn [value_of_digits].
    set (pw := base ^ Z.of_nat (length r)) in *.
    set (vr := value_of_digits base r) in *.
    destruct (Z.leb_spec limit (acc * base)) as [Hov|Hok].
    + destruct (Z.ltb_spec (acc * (base * pw) + (digit_val d * pw + vr)) limit); [nia|reflexivity].
    + destruct (Z.leb_spec limit (acc * base + digit_val d)) as [Hov2|Hok2].
      * destruct (Z.ltb_spec (acc * (base * pw) + (digit_val d * pw + vr)) limit); [nia|reflexivity].
      * rewrite IH; [|nia|assumption]. cbv zeta. fold pw. fold vr.
        replace ((acc * base + digit_val d) * pw + vr)
          with (acc * (base * pw) + (digit_val d * pw + vr)) by ring.
        reflexivity.
Qed.

Lemma from_str_radix_spec limit base isd ds :
  (forall c, isd c = true -> 0 <= digit_val c < base) -> 0 < limit ->
  ds <> [] -> forallb isd ds = true ->
  from_str_radix limit base ds =
  if value_of_digits base ds <? limit then Some (value_of_digits base ds) else None.
Proof.
  intros Hval Hl Hne Hds. destruct ds as [|d r]; [congruence|].
  unfold from_str_radix. rewrite (parse_acc_spec limit base (d :: r) 0); [|lia|].
  - cbv zeta. now rewrite Z.mul_0_l, Z.add_0_l.
  - apply Forall_forall. intros c Hc. exact (Hval c (proj1 (forallb_forall isd _) Hds c Hc)).
Qed.

Lemma dec_valid c : is_dec c = true -> 0 <= digit_val c < 10.
Proof. unfold digit_val. intros H. rewrite H. apply in_range_spec in H. lia. Qed.
Lemma bin_valid c : is_bin c = true -> 0 <= digit_val c < 2.
Proof. unfold is_bin. rewrite orb_true_iff, !N.eqb_eq. intros [->| ->]; cbn; lia. Qed.
Lemma hex_valid c : is_hex c = true -> 0 <= digit_val c < 16.
Proof.
  unfold digit_val, is_hex, is_dec. intros H.
  destruct (in_range 48 57 c) eqn:Hd; [apply in_range_spec in Hd; lia|].
  destruct (in_range 97 102 c) eqn:Hl; [apply in_range_spec in Hl; lia|].
  apply in_range_spec in H. lia.
Qed.

Lemma strip_us_digits isd ds : digits_us isd ds = true -> forallb isd (strip_us ds) = true.
Proof.
  intros H. apply forallb_forall. intros c Hc. apply filter_In in Hc. destruct Hc as [Hin Hne].
  apply negb_true_iff in Hne. apply (proj1 (forallb_forall _ ds) H) in Hin. now rewrite Hne, orb_false_r in Hin.
Qed.

Lemma u128_limit_pos : 0 < U128_LIMIT.
Proof. reflexivity. Qed.

(* [suf] can follow the digits [isd]: nonempty, all identifier characters, and
   its first character is neither a digit nor an underscore (else the literal
   loop would have taken it). *)
Definition suffix_shape (isd : N -> bool) (suf : list N) : bool :=
  forallb is_ident_cont suf &&
  match suf with [] => false | y :: _ => negb (isd y) && negb (y =? 95)%N end.

Lemma suffix_shape_head isd suf rest : suffix_shape isd suf = true ->
  ends_digits isd (suf ++ rest).
Proof.
  unfold suffix_shape. intros H. apply andb_true_iff in H. destruct H as [_ H].
  destruct suf as [|y s]; [discriminate|]. cbn [app]. apply andb_true_iff in H.
  destruct H as [H1 H2]. apply negb_true_iff in H1, H2. apply N.eqb_neq in H2. now split.
Qed.

(* every remainder of a line has the shape the number specifications ask for *)
Lemma number_split isd cs : exists ds suf r, cs = ds ++ suf ++ r /\ digits_us isd ds = true /\
  (suf = [] \/ suffix_shape isd suf = true) /\ stops r.
Proof.
  destruct (digits_split isd cs) as (ds & r0 & -> & Hds & H0).
  destruct (ident_split r0) as (suf & r & -> & Hsuf & Hr).
  exists ds, suf, r. repeat split; try assumption.
  destruct suf as [|y s]; [now left|right]. destruct H0 as [Hy H95]. apply N.eqb_neq in H95.
  unfold suffix_shape. now rewrite Hsuf, Hy, H95.
Qed.

Lemma number_scan isd ds suf rest :
  isd 95%N = false -> (forall c, isd c = true -> is_ident_cont c = true) ->
  digits_us isd ds = true -> suf = [] \/ suffix_shape isd suf = true -> stops rest ->
  take_digits isd (ds ++ suf ++ rest) = (strip_us ds, len ds, suf ++ rest) /\
  take_ident (suf ++ rest) = (suf, rest).
Proof.
  intros H95 Hcont Hds [->|Hsuf] Hr.
  - split; [|now apply take_ident_stops]. apply take_digits_app; [exact H95|exact Hds|].
    now apply stops_not_digit.
  - split; [apply take_digits_app; [exact H95|exact Hds|now apply suffix_shape_head]|].
    apply take_ident_app; [|exact Hr]. unfold suffix_shape in Hsuf. now apply andb_true_iff in Hsuf.
Qed.

(* What every number arm makes of the value [v] of the digits and of the suffix ([nodigits]: a
   radix prefix without any digit; [kd]: the kind of the literal when there is no suffix), and
   the token of [n] characters that carries it. *)
Definition num_payload (nodigits : bool) (kd : tkind) (v : Z) (suf : list N) : payload :=
  if nodigits then (KError, E141, None)
  else if v <? 2 ^ 128 then
    match suf with
    | [] => (kd, v, None)
    | _ :: _ => match parse_integer_suffix suf with
                | Some p => (KSuffixedInteger, v, Some (TyPrim p))
                | None => (KError, E141, None)
                end
    end
  else (KError, E140, None).
Definition number_tok (p : payload) (n : N) (rest : list N) : step :=
  let '(k, v, ty) := p in StTok k v ty [] n rest.

Lemma lex_decimal_spec x ds suf rest :
  is_nonzero_dec x = true -> digits_us is_dec ds = true ->
  suf = [] \/ suffix_shape is_dec suf = true -> stops rest ->
  lex_step x (ds ++ suf ++ rest) =
  number_tok (num_payload false KNakedDecimal (value_of_digits 10 (x :: strip_us ds)) suf) (1 + len ds + len suf) rest.
Proof.
  intros Hx Hds Hsuf Hr. rewrite (lex_step_decimal x _ Hx). unfold lex_decimal.
  destruct (number_scan is_dec ds suf rest eq_refl dec_is_cont Hds Hsuf Hr) as [-> ->].
  assert (Hxd : is_dec x = true) by (apply in_range_spec; apply in_range_spec in Hx; lia).
  rewrite (from_str_radix_spec U128_LIMIT 10 is_dec (x :: strip_us ds) dec_valid u128_limit_pos);
    [|discriminate|cbn [forallb]; now rewrite Hxd, strip_us_digits].
  unfold number_tok, num_payload. change U128_LIMIT with (2 ^ 128).
  destruct (_ <? 2 ^ 128); [|reflexivity].
  unfold finish_number. cbn [is_nil andb]. destruct suf as [|y s]; [reflexivity|]. cbn [is_nil].
  destruct (parse_integer_suffix (y :: s)); reflexivity.
Qed.

(* "0x" / "0b" without a digit: the prefix letter joins the suffix, and no suffix of the
   table begins with it. *)
Lemma lex_radix_spec isd base pc ds suf rest :
  isd 95%N = false ->
  (forall c, isd c = true -> 0 <= digit_val c < base) ->
  (forall c, isd c = true -> is_ident_cont c = true) -> (pc = 120 \/ pc = 98)%N ->
  digits_us isd ds = true -> suf = [] \/ suffix_shape isd suf = true -> stops rest ->
  lex_radix isd base pc (ds ++ suf ++ rest) =
  number_tok (num_payload (is_nil (strip_us ds)) KBitInteger (value_of_digits base (strip_us ds)) suf)
             (2 + len ds + len suf) rest.
Proof.
  intros H95 Hval Hcont Hpc Hds Hsuf Hr. unfold lex_radix.
  destruct (number_scan isd ds suf rest H95 Hcont Hds Hsuf Hr) as [-> ->].
  pose proof (strip_us_digits isd ds Hds) as Hv.
  destruct (strip_us ds) as [|d l] eqn:Hs; [destruct Hpc as [->| ->]; reflexivity|].
  rewrite (from_str_radix_spec U128_LIMIT base isd (d :: l) Hval u128_limit_pos ltac:(discriminate) Hv).
  unfold number_tok, num_payload. change U128_LIMIT with (2 ^ 128). cbn [is_nil].
  destruct (_ <? 2 ^ 128); [|reflexivity].
  unfold finish_number. cbn [is_nil andb]. rewrite andb_false_r.
  destruct suf as [|y s]; [reflexivity|]. cbn [is_nil].
  destruct (parse_integer_suffix (y :: s)); reflexivity.
Qed.

(* [1-9][0-9_]* followed by something that is not [a-zA-Z0-9_] *)
Theorem decimal_value x ds rest :
  is_nonzero_dec x = true -> digits_us is_dec ds = true -> stops rest ->
  let v := value_of_digits 10 (x :: strip_us ds) in
  lex_step x (ds ++ rest) =
  if v <? 2 ^ 128
  then StTok KNakedDecimal v None [] (1 + len ds) rest
  else StTok KError E140 None [] (1 + len ds) rest.
Proof.
  intros Hx Hds Hr v.
  rewrite (lex_decimal_spec x ds [] rest Hx Hds (or_introl eq_refl) Hr : lex_step x (ds ++ rest) = _).
  unfold number_tok, num_payload. rewrite len_nil, N.add_0_r. now destruct (_ <? _).
Qed.

Theorem hex_value ds rest :
  digits_us is_hex ds = true -> strip_us ds <> [] -> stops rest ->
  let v := value_of_digits 16 (strip_us ds) in
  lex_step 48 (120%N :: ds ++ rest) =
  if v <? 2 ^ 128
  then StTok KBitInteger v None [] (2 + len ds) rest
  else StTok KError E140 None [] (2 + len ds) rest.
Proof.
  intros Hds Hne Hr v.
  rewrite (lex_radix_spec is_hex 16 120 ds [] rest eq_refl hex_valid hex_is_cont (or_introl eq_refl) Hds
             (or_introl eq_refl) Hr : lex_step 48 (120%N :: ds ++ rest) = _).
  unfold number_tok, num_payload. rewrite len_nil, N.add_0_r. destruct (strip_us ds); [congruence|]. now destruct (_ <? _).
Qed.

Theorem bin_value ds rest :
  digits_us is_bin ds = true -> strip_us ds <> [] -> stops rest ->
  let v := value_of_digits 2 (strip_us ds) in
  lex_step 48 (98%N :: ds ++ rest) =
  if v <? 2 ^ 128
  then StTok KBitInteger v None [] (2 + len ds) rest
  else StTok KError E140 None [] (2 + len ds) rest.
Proof.
  intros Hds Hne Hr v.
  rewrite (lex_radix_spec is_bin 2 98 ds [] rest eq_refl bin_valid bin_is_cont (or_intror eq_refl) Hds
             (or_introl eq_refl) Hr : lex_step 48 (98%N :: ds ++ rest) = _).
  unfold number_tok, num_payload. rewrite len_nil, N.add_0_r. destruct (strip_us ds); [congruence|]. now destruct (_ <? _).
Qed.

(* "0x" / "0b" followed by no digit at all (only underscores): the prefix
   letter becomes the suffix, which is never valid: E141, not E140. *)
Theorem radix_without_digits ds rest :
  forallb (N.eqb 95) ds = true -> stops rest ->
  lex_step 48 (120%N :: ds ++ rest) = StTok KError E141 None [] (2 + len ds) rest /\
  lex_step 48 (98%N :: ds ++ rest) = StTok KError E141 None [] (2 + len ds) rest.
Proof.
  intros Hds Hr.
  assert (Hs : strip_us ds = [] /\ forall isd, digits_us isd ds = true).
  { unfold digits_us. induction ds as [|c ds IH]; [split; reflexivity|]. cbn [forallb] in Hds.
    apply andb_true_iff in Hds. destruct Hds as [Hc Hds]. apply N.eqb_eq in Hc. subst c.
    destruct (IH Hds) as [IH1 IH2]. split; [exact IH1|]. intros isd. cbn [forallb]. now rewrite IH2, orb_true_r. }
  destruct Hs as [Hs Hd].
  pose proof (fun isd base pc H95 Hv Hc Hpc =>
    lex_radix_spec isd base pc ds [] rest H95 Hv Hc Hpc (Hd isd) (or_introl eq_refl) Hr) as Hgen.
  cbn [app] in Hgen. rewrite Hs, len_nil, N.add_0_r in Hgen.
  split; [apply (Hgen is_hex 16 120%N)|apply (Hgen is_bin 2 98%N)];
    auto using hex_is_cont, bin_is_cont, hex_valid, bin_valid; reflexivity.
Qed.

(* A 0 not followed by x or b: the identifier characters behind it are its suffix. *)
Lemma lex_zero_spec suf rest : forallb is_ident_cont suf = true -> not_radix (suf ++ rest) -> stops rest ->
  lex_zero (suf ++ rest) = number_tok (num_payload false KNakedDecimal 0 suf) (1 + len suf) rest.
Proof.
  intros Hs Hn Hr.
  assert (E : lex_zero (suf ++ rest) =
              let '(t, r) := take_ident (suf ++ rest) in
              let '(kd, v, ty) := finish_number true (Some 0) [] t in StTok kd v ty [] (1 + len t) r).
  { unfold lex_zero. destruct (suf ++ rest) as [|y r]; [reflexivity|]. destruct Hn as [-> ->]. reflexivity. }
  rewrite E, (take_ident_app suf rest Hs Hr). now destruct suf.
Qed.

Theorem zero_value rest :
  stops rest -> lex_step 48 rest = StTok KNakedDecimal 0 None [] 1 rest.
Proof. intros Hr. exact (lex_zero_spec [] rest eq_refl (stops_not_radix rest Hr) Hr). Qed.

(* 0 followed by more digits ("octal looking") or underscores: E141. *)
Theorem zero_then_digits d rest :
  is_dec d = true \/ d = 95%N ->
  exists n rest', lex_step 48 (d :: rest) = StTok KError E141 None [] n rest'.
Proof.
  intros Hd. change (lex_step 48 (d :: rest)) with (lex_zero (d :: rest)). unfold lex_zero.
  assert (Hc : is_ident_cont d = true) by (destruct Hd as [Hd| ->]; [now apply dec_is_cont|reflexivity]).
  destruct (d =? 120)%N eqn:E1; [apply N.eqb_eq in E1; subst; destruct Hd; discriminate|].
  destruct (d =? 98)%N eqn:E2; [apply N.eqb_eq in E2; subst; destruct Hd; discriminate|].
  cbn [take_ident]. rewrite Hc. destruct (take_ident rest) as [t r'] eqn:Et.
  assert (Hs : parse_integer_suffix (d :: t) = None).
  { unfold parse_integer_suffix, suffix_table. cbn [assoc str_eqb].
    (* no suffix starts with a digit or an underscore *)
    assert (H : (d <> 105 /\ d <> 117)%N)
      by (destruct Hd as [Hd| ->]; [apply in_range_spec in Hd; lia|split; discriminate]).
    destruct H as [H1 H2]. apply N.eqb_neq in H1, H2. rewrite H1, H2. reflexivity. }
  unfold finish_number. cbn [is_nil andb]. rewrite andb_false_r, Hs. eauto.
Qed.

(* The hypotheses of decimal_value can be met: "1_000_" before "+1". *)
Example decimal_value_hyp_ok :
  is_nonzero_dec 49 = true /\ digits_us is_dec (str "_000_") = true /\ stops (str "+1") /\
  value_of_digits 10 (49%N :: strip_us (str "_000_")) = 1000.
Proof. vm_compute. repeat split; reflexivity. Qed.

(* Last clause: no table suffix begins with x or b, so behind a lone 0 it is
   not taken for a radix prefix. *)
Lemma suffix_table_shape suf p : In (suf, p) suffix_table ->
  parse_integer_suffix suf = Some p /\ suffix_shape is_hex suf = true /\
  suffix_shape is_dec suf = true /\ suffix_shape is_bin suf = true /\ not_radix suf.
Proof.
  unfold suffix_table. cbn [In]. intros H.
  repeat (destruct H as [H|H]; [inversion H; subst; vm_compute; repeat split|]). contradiction.
Qed.

Lemma number_tok_suffix kd v suf p n rest :
  suf <> [] -> parse_integer_suffix suf = Some p ->
  number_tok (num_payload false kd v suf) n rest =
  if v <? 2 ^ 128 then StTok KSuffixedInteger v (Some (TyPrim p)) [] n rest
  else StTok KError E140 None [] n rest.
Proof.
  intros Hne Hp. unfold number_tok, num_payload. destruct suf; [congruence|]. rewrite Hp. now destruct (_ <? _).
Qed.

(* A decimal literal directly followed by one of i8 i16 i32 i64 i128 u8 u16
   u32 u64 u128 usize. *)
Theorem suffix_value x ds suf p rest :
  is_nonzero_dec x = true -> digits_us is_dec ds = true ->
  In (suf, p) suffix_table -> stops rest ->
  let v := value_of_digits 10 (x :: strip_us ds) in
  let n := (1 + len ds + len suf)%N in
  lex_step x (ds ++ suf ++ rest) =
  if v <? 2 ^ 128
  then StTok KSuffixedInteger v (Some (TyPrim p)) [] n rest
  else StTok KError E140 None [] n rest.
Proof.
  intros Hx Hds Hin Hr v n. destruct (suffix_table_shape suf p Hin) as (Hp & _ & Hs & _ & _).
  rewrite (lex_decimal_spec x ds suf rest Hx Hds (or_intror Hs) Hr).
  apply number_tok_suffix; [intros ->; discriminate|exact Hp].
Qed.

(* Any other run of identifier characters after the digits: E141 (E140 if
   the value overflows as well). *)
Theorem suffix_invalid x ds suf rest :
  is_nonzero_dec x = true -> digits_us is_dec ds = true ->
  suffix_shape is_dec suf = true -> stops rest ->
  (forall p, ~ In (suf, p) suffix_table) ->
  let v := value_of_digits 10 (x :: strip_us ds) in
  let n := (1 + len ds + len suf)%N in
  lex_step x (ds ++ suf ++ rest) =
  if v <? 2 ^ 128 then StTok KError E141 None [] n rest else StTok KError E140 None [] n rest.
Proof.
  intros Hx Hds Hs Hr Hnot v n.
  rewrite (lex_decimal_spec x ds suf rest Hx Hds (or_intror Hs) Hr). unfold number_tok, num_payload.
  destruct suf as [|y s]; [discriminate|].
  destruct (parse_integer_suffix (y :: s)) as [p|] eqn:Hp; [|now destruct (_ <? _)].
  exfalso. apply (Hnot p). now apply assoc_In.
Qed.

(* The hypotheses of suffix_invalid can be met: char8 is a type, not a suffix. *)
Example suffix_invalid_hyp_ok :
  suffix_shape is_dec (str "char8") = true /\ (forall p, ~ In (str "char8", p) suffix_table).
Proof.
  split; [reflexivity|]. intros p H. unfold suffix_table in H. cbn [In] in H.
  repeat (destruct H as [H|H]; [discriminate H|]). contradiction.
Qed.

(* suffix_value for 0x / 0b literals and for a plain 0. *)
Theorem radix_suffix_value suf p rest :
  In (suf, p) suffix_table -> stops rest ->
  (forall ds, digits_us is_hex ds = true -> strip_us ds <> [] ->
     let v := value_of_digits 16 (strip_us ds) in
     let n := (2 + len ds + len suf)%N in
     lex_step 48 (120%N :: ds ++ suf ++ rest) =
     if v <? 2 ^ 128 then StTok KSuffixedInteger v (Some (TyPrim p)) [] n rest
     else StTok KError E140 None [] n rest) /\
  (forall ds, digits_us is_bin ds = true -> strip_us ds <> [] ->
     let v := value_of_digits 2 (strip_us ds) in
     let n := (2 + len ds + len suf)%N in
     lex_step 48 (98%N :: ds ++ suf ++ rest) =
     if v <? 2 ^ 128 then StTok KSuffixedInteger v (Some (TyPrim p)) [] n rest
     else StTok KError E140 None [] n rest) /\
  lex_step 48 (suf ++ rest) = StTok KSuffixedInteger 0 (Some (TyPrim p)) [] (1 + len suf) rest.
Proof.
  intros Hin Hr. destruct (suffix_table_shape suf p Hin) as (Hp & Hsh & Hsd & Hsb & Hhd).
  assert (Hne : suf <> []) by (intros ->; discriminate).
  split; [|split].
  - intros ds Hds Hd v n.
    rewrite (lex_radix_spec is_hex 16 120 ds suf rest eq_refl hex_valid hex_is_cont (or_introl eq_refl) Hds
               (or_intror Hsh) Hr : lex_step 48 (120%N :: ds ++ suf ++ rest) = _).
    destruct (strip_us ds); [congruence|]. now apply number_tok_suffix.
  - intros ds Hds Hd v n.
    rewrite (lex_radix_spec is_bin 2 98 ds suf rest eq_refl bin_valid bin_is_cont (or_intror eq_refl) Hds
               (or_intror Hsb) Hr : lex_step 48 (98%N :: ds ++ suf ++ rest) = _).
    destruct (strip_us ds); [congruence|]. now apply number_tok_suffix.
  - unfold suffix_shape in Hsd. apply andb_true_iff in Hsd. destruct Hsd as [Hcont _].
    rewrite (lex_zero_spec suf rest Hcont ltac:(destruct suf; [congruence|exact Hhd]) Hr : lex_step 48 (suf ++ rest) = _).
    exact (number_tok_suffix KNakedDecimal 0 suf p _ rest Hne Hp).
Qed.

(* The value of a digit string as the fold from the left over its digits. *)
Definition horner (b : N) (ds : list N) (acc : N) : N := fold_left (fun a d => (a * b + d)%N) ds acc.

Lemma horner_app b l1 l2 acc : horner b (l1 ++ l2) acc = horner b l2 (horner b l1 acc).
Proof. unfold horner. apply fold_left_app. Qed.

Lemma value_of_digits_horner (b : N) cs ds : map digit_val cs = map Z.of_N ds ->
  value_of_digits (Z.of_N b) cs = Z.of_N (horner b ds 0).
Proof.
  intros Hm.
  (* [value_of_digits] weighs each digit by a power of the base: behind an accumulator
     it is the fold from the left that [horner] is *)
  assert (H : forall acc, Z.of_N acc * Z.of_N b ^ Z.of_nat (length cs) + value_of_digits (Z.of_N b) cs =
                          Z.of_N (horner b ds acc)).
  { revert ds Hm. induction cs as [|c cs IH]; intros [|d ds] Hm acc; try discriminate; [cbn; lia|].
    inversion Hm as [[Hc Hm']]. cbn [value_of_digits length horner fold_left]. fold (horner b ds (acc * b + d)).
    rewrite <- (IH ds Hm'), Hc, Nat2Z.inj_succ, Z.pow_succ_r, N2Z.inj_add, N2Z.inj_mul by lia. ring. }
  specialize (H 0%N). lia.
Qed.

(* digit strings without underscores, written with [f] in base [b] and read with [isd];
   [base] is [Z.of_N b], given apart so that the callers get the equation over the literal
   10, 16 or 2 that the number theorems have *)
Lemma digit_chars (isd : N -> bool) (f : N -> N) (base : Z) (b : N) ds : isd 95%N = false -> base = Z.of_N b ->
  Forall (fun d => (d < b)%N) ds -> (forall d, (d < b)%N -> digit_val (f d) = Z.of_N d /\ isd (f d) = true) ->
  digits_us isd (map f ds) = true /\ strip_us (map f ds) = map f ds /\
  value_of_digits base (map f ds) = Z.of_N (horner b ds 0).
Proof.
  intros H95 -> Hall Hf. split; [|split].
  - apply forallb_forall. intros c Hc. apply in_map_iff in Hc as (d & <- & Hd).
    rewrite Forall_forall in Hall. now rewrite (proj2 (Hf d (Hall d Hd))).
  - induction Hall as [|d ds Hd _ IH]; [reflexivity|]. cbn [map strip_us filter]. fold (strip_us (map f ds)). rewrite IH.
    destruct (N.eqb_spec (f d) 95) as [E|_]; [|reflexivity]. destruct (Hf d Hd) as [_ Hi]. congruence.
  - apply value_of_digits_horner. rewrite map_map. apply map_ext_in. intros d Hd.
    rewrite Forall_forall in Hall. exact (proj1 (Hf d (Hall d Hd))).
Qed.

Local Open Scope N_scope.

Lemma num_payload_no_oof nd kd v suf k w ty : kd <> KError ->
  num_payload nd kd v suf = (k, w, ty) -> k = KError -> w <> OOF.
Proof.
  unfold num_payload. intros Hkd H ->. destruct nd; [inversion H; discriminate|].
  destruct (v <? 2 ^ 128)%Z; [|inversion H; discriminate]. destruct suf; [inversion H; congruence|].
  destruct (parse_integer_suffix _); inversion H; discriminate.
Qed.

Lemma lex_decimal_arm x rest : is_nonzero_dec x = true -> tok_arm x (lex_decimal x) rest.
Proof.
  intros Hx. destruct (number_split is_dec rest) as (ds & suf & r & -> & Hds & Hsuf & Hr).
  destruct (num_payload false KNakedDecimal (value_of_digits 10 (x :: strip_us ds)) suf) as [[k w] ty] eqn:Hp.
  exists (ds ++ suf), r, k, w, ty, []. split; [now rewrite app_assoc|].
  split; [eapply num_payload_no_oof; [|exact Hp]; discriminate|].
  intros r2 Hq.
  rewrite <- app_assoc, <- (lex_step_decimal x _ Hx), (lex_decimal_spec x ds suf r2 Hx Hds Hsuf (quiet_stops _ _ _ Hq Hr)), Hp.
  cbn [number_tok]. f_equal. rewrite len_app. lia.
Qed.

(* "0x" / "0b" and what follows it. *)
Lemma lex_radix_arm isd base pc x cs :
  isd 95 = false -> (forall c, isd c = true -> (0 <= digit_val c < base)%Z) ->
  (forall c, isd c = true -> is_ident_cont c = true) -> pc = 120 \/ pc = 98 ->
  (forall r, lex_zero (pc :: r) = lex_radix isd base pc r) ->
  tok_arm x lex_zero (pc :: cs).
Proof.
  intros H95 Hval Hcont Hpc Hz. destruct (number_split isd cs) as (ds & suf & r & -> & Hds & Hsuf & Hr).
  destruct (num_payload (is_nil (strip_us ds)) KBitInteger (value_of_digits base (strip_us ds)) suf) as [[k w] ty] eqn:Hp.
  exists (pc :: ds ++ suf), r, k, w, ty, []. split; [cbn [app]; now rewrite app_assoc|].
  split; [eapply num_payload_no_oof; [|exact Hp]; discriminate|].
  intros r2 Hq. cbn [app].
  rewrite Hz, <- app_assoc, (lex_radix_spec isd base pc ds suf r2 H95 Hval Hcont Hpc Hds Hsuf (quiet_stops _ _ _ Hq Hr)), Hp.
  cbn [number_tok]. f_equal. rewrite len_cons, len_app. lia.
Qed.

Lemma lex_zero_arm x rest : tok_arm x lex_zero rest.
Proof.
  (* a plain 0: what follows is its suffix *)
  assert (Hplain : forall cs, not_radix cs -> tok_arm x lex_zero cs).
  { intros cs Hcs. destruct (ident_split cs) as (suf & r & -> & Hsuf & Hr).
    destruct (num_payload false KNakedDecimal 0 suf) as [[k w] ty] eqn:Hp.
    exists suf, r, k, w, ty, []. split; [reflexivity|].
    split; [eapply num_payload_no_oof; [|exact Hp]; discriminate|].
    intros r2 Hq. pose proof (quiet_stops _ _ _ Hq Hr) as H2.
    rewrite lex_zero_spec, Hp; [reflexivity|exact Hsuf| |exact H2].
    destruct suf as [|h suf']; [now apply stops_not_radix|exact Hcs]. }
  destruct rest as [|y r1]; [exact (Hplain [] I)|].
  destruct (N.eqb_spec y 120) as [->|H120].
  { apply (lex_radix_arm is_hex 16%Z); auto using hex_valid, hex_is_cont; reflexivity. }
  destruct (N.eqb_spec y 98) as [->|H98].
  { apply (lex_radix_arm is_bin 2%Z); auto using bin_valid, bin_is_cont; reflexivity. }
  apply Hplain. split; now apply N.eqb_neq.
Qed.

Definition step_arm (x : N) (F : list N -> step) : Prop :=
  forall rest, F rest = StEnd \/ F rest = StSkip \/ tok_arm x F rest \/
    ((x = 34 \/ x = 39) /\ forall r, F r = lex_quote x r).

Lemma tok_step_arm x F : (forall rest, tok_arm x F rest) -> step_arm x F.
Proof. intros H rest. right. right. left. apply H. Qed.

Lemma lex_step_arm x : step_arm x (lex_step x).
Proof.
  unfold lex_step.
  repeat match goal with
  | |- step_arm _ (fun r => if ?b then _ else _) => destruct b eqn:?
  | |- step_arm _ (fun r => single ?k r) =>
      apply tok_step_arm; intros rest; apply tok1_arm; discriminate
  | |- step_arm _ (fun r => double ?y ?k2 ?k1 r) =>
      apply tok_step_arm; intros rest; apply double_arm; discriminate
  end.
  - (* < *) apply tok_step_arm. intros rest. apply triple_arm; discriminate.
  - (* > *) apply tok_step_arm. intros rest. apply triple_arm; discriminate.
  - (* / *)
    match goal with H : (x =? 47) = true |- _ => apply N.eqb_eq in H; subst x end.
    intros rest. destruct rest as [|z r]; [right; right; left; exact (slash_arm [] I)|].
    destruct (z =? 47) eqn:Ez; [now left|right; right; left; exact (slash_arm (z :: r) Ez)].
  - (* a letter or _ *) apply tok_step_arm, lex_word_arm.
  - (* 0 *) apply tok_step_arm. intros rest. apply lex_zero_arm.
  - (* 1..9 *) apply tok_step_arm. intros rest. now apply lex_decimal_arm.
  - (* a quote *) intros rest. right. right. right. split; [|reflexivity].
    match goal with H : _ || _ = true |- _ => apply orb_true_iff in H; rewrite !N.eqb_eq in H; exact H end.
  - (* a blank *) intros rest. right. now left.
  - (* anything else: E110 *) apply tok_step_arm. intros rest. apply tok1_arm. discriminate.
Qed.

(* Errors of the first_error_token kind only come from the quote arm. *)
Lemma strerr_is_quote x rest c es ee eo n m r :
  lex_step x rest = StStrErr c es ee eo n m r -> x = 34 \/ x = 39.
Proof.
  intros H. destruct (lex_step_arm x rest)
    as [E|[E|[(u & r1 & k & v & ty & bs & -> & _ & HF)|[Hq _]]]]; [congruence|congruence| |exact Hq].
  rewrite (HF r1 (quiet_refl x r1)) in H. discriminate.
Qed.

Lemma str_loop_nil f q p e : str_loop f q p e [] =
  {| sr_bytes := []; sr_closed := false; sr_err := None;
     sr_soe := p; sr_eolo := e; sr_chars := 0; sr_rest := [] |}.
Proof. destruct f; reflexivity. Qed.

(* The error that an iteration which starts at index [p] and advances
   source_offset_end by [k] records with the code [er]. *)
Definition err_at (p k : N) (er : option Z) : option strerr :=
  match er with Some c => Some (c, p, p + k, p + 1) | None => None end.

(* A character that is neither a backslash nor the closing quote: the bytes it
   pushes and the code of the error it records. *)
Definition str_char (x : N) : list N * option Z :=
  if x =? 32 then ([32], None)
  else if is_ascii_graphic x then ([x], None)
  else if is_ascii x then ([], Some E110)
  else (utf8 x, None).

Lemma str_loop_char f q p e x r : (x =? 92) = false -> (x =? q) = false ->
  str_loop (S f) q p e (x :: r) =
  sr_cons (fst (str_char x)) (err_at p 1 (snd (str_char x))) 1 (str_loop f q (p + 1) (p + 1) r).
Proof.
  intros H1 H2. cbn [str_loop]. rewrite H1, H2. unfold str_char.
  destruct (x =? 32); [reflexivity|]. destruct (is_ascii_graphic x); [reflexivity|].
  destruct (is_ascii x); reflexivity.
Qed.

Lemma str_loop_esc f q p e r : str_loop (S f) q p e (92 :: r) =
  let '(bs, er, adv, m, r') := esc_step r in
  sr_cons bs (err_at p adv er) (1 + m) (str_loop f q (p + adv) (p + 1) r').
Proof. reflexivity. Qed.

Lemma str_char_err x : snd (str_char x) <> Some OOF.
Proof. unfold str_char. destruct (x =? 32), (is_ascii_graphic x), (is_ascii x); discriminate. Qed.

Lemma utf8_ascii c : is_ascii c = true -> utf8 c = [c].
Proof. unfold is_ascii, utf8. intros H. apply N.leb_le in H. destruct (N.ltb_spec c 128); [reflexivity|lia]. Qed.

Lemma str_char_ok c :
  (c =? 32) || is_ascii_graphic c || negb (is_ascii c) = true -> str_char c = (utf8 c, None).
Proof.
  unfold str_char. destruct (c =? 32) eqn:E32; [apply N.eqb_eq in E32; now subst c|].
  destruct (is_ascii_graphic c) eqn:Eg.
  - intros _. rewrite utf8_ascii; [reflexivity|]. apply in_range_spec in Eg.
    unfold is_ascii. apply N.leb_le. lia.
  - cbn [orb]. intros H. apply negb_true_iff in H. now rewrite H.
Qed.

Lemma esc_step_simple c b r : assoc_char c escape_table = Some b -> esc_step (c :: r) = ([b], None, 2, 1, r).
Proof. intros H. unfold esc_step. now rewrite H. Qed.

(* backslash followed by one of n r t backslash quote double-quote 0 *)
Theorem escape_simple c b r : In (c, b) escape_table -> esc_step (c :: r) = ([b], None, 2, 1, r).
Proof.
  unfold escape_table. cbn [In]. intros H.
  repeat (destruct H as [H|H]; [inversion H; subst; reflexivity|]). contradiction.
Qed.

Example escape_table_bytes :
  escape_table = [(110, 10); (114, 13); (116, 9); (92, 92); (39, 39); (34, 34); (48, 0)].
Proof. reflexivity. Qed.

(* \xHH: exactly two hex digits, one byte *)
Theorem escape_hex h1 h2 r : is_hex h1 = true -> is_hex h2 = true ->
  esc_step (120 :: h1 :: h2 :: r) = ([Z.to_N (value_of_digits 16 [h1; h2])], None, 4, 3, r) /\
  (0 <= value_of_digits 16 [h1; h2] < 256)%Z.
Proof.
  intros H1 H2.
  assert (Hv : value_of_digits 16 [h1; h2] = (digit_val h1 * 16 + digit_val h2)%Z).
  { cbn [value_of_digits length]. change (Z.of_nat 1) with 1%Z. change (Z.of_nat 0) with 0%Z.
    rewrite Z.pow_1_r, Z.pow_0_r. lia. }
  rewrite Hv. split.
  - unfold esc_step. cbn [assoc_char escape_table N.eqb Pos.eqb]. now rewrite H1, H2.
  - apply hex_valid in H1, H2. lia.
Qed.

Lemma parse_unicode_spec ds : ds <> [] -> forallb is_hex ds = true ->
  parse_unicode ds =
  if is_scalar (value_of_digits 16 ds) then Some (Z.to_N (value_of_digits 16 ds)) else None.
Proof.
  intros Hne Hds. unfold parse_unicode.
  rewrite (from_str_radix_spec U32_LIMIT 16 is_hex ds hex_valid eq_refl Hne Hds).
  destruct (Z.ltb_spec (value_of_digits 16 ds) U32_LIMIT) as [Hlt|Hge]; [reflexivity|].
  unfold is_scalar. unfold U32_LIMIT in Hge.
  destruct (Z.ltb_spec (value_of_digits 16 ds) 55296); [lia|].
  destruct (Z.ltb_spec (value_of_digits 16 ds) 1114112); [lia|].
  now rewrite andb_false_r.
Qed.

(* \u{H..H}: any number of hex digits (leading zeros allowed); the value must
   be a Unicode scalar value; the UTF-8 encoding is pushed. *)
Theorem escape_unicode ds r : ds <> [] -> forallb is_hex ds = true ->
  let v := value_of_digits 16 ds in
  esc_step (117 :: 123 :: ds ++ 125 :: r) =
  if is_scalar v then (utf8 (Z.to_N v), None, 4 + len ds, 3 + len ds, r)
  else ([], Some E162, 4 + len ds, 3 + len ds, r).
Proof.
  intros Hne Hds v. unfold esc_step. cbn [assoc_char escape_table N.eqb Pos.eqb].
  rewrite (take_uhex_closed ds r Hds).
  rewrite (parse_unicode_spec ds Hne Hds). fold v.
  replace (3 + (1 + len ds)) with (4 + len ds) by lia.
  replace (2 + (1 + len ds)) with (3 + len ds) by lia.
  destruct (is_scalar v); reflexivity.
Qed.

Lemma is_scalar_bound v : is_scalar v = true -> (0 <= v)%Z -> Z.to_N v < 1114112.
Proof.
  unfold is_scalar. intros H Hv.
  destruct (Z.ltb_spec v 55296); [lia|]. cbn [orb] in H.
  apply andb_true_iff in H. destruct H as [_ H]. apply Z.ltb_lt in H. lia.
Qed.

(* [headQ is_hex] written out. *)
Definition not_hex_head (r : list N) : Prop := match r with [] => True | y :: _ => is_hex y = false end.

Theorem escape_invalid :
  (* backslash at the end of the line *)
  esc_step [] = ([], Some E161, 2, 0, []) /\
  (* \x followed by no hex digit / by a single hex digit *)
  (forall r, not_hex_head r -> esc_step (120 :: r) = ([], Some E162, 2, 1, r)) /\
  (forall h r, is_hex h = true -> not_hex_head r -> esc_step (120 :: h :: r) = ([], Some E162, 3, 2, r)) /\
  (* \u not followed by an opening brace *)
  (forall r, match r with [] => True | y :: _ => y <> 123 end ->
     esc_step (117 :: r) = ([], Some E162, 2, 1, r)) /\
  (* \u{ds without a closing brace: the digits are consumed *)
  (forall ds r, forallb is_hex ds = true ->
     match r with [] => True | y :: _ => is_hex y = false /\ y <> 125 end ->
     esc_step (117 :: 123 :: ds ++ r) = ([], Some E162, 3 + len ds, 2 + len ds, r)) /\
  (* \u{} *)
  (forall r, esc_step (117 :: 123 :: 125 :: r) = ([], Some E162, 4, 3, r)) /\
  (* any other character *)
  (forall c r, assoc_char c escape_table = None -> c <> 120 -> c <> 117 ->
     esc_step (c :: r) = ([], Some E162, 2, 1, r)).
Proof.
  split; [reflexivity|]. split; [|split; [|split; [|split; [|split]]]].
  - intros r Hr. unfold esc_step. cbn [assoc_char escape_table N.eqb Pos.eqb].
    destruct r as [|y r']; [reflexivity|]. cbn [not_hex_head] in Hr. now rewrite Hr.
  - intros h r Hh Hr. unfold esc_step. cbn [assoc_char escape_table N.eqb Pos.eqb]. rewrite Hh.
    destruct r as [|y r']; [reflexivity|]. cbn [not_hex_head] in Hr. now rewrite Hr.
  - intros r Hr. unfold esc_step. cbn [assoc_char escape_table N.eqb Pos.eqb].
    destruct r as [|y r']; [reflexivity|]. apply N.eqb_neq in Hr. now rewrite Hr.
  - intros ds r Hds Hr. unfold esc_step. cbn [assoc_char escape_table N.eqb Pos.eqb].
    now rewrite (take_uhex_open ds r Hds Hr).
  - intros r. reflexivity.
  - intros c r Hc H1 H2. unfold esc_step. rewrite Hc.
    apply N.eqb_neq in H1, H2. now rewrite H1, H2.
Qed.

(* [esc_step] consumes a prefix of its input and, unless it reached the end of
   the line, does not depend on what follows that prefix. *)
Definition esc_wf (cs : list N) (res : list N * option Z * N * N * list N) : Prop :=
  let '(bs, er, adv, m, r') := res in
  exists used, cs = used ++ r' /\ len used = m /\ er <> Some OOF /\
    (adv = 1 + m \/ (adv = 2 + m /\ r' = [] /\ er = Some E161)) /\
    forall z w w', r' = z :: w -> esc_step (used ++ z :: w') = (bs, er, adv, m, z :: w').

Lemma esc_step_wf cs : esc_wf cs (esc_step cs).
Proof.
  unfold esc_wf. unfold esc_step at 1.
  destruct cs as [|c r].
  { (* end of the line *) exists []. repeat split; try discriminate. right. repeat split. }
  destruct (assoc_char c escape_table) eqn:Ea.
  { (* a simple escape *) exists [c]. repeat split; try discriminate; [now left|].
    intros z w w' ->. exact (esc_step_simple c _ _ Ea). }
  destruct (c =? 120) eqn:Ex.
  { (* \x: no, one or two hex digits *)
    destruct r as [|d1 r1].
    { exists [c]. repeat split; try discriminate. now left. }
    destruct (is_hex d1) eqn:E1.
    2:{ exists [c]. repeat split; try discriminate; [now left|].
        intros z w w' Hr. inversion Hr; subst. unfold esc_step. cbn [app]. now rewrite Ea, Ex, E1. }
    destruct r1 as [|d2 r2].
    { exists [c; d1]. repeat split; try discriminate. now left. }
    destruct (is_hex d2) eqn:E2.
    - exists [c; d1; d2]. repeat split; try discriminate; [now left|].
      intros z w w' ->. unfold esc_step. cbn [app]. now rewrite Ea, Ex, E1, E2.
    - exists [c; d1]. repeat split; try discriminate; [now left|].
      intros z w w' Hr. inversion Hr; subst. unfold esc_step. cbn [app]. now rewrite Ea, Ex, E1, E2. }
  destruct (c =? 117) eqn:Eu.
  { (* \u: without brace, or the digits take_uhex scans *)
    destruct r as [|o r1].
    { exists [c]. repeat split; try discriminate. now left. }
    destruct (o =? 123) eqn:Eo.
    2:{ exists [c]. repeat split; try discriminate; [now left|].
        intros z w w' Hr. inversion Hr; subst. unfold esc_step. cbn [app]. now rewrite Ea, Ex, Eu, Eo. }
    destruct (take_uhex r1) as [[[lit closed] k] r2] eqn:E.
    destruct (take_uhex_local _ _ _ _ _ E) as (u & Hu & Hk & Hloc).
    destruct (parse_unicode (if closed then lit else [])) eqn:Ep.
    all: exists (c :: o :: u); repeat split; try discriminate;
      [now rewrite Hu at 1|rewrite !len_cons; lia|left; lia|].
    all: intros z w w' Hr; unfold esc_step; cbn [app]; now rewrite Ea, Ex, Eu, Eo, (Hloc z w w' Hr), Ep. }
  (* any other character *)
  exists [c]. repeat split; try discriminate; [now left|].
  intros z w w' ->. unfold esc_step. cbn [app]. now rewrite Ea, Ex, Eu.
Qed.

(* An independent UTF-8 decoder, against which [utf8] is checked. *)
Definition is_cont_byte (b : N) : bool := in_range 128 191 b.

Definition utf8_decode (bs : list N) : option N :=
  match bs with
  | [a] => if a <? 128 then Some a else None
  | [a; b] =>
      if in_range 192 223 a && is_cont_byte b then Some ((a - 192) * 64 + (b - 128)) else None
  | [a; b; c] =>
      if in_range 224 239 a && is_cont_byte b && is_cont_byte c
      then Some ((a - 224) * 4096 + (b - 128) * 64 + (c - 128)) else None
  | [a; b; c; d] =>
      if in_range 240 247 a && is_cont_byte b && is_cont_byte c && is_cont_byte d
      then Some ((a - 240) * 262144 + (b - 128) * 4096 + (c - 128) * 64 + (d - 128)) else None
  | _ => None
  end.

Lemma add_sub_l n m : n + m - n = m.
Proof. rewrite N.add_comm. apply N.add_sub. Qed.

(* [c] in base 64, three digits deep. *)
Lemma utf8_split c :
  c = 64 * (c / 64) + c mod 64 /\ c / 64 = 64 * (c / 4096) + (c / 64) mod 64 /\
  c / 4096 = 64 * (c / 262144) + (c / 4096) mod 64 /\
  c mod 64 < 64 /\ (c / 64) mod 64 < 64 /\ (c / 4096) mod 64 < 64.
Proof.
  change 4096 with (64 * 64). change 262144 with (64 * 64 * 64).
  rewrite <- !N.div_div by lia.
  repeat split; try (apply N.div_mod; lia); apply N.mod_lt; lia.
Qed.

Theorem utf8_roundtrip c : c < 1114112 ->
  utf8_decode (utf8 c) = Some c /\ Forall (fun b => b < 256) (utf8 c) /\
  len (utf8 c) = (if c <? 128 then 1 else if c <? 2048 then 2 else if c <? 65536 then 3 else 4).
Proof.
  intros Hc. unfold utf8. destruct (utf8_split c) as (H0 & H1 & H2 & M0 & M1 & M2).
  set (q1 := c / 64) in *. set (q2 := c / 4096) in *. set (q3 := c / 262144) in *.
  set (m0 := c mod 64) in *. set (m1 := q1 mod 64) in *. set (m2 := q2 mod 64) in *.
  clearbody q1 q2 q3 m0 m1 m2.
  destruct (N.ltb_spec c 128).
  { cbn [utf8_decode]. destruct (N.ltb_spec c 128); [|lia]. repeat split. repeat constructor. lia. }
  (* two, three or four bytes: the lead byte and the continuation bytes are in range *)
  destruct (N.ltb_spec c 2048); [|destruct (N.ltb_spec c 65536)]; cbn [utf8_decode];
    unfold is_cont_byte; rewrite !(proj2 (in_range_spec _ _ _)) by lia;
    (repeat split; [cbn [andb]; f_equal; rewrite !add_sub_l; lia|repeat constructor; lia]).
Qed.

(* The contents of a quoted literal as a sequence of items. *)
Inductive sitem :=
| IChar (c : N)            (* a character standing for itself *)
| ISimple (c b : N)        (* backslash c, pushing the byte b *)
| IHex (h1 h2 : N)         (* backslash x h1 h2 *)
| IUni (ds : list N).      (* backslash u { ds } *)

Definition render (i : sitem) : list N :=
  match i with
  | IChar c => [c]
  | ISimple c _ => [92; c]
  | IHex h1 h2 => [92; 120; h1; h2]
  | IUni ds => 92 :: 117 :: 123 :: ds ++ [125]
  end.

Definition decode (i : sitem) : list N :=
  match i with
  | IChar c => utf8 c
  | ISimple _ b => [b]
  | IHex h1 h2 => [Z.to_N (value_of_digits 16 [h1; h2])]
  | IUni ds => utf8 (Z.to_N (value_of_digits 16 ds))
  end.

Definition item_ok (q : N) (i : sitem) : bool :=
  match i with
  | IChar c =>
      negb (c =? 92) && negb (c =? q) && ((c =? 32) || is_ascii_graphic c || negb (is_ascii c))
  | ISimple c b => match assoc_char c escape_table with Some b' => b =? b' | None => false end
  | IHex h1 h2 => is_hex h1 && is_hex h2
  | IUni ds => forallb is_hex ds && negb (is_nil ds) && is_scalar (value_of_digits 16 ds)
  end.

Definition renders (items : list sitem) : list N := flat_map render items.
Definition decodes (items : list sitem) : list N := flat_map decode items.

(* One iteration of the loop reads one valid item. *)
Lemma str_loop_item q i : item_ok q i = true ->
  forall f p e tail,
    str_loop (S f) q p e (render i ++ tail) =
    sr_cons (decode i) None (len (render i)) (str_loop f q (p + len (render i)) (p + 1) tail).
Proof.
  intros Hok f p e tail.
  destruct i as [c|c b|h1 h2|ds]; cbn [item_ok] in Hok; cbn [render decode].
  - (* plain character *)
    apply andb_true_iff in Hok. destruct Hok as [Hok Hcls]. apply andb_true_iff in Hok.
    destruct Hok as [H92 Hq]. apply negb_true_iff in H92, Hq.
    cbn [app]. now rewrite (str_loop_char _ _ _ _ _ _ H92 Hq), (str_char_ok c Hcls).
  - (* simple escape *)
    destruct (assoc_char c escape_table) as [b'|] eqn:Ea; [|discriminate].
    apply N.eqb_eq in Hok. subst b'.
    cbn [app]. now rewrite str_loop_esc, (esc_step_simple c b tail Ea).
  - (* hex escape *)
    apply andb_true_iff in Hok. destruct Hok as [H1 H2].
    cbn [app]. rewrite str_loop_esc. now destruct (escape_hex h1 h2 tail H1 H2) as [-> _].
  - (* unicode escape *)
    apply andb_true_iff in Hok. destruct Hok as [Hok Hsc]. apply andb_true_iff in Hok.
    destruct Hok as [Hds Hne]. assert (Hne' : ds <> []) by (destruct ds; discriminate).
    cbn [app]. rewrite <- app_assoc. cbn [app]. rewrite str_loop_esc.
    pose proof (escape_unicode ds tail Hne' Hds) as He. cbv zeta in He. rewrite Hsc in He.
    rewrite He.
    replace (len (92 :: 117 :: 123 :: ds ++ [125])) with (4 + len ds)
      by (rewrite !len_cons, len_app, len_cons, len_nil; lia).
    replace (1 + (3 + len ds)) with (4 + len ds) by lia. reflexivity.
Qed.

Lemma sr_cons_nil r : sr_cons [] None 0 r = r.
Proof. destruct r. unfold sr_cons. cbn. reflexivity. Qed.

Lemma sr_cons_cons b1 k1 b2 k2 r :
  sr_cons b1 None k1 (sr_cons b2 None k2 r) = sr_cons (b1 ++ b2) None (k1 + k2) r.
Proof. unfold sr_cons. cbn. rewrite app_assoc, N.add_assoc. reflexivity. Qed.

Lemma str_loop_items q items : forallb (item_ok q) items = true ->
  forall (fuel : nat) (p e : N) (tail : list N), (length (renders items ++ tail) <= fuel)%nat ->
  exists (fuel' : nat) (e' : N), (length tail <= fuel')%nat /\
    str_loop fuel q p e (renders items ++ tail) =
    sr_cons (decodes items) None (len (renders items))
            (str_loop fuel' q (p + len (renders items)) e' tail).
Proof.
  induction items as [|i items IH]; intros Hok fuel p e tail Hf.
  - exists fuel, e. split; [exact Hf|]. cbn [renders decodes flat_map app].
    now rewrite sr_cons_nil, len_nil, N.add_0_r.
  - cbn [forallb] in Hok. apply andb_true_iff in Hok. destruct Hok as [Hi Hok].
    unfold renders, decodes in *. cbn [flat_map] in *. rewrite <- app_assoc in Hf.
    rewrite <- app_assoc.
    destruct fuel as [|f1]; [destruct i; cbn in Hf; lia|]. rewrite (str_loop_item q i Hi).
    destruct (IH Hok f1 (p + len (render i)) (p + 1) tail) as (f2 & e2 & Hf2 & ->).
    { rewrite app_length in Hf. destruct i; cbn [render length] in Hf; lia. }
    exists f2, e2. split; [exact Hf2|]. rewrite sr_cons_cons, len_app, N.add_assoc. reflexivity.
Qed.

Lemma lex_quote_items q items rest : q <> 92 ->
  forallb (item_ok q) items = true ->
  lex_quote q (renders items ++ q :: rest) =
  let n := 2 + len (renders items) in
  if q =? 34 then StTok KStringLiteral 0%Z None (decodes items) n rest
  else match decodes items with
       | [b] => StTok KCharLiteral (Z.of_N b) None [] n rest
       | _ => StTok KError E163 None [] n rest
       end.
Proof.
  intros Hq Hok. unfold lex_quote.
  destruct (str_loop_items q items Hok _ 1 1 (q :: rest) (le_n _)) as (f & e & Hf & ->).
  destruct f as [|f]; [cbn in Hf; lia|]. cbn [str_loop].
  apply N.eqb_neq in Hq. rewrite Hq, N.eqb_refl. unfold sr_cons.
  cbn [sr_err sr_closed sr_bytes sr_soe sr_rest sr_chars]. rewrite app_nil_r.
  replace (1 + len (renders items) + 1) with (2 + len (renders items)) by lia. reflexivity.
Qed.

(* A string literal made of valid items lexes to the
   concatenation of the bytes of its items. *)
Theorem escape_decode items rest :
  forallb (item_ok 34) items = true ->
  lex_step 34 (renders items ++ 34 :: rest) =
  StTok KStringLiteral 0%Z None (decodes items) (2 + len (renders items)) rest.
Proof. intros Hok. now apply (lex_quote_items 34). Qed.

(* The same items between single quotes: a char literal iff they decode to
   exactly one byte, E163 otherwise. *)
Theorem escape_decode_char items rest :
  forallb (item_ok 39) items = true ->
  lex_step 39 (renders items ++ 39 :: rest) =
  match decodes items with
  | [b] => StTok KCharLiteral (Z.of_N b) None [] (2 + len (renders items)) rest
  | _ => StTok KError E163 None [] (2 + len (renders items)) rest
  end.
Proof. intros Hok. now apply (lex_quote_items 39). Qed.

(* The first invalid escape after valid items determines the error token:
   its code, its span (the backslash up to where the escape scanner stopped)
   and its line_offset (index of the backslash + 1). *)
Theorem escape_error_first q items cs bs c adv m r' :
  forallb (item_ok q) items = true ->
  esc_step cs = (bs, Some c, adv, m, r') ->
  exists n k rest',
    lex_quote q (renders items ++ 92 :: cs) =
    StStrErr c (1 + len (renders items)) (1 + len (renders items) + adv)
             (2 + len (renders items)) n k rest'.
Proof.
  intros Hok Hesc. unfold lex_quote.
  destruct (str_loop_items q items Hok _ 1 1 (92 :: cs) (le_n _)) as (f & e & Hf & ->).
  destruct f as [|f]; [cbn in Hf; lia|]. rewrite str_loop_esc, Hesc. unfold sr_cons.
  cbn [err_at sr_err sr_closed sr_bytes sr_soe sr_rest sr_chars].
  replace (1 + len (renders items) + 1) with (2 + len (renders items)) by lia.
  eexists _, _, _. reflexivity.
Qed.

(* A literal of valid items that is not closed on its line: E160, spanning
   everything up to the end of the line. *)
Theorem missing_closing_quote q items :
  forallb (item_ok q) items = true ->
  exists eo,
    lex_quote q (renders items) =
    StStrErr E160 0 (1 + len (renders items)) eo
             (1 + len (renders items)) (1 + len (renders items)) [].
Proof.
  intros Hok. unfold lex_quote.
  pose proof (str_loop_items q items Hok (length (renders items)) 1 1 []) as H.
  rewrite app_nil_r in H. destruct (H (le_n _)) as (f & e & Hf & ->).
  rewrite str_loop_nil. unfold sr_cons. cbn [sr_err sr_closed sr_bytes sr_soe sr_rest sr_chars sr_eolo].
  rewrite N.add_0_r. exists e. reflexivity.
Qed.

(* The hypothesis of escape_decode can be met by one item of every kind. *)
Example escape_decode_hyp_ok :
  forallb (item_ok 34)
    [IChar 97; IChar 32; IChar 233; ISimple 110 10; IHex 52 49; IUni (str "1F600"); IChar 39] = true.
Proof. vm_compute. reflexivity. Qed.

Definition sr_with_rest (r : strres) (t : list N) : strres :=
  {| sr_bytes := sr_bytes r; sr_closed := sr_closed r; sr_err := sr_err r; sr_soe := sr_soe r;
     sr_eolo := sr_eolo r; sr_chars := sr_chars r; sr_rest := t |}.

(* Invariant of the string loop entered at relative index [p] with
   end_of_line_offset [e]: it consumed a prefix of [cs]; [sr_soe] is [p] plus
   the characters consumed, or one more after a backslash that ended the line;
   [sr_eolo] is [e] when nothing was consumed, else an index behind [p] inside
   what was consumed; the span of a recorded error is not empty, starts before
   the end of what was consumed and ends at [sr_soe] at the latest, its line
   offset is its start + 1; a closed literal does not look behind its closing
   quote, an unclosed one runs to the end of the line. *)
Definition str_inv (q p e : N) (cs : list N) (r : strres) : Prop :=
  exists used, cs = used ++ sr_rest r /\ len used = sr_chars r /\
    (sr_soe r = p + sr_chars r \/
     (sr_soe r = p + sr_chars r + 1 /\ sr_rest r = [] /\ sr_err r <> None)) /\
    (sr_eolo r = e /\ sr_chars r = 0 \/ p + 1 <= sr_eolo r <= p + sr_chars r) /\
    (forall c es ee eo, sr_err r = Some (c, es, ee, eo) ->
       c <> OOF /\ es < ee /\ ee <= sr_soe r /\ eo = es + 1 /\ es < p + sr_chars r) /\
    (if sr_closed r
     then used <> [] /\ forall tail fuel', (length (used ++ tail) <= fuel')%nat ->
            str_loop fuel' q p e (used ++ tail) = sr_with_rest r tail
     else sr_rest r = []).

(* One iteration consuming [x :: u0] in front of [res]. *)
Lemma sr_cons_inv q p e x r' bs er k r'' res u0 :
  r' = u0 ++ r'' -> 1 + len u0 = k -> er <> Some OOF ->
  (* the iteration looks at most at the first character behind what it consumes *)
  (forall z w w' f, r'' = z :: w ->
     str_loop (S f) q p e (x :: u0 ++ z :: w') = sr_cons bs (err_at p k er) k (str_loop f q (p + k) (p + 1) (z :: w'))) ->
  str_inv q (p + k) (p + 1) r'' res ->
  str_inv q p e (x :: r') (sr_cons bs (err_at p k er) k res).
Proof.
  intros Hu0 Hk0 Her Hit (u & Hu & Hc & Hsoe & Heolo & Herr & Hcl).
  exists (x :: u0 ++ u). unfold sr_cons. cbn [sr_rest sr_chars sr_soe sr_closed sr_err sr_eolo].
  split; [cbn [app]; now rewrite <- app_assoc, <- Hu, Hu0|].
  split; [rewrite len_cons, len_app; lia|].
  split.
  { destruct Hsoe as [Hs|(Hs & Hr & Hne)]; [left; lia|right].
    repeat split; try assumption; [lia|]. destruct er; [discriminate|assumption]. }
  split.
  { right. destruct Heolo as [[He Hz]|He]; lia. }
  split.
  { intros c es ee eo Hsome. destruct er as [c0|]; cbn [err_at] in Hsome.
    - inversion Hsome; subst. repeat split; try lia. congruence.
    - destruct (Herr _ _ _ _ Hsome) as (H1 & H3 & H4 & H5 & H6).
      repeat split; try assumption; lia. }
  destruct (sr_closed res) eqn:Ecl; [|exact Hcl]. destruct Hcl as [Hne Hloc].
  split; [discriminate|].
  intros tail fuel' Hf. destruct u as [|z u']; [congruence|]. cbn [app length] in Hf |- *. rewrite <- app_assoc in Hf |- *.
  rewrite app_length in Hf. destruct fuel' as [|f]; [lia|].
  cbn [app]. rewrite (Hit z _ _ f Hu). change (z :: u' ++ tail) with ((z :: u') ++ tail).
  rewrite Hloc by lia.
  unfold sr_cons, sr_with_rest. cbn [sr_bytes sr_closed sr_err sr_soe sr_eolo sr_chars sr_rest]. now rewrite Ecl.
Qed.

Lemma str_inv_nil q p e : str_inv q p e [] {| sr_bytes := []; sr_closed := false; sr_err := None;
             sr_soe := p; sr_eolo := e; sr_chars := 0; sr_rest := [] |}.
Proof.
  exists []. cbn [sr_rest sr_chars sr_soe sr_closed sr_err sr_eolo].
  repeat split; try lia; try discriminate.
Qed.

Lemma str_loop_inv : forall fuel q p e cs, (length cs <= fuel)%nat ->
  str_inv q p e cs (str_loop fuel q p e cs).
Proof.
  induction fuel as [|f IH]; intros q p e cs Hf.
  - destruct cs as [|x r]; [|cbn [length] in Hf; lia].
    rewrite str_loop_nil. apply str_inv_nil.
  - destruct cs as [|x r]; [rewrite str_loop_nil; apply str_inv_nil|].
    cbn [length] in Hf.
    destruct (x =? 92) eqn:E92; [|destruct (x =? q) eqn:Eq].
    + (* a backslash *)
      cbn [str_loop]. rewrite E92.
      pose proof (esc_step_wf r) as Hesc. unfold esc_wf in Hesc.
      destruct (esc_step r) as [[[[bs er] adv] m] r'] eqn:E.
      destruct Hesc as (u & Hu & Hm & Hoof & Hadv & Hloce).
      assert (Hlen : (length r' <= f)%nat).
      { apply (f_equal (@length N)) in Hu. rewrite app_length in Hu. lia. }
      destruct Hadv as [Hadv|(Hadv & Hnil & Her)].
      * subst adv. apply (sr_cons_inv q p e x r bs er (1 + m) r' _ u).
        -- exact Hu.
        -- now rewrite Hm.
        -- exact Hoof.
        -- intros z w w' f' Hr'. cbn [app str_loop]. now rewrite E92, (Hloce z w w' Hr').
        -- apply IH. exact Hlen.
      * (* backslash at the very end of the line *)
        subst r' er.
        rewrite str_loop_nil. rewrite app_nil_r in Hu. subst r.
        exists (x :: u). unfold sr_cons.
        cbn [sr_rest sr_chars sr_soe sr_closed sr_err sr_eolo].
        split; [now rewrite app_nil_r|].
        split; [rewrite len_cons; lia|].
        split; [right; repeat split; [lia|discriminate]|].
        split; [right; lia|].
        split; [|reflexivity].
        intros c es ee eo Hsome; inversion Hsome; subst; repeat split; try lia; discriminate.
    + (* the closing quote *)
      cbn [str_loop]. rewrite E92, Eq. exists [x]. cbn [sr_rest sr_chars sr_soe sr_closed sr_err sr_eolo].
      repeat split; try lia; try discriminate.
      intros tail fuel' Hf'. destruct fuel' as [|f']; [cbn in Hf'; lia|].
      cbn [app str_loop]. now rewrite E92, Eq.
    + (* any other character *)
      rewrite (str_loop_char _ _ _ _ _ _ E92 Eq).
      apply (sr_cons_inv q p e x r _ _ 1 r _ []); try reflexivity.
      * apply str_char_err.
      * intros z w w' f' _. cbn [app]. now rewrite (str_loop_char _ _ _ _ _ _ E92 Eq).
      * apply IH. lia.
Qed.

Definition with_rest (s : step) (r : list N) : step :=
  match s with
  | StTok k v ty bs n _ => StTok k v ty bs n r
  | StStrErr c es ee eo n m _ => StStrErr c es ee eo n m r
  | _ => s
  end.

Definition rest_of (s : step) : option (list N) :=
  match s with
  | StTok _ _ _ _ _ r => Some r
  | StStrErr _ _ _ _ _ _ r => Some r
  | _ => None
  end.

(* What lex_quote makes of the result of the loop: the body of lex_quote
   behind its [let res := str_loop ..] (lex_quote_result, by reflexivity). *)
Definition quote_result (q : N) (res : strres) : step :=
  let first_error :=
    match sr_err res with
    | Some e => Some e
    | None => if sr_closed res then None else Some (E160, 0, sr_soe res, sr_eolo res)
    end in
  match first_error with
  | Some (c, es, ee, eo) => StStrErr c es ee eo (sr_soe res) (1 + sr_chars res) (sr_rest res)
  | None =>
      if q =? 34 then StTok KStringLiteral 0%Z None (sr_bytes res) (sr_soe res) (sr_rest res)
      else match sr_bytes res with
           | [b] => StTok KCharLiteral (Z.of_N b) None [] (sr_soe res) (sr_rest res)
           | _ => StTok KError E163 None [] (sr_soe res) (sr_rest res)
           end
  end.

Lemma lex_quote_result q rest : lex_quote q rest = quote_result q (str_loop (length rest) q 1 1 rest).
Proof. reflexivity. Qed.

(* The three things lex_quote can make of the result of the loop: the error the
   loop recorded, E160 for a literal that is not closed, a token. *)
Lemma quote_result_cases q res :
  (exists c es ee eo, sr_err res = Some (c, es, ee, eo) /\
     quote_result q res = StStrErr c es ee eo (sr_soe res) (1 + sr_chars res) (sr_rest res)) \/
  (sr_err res = None /\ sr_closed res = false /\
     quote_result q res =
       StStrErr E160 0 (sr_soe res) (sr_eolo res) (sr_soe res) (1 + sr_chars res) (sr_rest res)) \/
  (sr_err res = None /\ sr_closed res = true /\ exists k v bs, (k = KError -> v <> OOF) /\
     quote_result q res = StTok k v None bs (sr_soe res) (sr_rest res)).
Proof.
  unfold quote_result. destruct (sr_err res) as [[[[c es] ee] eo]|].
  { left. now exists c, es, ee, eo. }
  right. destruct (sr_closed res); [right|left; now repeat split].
  split; [reflexivity|split; [reflexivity|]].
  destruct (q =? 34); [|destruct (sr_bytes res) as [|b [|b' l]]];
    eexists _, _, _; (split; [|reflexivity]); discriminate.
Qed.

(* A step consumes a nonempty prefix of the line, and the counts it returns
   are the length of that prefix (for an error inside a literal: [m]; the span
   ends at [ee], at most [n], which may run one past the prefix).  The column [eo]
   reported for such an error is one more than the start [es] of its span,
   except for a literal that is not closed (E160), whose span starts at the quote
   and whose column is end_of_line_offset; in every case it lies inside the span. *)
Definition step_wf (x : N) (rest : list N) (s : step) : Prop :=
  match s with
  | StEnd | StSkip => True
  | StTok k v _ _ n rest' =>
      exists used, x :: rest = used ++ rest' /\ len used = n /\ 1 <= n /\ (k = KError -> v <> OOF)
  | StStrErr c es ee eo n m rest' =>
      exists used, x :: rest = used ++ rest' /\ len used = m /\ 1 <= m /\ c <> OOF /\
        es < ee /\ ee <= n /\ 1 <= eo <= m /\ (n = m \/ (n = m + 1 /\ rest' = [])) /\
        es + 1 <= eo <= ee /\ (eo = es + 1 \/ (c = E160 /\ es = 0))
  end.

Lemma lex_quote_wf x rest : step_wf x rest (lex_quote x rest).
Proof.
  rewrite lex_quote_result.
  pose proof (str_loop_inv (length rest) x 1 1 rest (le_n _)) as Hwf.
  set (res := str_loop (length rest) x 1 1 rest) in *.
  destruct Hwf as (u & Hu & Hc & Hsoe & Heolo & Herr & _).
  assert (Hx : x :: rest = (x :: u) ++ sr_rest res) by (now rewrite Hu at 1).
  assert (Hl : len (x :: u) = 1 + sr_chars res) by (rewrite len_cons; lia).
  destruct (quote_result_cases x res)
    as [(c & es & ee & eo & Ee & ->)|[(Ee & Ecl & ->)|(Ee & Ecl & k & v & bs & Hk & ->)]];
    exists (x :: u); (split; [exact Hx|]).
  - (* the loop recorded an error *)
    destruct (Herr _ _ _ _ Ee) as (H1 & H3 & H4 & H5 & H6).
    repeat (split; [first [assumption|lia]|]). split; [|split; [lia|now left]].
    destruct Hsoe as [Hs|(Hs & Hr & _)]; [left; lia|right; split; [lia|assumption]].
  - (* not closed: E160 *)
    destruct Hsoe as [Hsoe|(_ & _ & Hne)]; [|congruence].
    repeat (split; [first [discriminate|lia]|]). right. now split.
  - (* closed: a literal or E163 *)
    destruct Hsoe as [Hsoe|(_ & _ & Hne)]; [|congruence]. repeat split; [lia|lia|exact Hk].
Qed.

Lemma lex_step_wf x rest : step_wf x rest (lex_step x rest).
Proof.
  destruct (lex_step_arm x rest)
    as [->|[->|[(u & r1 & k & v & ty & bs & -> & Hoof & HF)|[_ HF]]]]; try exact I.
  - rewrite (HF r1 (quiet_refl x r1)). exists (x :: u). rewrite len_cons.
    repeat split; [lia|exact Hoof].
  - rewrite HF. apply lex_quote_wf.
Qed.

Lemma quote_result_rest q res : rest_of (quote_result q res) = Some (sr_rest res).
Proof.
  destruct (quote_result_cases q res)
    as [(c & es & ee & eo & _ & ->)|[(_ & _ & ->)|(_ & _ & k & v & bs & _ & ->)]]; reflexivity.
Qed.

Lemma quote_result_with_rest q res t :
  quote_result q (sr_with_rest res t) = with_rest (quote_result q res) t.
Proof.
  unfold quote_result, sr_with_rest.
  cbn [sr_err sr_closed sr_soe sr_eolo sr_chars sr_rest sr_bytes].
  destruct (sr_err res) as [[[[c es] ee] eo]|]; [reflexivity|].
  destruct (sr_closed res); [|reflexivity]. destruct (q =? 34); [reflexivity|].
  destruct (sr_bytes res) as [|b [|b' l]]; reflexivity.
Qed.

(* A literal that ends before the end of the line is closed, and nothing
   behind the closing quote matters. *)
Lemma lex_quote_local q rest r1 :
  rest_of (lex_quote q rest) = Some r1 -> r1 <> [] ->
  exists u, rest = u ++ r1 /\ forall r2, lex_quote q (u ++ r2) = with_rest (lex_quote q rest) r2.
Proof.
  rewrite lex_quote_result, quote_result_rest. intros H Hne. injection H as <-.
  destruct (str_loop_inv (length rest) q 1 1 rest (le_n _)) as (u & Hu & _ & _ & _ & _ & Hcl).
  destruct (sr_closed (str_loop (length rest) q 1 1 rest)); [|congruence].
  exists u. split; [exact Hu|]. intros r2.
  rewrite !lex_quote_result, (proj2 Hcl r2 _ (le_n _)). apply quote_result_with_rest.
Qed.

(* Behind the characters a token consumed, the rest of the line may
   be replaced by anything "quiet" without changing the token; for quoted
   literals provided the literal ended before the end of the line. *)
Theorem lex_step_local x rest r1 :
  rest_of (lex_step x rest) = Some r1 ->
  (r1 <> [] \/ (x <> 34 /\ x <> 39)) ->
  exists u, rest = u ++ r1 /\
    forall r2, quiet x r1 r2 -> lex_step x (u ++ r2) = with_rest (lex_step x rest) r2.
Proof.
  intros H Hcond. destruct (lex_step_arm x rest)
    as [E|[E|[(u & r & k & v & ty & bs & -> & _ & HF)|[Hq HF]]]]; try (rewrite E in H; discriminate).
  - rewrite (HF r (quiet_refl x r)) in H |- *. injection H as <-.
    exists u. split; [reflexivity|]. intros r2 Hq. now rewrite (HF r2 Hq).
  - rewrite HF in H. destruct Hcond as [Hne|Hx]; [|lia].
    destruct (lex_quote_local x rest r1 H Hne) as (u & Hu & Hloc).
    exists u. split; [exact Hu|]. intros r2 _. rewrite !HF. apply Hloc.
Qed.

Lemma step_rest_shorter x rest r : rest_of (lex_step x rest) = Some r -> (length r <= length rest)%nat.
Proof.
  intros H. pose proof (lex_step_wf x rest) as Hw.
  assert (exists u, x :: rest = u ++ r /\ 1 <= len u) as (u & Hu & Hn).
  { destruct (lex_step x rest); try discriminate; injection H as <-;
      destruct Hw as (u & Hu & Hn & H1 & _); exists u; (split; [exact Hu|lia]). }
  apply (f_equal (@length N)) in Hu. rewrite app_length in Hu.
  destruct u; [cbn in Hn; lia|cbn [length] in Hu; lia].
Qed.

(* [t] is the token that lex_step yields at column [len pre] of the line [l]
   (line number [ln], first character at source offset [base]), and [used] are
   exactly the characters it consumed:
     - its span is [base + col, base + col + len used), its line_offset is col;
     - for an error inside a quoted literal (first_error_token) the span
       [es,ee) is relative to the opening quote and lies within the literal
       plus at most one position (backslash at the end of the line), and the
       line_offset is col + eo with 1 <= eo <= len used. *)
Definition tok_at (ln base : N) (l : list N) (t : tok) : Prop :=
  exists pre used post, l = pre ++ used ++ post /\ used <> [] /\
    (kind t = KError -> value t <> OOF) /\
    match lex_step (hd 0 used) (tl used ++ post) with
    | StTok k v ty bs n r =>
        t = mk k v ty bs (base + len pre) (base + len pre + len used) ln (len pre) /\
        r = post /\ n = len used
    | StStrErr c es ee eo n m r =>
        t = mk KError c None [] (base + len pre + es) (base + len pre + ee) ln (len pre + eo) /\
        r = post /\ m = len used /\
        es < ee /\ ee <= len used + 1 /\ 1 <= eo <= len used
    | _ => False
    end.

Lemma lex_line_fuel_nil f ln sos lo : lex_line_fuel f ln sos lo [] = [].
Proof. destruct f; reflexivity. Qed.

Lemma lex_line_fuel_fuel : forall f1 f2 ln sos lo cs,
  (length cs <= f1)%nat -> (length cs <= f2)%nat ->
  lex_line_fuel f1 ln sos lo cs = lex_line_fuel f2 ln sos lo cs.
Proof.
  induction f1 as [|f1 IH]; intros f2 ln sos lo cs H1 H2.
  { destruct cs; [destruct f2; reflexivity|cbn [length] in H1; lia]. }
  destruct cs as [|x rest]; [destruct f2; reflexivity|].
  destruct f2 as [|f2]; [cbn [length] in H2; lia|]. cbn [length] in H1, H2. cbn [lex_line_fuel].
  pose proof (step_rest_shorter x rest) as Hs.
  destruct (lex_step x rest) as [| |k v ty bs n r'|c es ee eo n m r']; try reflexivity;
    [|specialize (Hs r' eq_refl); f_equal..]; apply IH; lia.
Qed.

(* The tokens of the rest [cs] of a line, without the fuel: [lex_line cs off ln]
   is [toks ln off 0 cs] by conversion. *)
Definition toks (ln sos lo : N) (cs : list N) : list tok := lex_line_fuel (length cs) ln sos lo cs.

Lemma toks_fuel fuel ln sos lo cs : (length cs <= fuel)%nat -> lex_line_fuel fuel ln sos lo cs = toks ln sos lo cs.
Proof. intros H. apply lex_line_fuel_fuel; [exact H|apply le_n]. Qed.

Lemma toks_cons ln sos lo x rest :
  toks ln sos lo (x :: rest) =
  match lex_step x rest with
  | StEnd => []
  | StSkip => toks ln (sos + 1) (lo + 1) rest
  | StTok k v ty bs n r => mk k v ty bs sos (sos + n) ln lo :: toks ln (sos + n) (lo + n) r
  | StStrErr c es ee eo n m r =>
      mk KError c None [] (sos + es) (sos + ee) ln (lo + eo) :: toks ln (sos + n) (lo + m) r
  end.
Proof.
  unfold toks. cbn [length lex_line_fuel]. pose proof (step_rest_shorter x rest) as Hs.
  destruct (lex_step x rest) as [| |k v ty bs n r'|c es ee eo n m r']; try reflexivity;
    f_equal; (apply lex_line_fuel_fuel; [apply Hs; reflexivity|lia]).
Qed.

Lemma lex_line_fuel_spans : forall fuel ln base pre cs, (length cs <= fuel)%nat ->
  Forall (tok_at ln base (pre ++ cs)) (lex_line_fuel fuel ln (base + len pre) (len pre) cs).
Proof.
  induction fuel as [|f IH]; intros ln base pre cs Hf.
  { destruct cs; [constructor|cbn [length] in Hf; lia]. }
  destruct cs as [|x rest]; [constructor|]. cbn [length] in Hf. cbn [lex_line_fuel].
  (* the rest of the line, behind the consumed characters [u] *)
  assert (Hrec : forall u r, x :: rest = u ++ r -> u <> [] ->
    Forall (tok_at ln base (pre ++ x :: rest))
           (lex_line_fuel f ln (base + len pre + len u) (len pre + len u) r)).
  { intros u r Hu Hne. rewrite Hu, app_assoc, <- N.add_assoc, <- len_app. apply IH.
    apply (f_equal (@length N)) in Hu. rewrite app_length in Hu.
    destruct u; [congruence|cbn [length] in Hu; lia]. }
  pose proof (lex_step_wf x rest) as Hwf.
  destruct (lex_step x rest) as [| |k v ty bs n rest'|c es ee eo n m rest'] eqn:E.
  - (* StEnd *) constructor.
  - (* StSkip *) apply (Hrec [x] rest eq_refl). discriminate.
  - (* StTok *) destruct Hwf as (u & Hu & <- & H1 & Hoof).
    assert (Hne : u <> []) by (apply len_pos_ne; lia).
    constructor; [|now apply Hrec].
    exists pre, u, rest'. split; [now rewrite <- Hu|]. split; [exact Hne|]. split; [exact Hoof|].
    destruct u as [|x' u']; [congruence|]. injection Hu as <- ->. cbn [hd tl]. rewrite E.
    repeat split.
  - (* StStrErr *) destruct Hwf as (u & Hu & <- & H1 & Hoof & Hes & Hee & Heo & Hnm & _).
    assert (Hne : u <> []) by (apply len_pos_ne; lia).
    constructor.
    + exists pre, u, rest'. split; [now rewrite <- Hu|]. split; [exact Hne|].
      split; [intros _; exact Hoof|].
      destruct u as [|x' u']; [congruence|]. injection Hu as <- ->. cbn [hd tl]. rewrite E.
      repeat split; lia.
    + destruct Hnm as [->|(-> & ->)]; [now apply Hrec|rewrite lex_line_fuel_nil; constructor].
Qed.

Lemma lex_line_spans l offset ln : Forall (tok_at ln offset l) (lex_line l offset ln).
Proof.
  unfold lex_line. pose proof (lex_line_fuel_spans (length l) ln offset [] l (le_n _)) as H.
  cbn [app] in H. now rewrite len_nil, N.add_0_r in H.
Qed.

Definition count_nl (s : list N) : N := len (filter (N.eqb 10) s).

Lemma count_nl_app a b : count_nl (a ++ b) = count_nl a + count_nl b.
Proof. unfold count_nl. now rewrite filter_app, len_app. Qed.

Lemma count_nl_free l : ~ In 10 l -> count_nl l = 0.
Proof.
  unfold count_nl. induction l as [|c l IH]; intros H; [reflexivity|].
  cbn [filter]. destruct (10 =? c) eqn:E.
  - apply N.eqb_eq in E. subst. exfalso. apply H. now left.
  - apply IH. intros H'. apply H. now right.
Qed.

(* [before] is a (possibly empty) sequence of complete lines. *)
Definition ends_lines (before : list N) : Prop := before = [] \/ exists b, before = b ++ [10].
Definition starts_line (after : list N) : Prop := after = [] \/ exists a, after = 10 :: a.

Lemma lines_term_fst s : map fst (lines_term s) = lines_of s.
Proof.
  induction s as [|c r IH]; [reflexivity|]. cbn [lines_term lines_of].
  destruct (c =? 10); [cbn [map fst]; now rewrite IH|].
  destruct ((c =? 13) && match r with n :: _ => n =? 10 | [] => false end).
  - rewrite <- IH. destruct (lines_term r) as [|[l t] ls]; reflexivity.
  - rewrite <- IH. destruct (lines_term r) as [|[l t] ls]; reflexivity.
Qed.

(* A line that is terminated by a bare LF does not end with CR (that CR would
   belong to the terminator). *)
Definition no_cr_end (l : list N) : Prop := l = [] \/ last l 0 <> 13.

(* Lines with their terminators [tm]: LF not preceded by CR, or CR LF. *)
Inductive LinesT : list N -> list (list N * N) -> Prop :=
| LinesT_nil : LinesT [] []
| LinesT_last l : ~ In 10 l -> LinesT l [(l, 0)]
| LinesT_term l tm s ls : ~ In 10 l -> (tm = [10] /\ no_cr_end l) \/ tm = [13; 10] ->
    LinesT s ls -> LinesT (l ++ tm ++ s) ((l, len tm) :: ls).

Lemma LinesT_push c r lts : c <> 10 ->
  (c = 13 -> hd 0 r <> 10) ->
  LinesT r lts ->
  LinesT (c :: r) (match lts with [] => [([c], 0)] | (l, t) :: ls => (c :: l, t) :: ls end).
Proof.
  intros Hc Hcr H. destruct H as [|l Hnl|l tm s ls Hnl Htm HL].
  - constructor. intros [H|[]]. congruence.
  - apply (LinesT_last (c :: l)). intros [H|H]; [congruence|contradiction].
  - apply (LinesT_term (c :: l) tm s ls); [| |exact HL].
    + intros [H|H]; [congruence|contradiction].
    + destruct Htm as [[-> Hend]|Htm]; [left; split; [reflexivity|]|now right].
      right. destruct l as [|h l'].
      * cbn [last]. intros ->. now apply (Hcr eq_refl).
      * destruct Hend as [Hend|Hend]; [discriminate|]. exact Hend.
Qed.

(* The CR LF arm recurses two characters down: the statement is carried for
   the tail as well. *)
Lemma lines_term_LinesT s : LinesT s (lines_term s).
Proof.
  enough (H : LinesT s (lines_term s) /\ LinesT (tl s) (lines_term (tl s))) by apply H.
  induction s as [|c r [IH1 IH2]]; [split; constructor|]. split; [|exact IH1]. cbn [lines_term].
  destruct (c =? 10) eqn:E10.
  { apply N.eqb_eq in E10. subst c.
    now apply (LinesT_term [] [10] r); [intros []|left; split; [reflexivity|left]|]. }
  apply N.eqb_neq in E10.
  destruct (c =? 13) eqn:E13; cbn [andb].
  - destruct r as [|n0 r']; [apply (LinesT_push c [] [] E10); [discriminate|constructor]|].
    destruct (n0 =? 10) eqn:En.
    + apply N.eqb_eq in E13, En. subst c n0. cbn [lines_term]. change (10 =? 10) with true. cbv iota.
      now apply (LinesT_term [] [13; 10] r'); [intros []|right|].
    + apply LinesT_push; [exact E10| |exact IH1].
      intros _. now apply N.eqb_neq.
  - apply LinesT_push; [exact E10| |exact IH1].
    intros ->. discriminate.
Qed.

Definition line_end (l after : list N) : Prop :=
  after = [] \/ (exists a, after = 10 :: a /\ no_cr_end l) \/ (exists a, after = 13 :: 10 :: a).

(* [t] was lexed from the line [l] that occupies the offsets
   [len before, len before + len l) of [src].  A CR inside [l] is an ordinary
   character of the line. *)
Definition tok_in_source_fixed (src : list N) (t : tok) : Prop :=
  exists before l after,
    src = before ++ l ++ after /\ ends_lines before /\ line_end l after /\ ~ In 10 l /\
    tok_at (1 + count_nl before) (len before) l t.

Lemma lex_lines_fixed_spans s lts : LinesT s lts ->
  forall before, ends_lines before ->
  Forall (tok_in_source_fixed (before ++ s)) (lex_lines_fixed lts (len before) (count_nl before)).
Proof.
  induction 1 as [|l Hnl|l tm s ls Hnl Htm HL IH]; intros before Hb.
  - constructor.
  - cbn [lex_lines_fixed]. rewrite app_nil_r.
    eapply Forall_impl; [|apply lex_line_spans]. intros t Ht.
    exists before, l, []. rewrite app_nil_r. repeat split; try assumption. now left.
  - cbn [lex_lines_fixed]. apply Forall_app. split.
    + eapply Forall_impl; [|apply lex_line_spans]. intros t Ht.
      exists before, l, (tm ++ s). repeat split; try assumption. right.
      destruct Htm as [[-> Hend]| ->]; [left|right]; exists s; now repeat split.
    + specialize (IH (before ++ l ++ tm)).
      replace (len (before ++ l ++ tm)) with (len before + len l + len tm) in IH
        by (rewrite !len_app; lia).
      replace (count_nl (before ++ l ++ tm)) with (count_nl before + 1) in IH
        by (rewrite !count_nl_app, (count_nl_free l Hnl); destruct Htm as [[-> _]| ->]; reflexivity).
      rewrite <- !app_assoc in IH. apply IH. right.
      destruct Htm as [[-> _]| ->]; [exists (before ++ l)|exists (before ++ l ++ [13])];
        now rewrite <- !app_assoc.
Qed.

(* For EVERY source (LF, CR LF, bare CR, mixed) every token of
   the repaired lexer was produced by lex_step at some column of some line and
   its line number is 1 + the number of LF before it; unless it is an error
   inside a quoted literal, its span is exactly the range of source offsets of
   the characters that step consumed and its line_offset is the column.  For
   an error inside a quoted literal tok_at only bounds both. *)
Theorem span_exact_fixed src t :
  src <> [] -> In t (lex_alpha_fixed src) -> tok_in_source_fixed src t.
Proof.
  intros Hne Hin. unfold lex_alpha_fixed in Hin.
  destruct src as [|c r]; [congruence|]. cbn [is_nil] in Hin. rewrite app_nil_r in Hin.
  pose proof (lex_lines_fixed_spans _ _ (lines_term_LinesT (c :: r)) [] (or_introl eq_refl)) as H.
  cbn [app] in H. change (len []) with 0 in H. change (count_nl []) with 0 in H.
  rewrite Forall_forall in H. now apply H.
Qed.

(* span_exact_fixed spelled out.  Either
   (a) t is an ordinary token: the source splits as A ++ used ++ B where
       [used] (nonempty, within one line) are the characters lex_step consumed
       for it, the span is [len A, len A + len used), the line number is
       1 + the number of newlines in A, and the line_offset is the number of
       characters of A after its last newline; or
   (b) t is the first error found inside a quoted literal [used] (which starts
       with a quote character at offset len A): its span is a nonempty
       subrange of [len A, len A + len used + 1) and its line_offset lies in
       (column of the quote, column of the quote + len used]. *)
Theorem span_exact_fixed_explicit src t :
  src <> [] -> In t (lex_alpha_fixed src) ->
  exists A0 A1 used B0 B1,
    src = (A0 ++ A1) ++ used ++ (B0 ++ B1) /\
    ends_lines A0 /\ line_end (A1 ++ used ++ B0) B1 /\ ~ In 10 A1 /\ ~ In 10 used /\ ~ In 10 B0 /\ used <> [] /\
    line t = 1 + count_nl (A0 ++ A1) /\
    ((tstart t = len (A0 ++ A1) /\ tend t = len (A0 ++ A1) + len used /\ lstart t = len A1 /\
      lex_step (hd 0 used) (tl used ++ B0) =
        StTok (kind t) (value t) (vtype t) (bytes t) (len used) B0)
     \/
     (kind t = KError /\ (hd 0 used = 34 \/ hd 0 used = 39) /\
      len (A0 ++ A1) <= tstart t /\ tstart t < tend t /\ tend t <= len (A0 ++ A1) + len used + 1 /\
      len A1 < lstart t <= len A1 + len used)).
Proof.
  intros Hne Hin.
  destruct (span_exact_fixed src t Hne Hin) as (before & l & after & Hsrc & Hb & Ha & Hnl & Hat).
  destruct Hat as (pre & used & post & Hl & Hu & Hoof & Hstep).
  exists before, pre, used, post, after. subst l.
  rewrite !in_app_iff in Hnl.
  assert (Hn1 : ~ In 10 pre) by tauto. assert (Hn2 : ~ In 10 used) by tauto.
  assert (Hn3 : ~ In 10 post) by tauto.
  split; [rewrite Hsrc, <- !app_assoc; reflexivity|].
  repeat (split; [assumption|]).
  assert (Hcnt : count_nl (before ++ pre) = count_nl before)
    by (rewrite count_nl_app, (count_nl_free pre Hn1); lia).
  destruct (lex_step (hd 0 used) (tl used ++ post)) as [| |k v ty bs n r|c es ee eo n m r] eqn:E;
    try contradiction.
  - destruct Hstep as (-> & -> & ->). cbn [line mk]. split; [now rewrite Hcnt|]. left.
    cbn [tstart tend lstart kind value vtype bytes mk]. rewrite len_app.
    repeat split; lia.
  - destruct Hstep as (-> & -> & -> & H1 & H2 & H3). cbn [line mk]. split; [now rewrite Hcnt|]. right.
    cbn [tstart tend lstart kind mk]. rewrite len_app.
    split; [reflexivity|]. split; [eapply strerr_is_quote; exact E|]. lia.
Qed.

Lemma lex_lines_fixed_no_cr s lts : LinesT s lts -> ~ In 13 s ->
  forall off i, lex_lines_fixed lts off i = lex_lines (map fst lts) off i.
Proof.
  induction 1 as [|l Hnl|l tm s ls Hnl Htm HL IH]; intros Hcr off i; try reflexivity.
  destruct Htm as [[-> _]| ->]; [|exfalso; apply Hcr; rewrite !in_app_iff; right; left; now left].
  cbn [lex_lines_fixed lex_lines map fst]. change (len [10]) with 1. f_equal.
  rewrite IH; [|intros H; apply Hcr; rewrite !in_app_iff; auto]. f_equal. lia.
Qed.

Theorem lex_alpha_fixed_no_cr src : ~ In 13 src -> lex_alpha_fixed src = lex_alpha src.
Proof.
  intros Hcr. unfold lex_alpha_fixed, lex_alpha. f_equal.
  rewrite (lex_lines_fixed_no_cr src _ (lines_term_LinesT src) Hcr). now rewrite lines_term_fst.
Qed.

Definition pay_lo (t : tok) := (pay t, line t, lstart t).

Lemma lex_line_fuel_shift : forall fuel ln sos sos' lo cs,
  map pay_lo (lex_line_fuel fuel ln sos lo cs) = map pay_lo (lex_line_fuel fuel ln sos' lo cs).
Proof.
  induction fuel as [|f IH]; intros ln sos sos' lo cs; destruct cs as [|x rest]; try reflexivity.
  cbn [lex_line_fuel]. destruct (lex_step x rest); cbn [map]; try reflexivity; try apply IH.
  - f_equal. apply IH.
  - f_equal. apply IH.
Qed.

Lemma lex_lines_fixed_shift lts : forall o o' i,
  map pay_lo (lex_lines_fixed lts o i) = map pay_lo (lex_lines (map fst lts) o' i).
Proof.
  induction lts as [|[l t] ls IH]; intros o o' i; [reflexivity|].
  cbn [lex_lines_fixed lex_lines map fst]. rewrite !map_app. f_equal; [|apply IH].
  unfold lex_line. apply lex_line_fuel_shift.
Qed.

Theorem lex_alpha_fixed_same_but_spans src :
  map pay_lo (lex_alpha_fixed src) = map pay_lo (lex_alpha src).
Proof.
  unfold lex_alpha_fixed, lex_alpha. rewrite !map_app, <- lines_term_fst. f_equal.
  apply lex_lines_fixed_shift.
Qed.

Theorem lex_alpha_fixed_pays src : map pay (lex_alpha_fixed src) = map pay (lex_alpha src).
Proof.
  pose proof (lex_alpha_fixed_same_but_spans src) as H.
  apply (f_equal (map (fun p : payl * N * N => fst (fst p)))) in H.
  rewrite !map_map in H. exact H.
Qed.

Theorem lex_alpha_fixed_no_oof src t :
  In t (lex_alpha_fixed src) -> kind t = KError -> value t <> OOF.
Proof.
  intros Hin. destruct src as [|c r].
  - destruct Hin as [<-|[]]. discriminate.
  - destruct (span_exact_fixed (c :: r) t ltac:(discriminate) Hin)
      as (? & ? & ? & _ & _ & _ & _ & ? & ? & ? & _ & _ & Hoof & _).
    exact Hoof.
Qed.

Theorem lex_alpha_no_oof src t : In t (lex_alpha src) -> kind t = KError -> value t <> OOF.
Proof.
  intros Hin Hk. apply (in_map pay) in Hin. rewrite <- lex_alpha_fixed_pays in Hin.
  apply in_map_iff in Hin. destruct Hin as (t' & Hp & Hin'). unfold pay in Hp.
  injection Hp as H1 H2 H3 H4. rewrite <- H2. apply (lex_alpha_fixed_no_oof src t' Hin'). congruence.
Qed.

Definition tok_in_source (src : list N) (t : tok) : Prop :=
  exists before l after,
    src = before ++ l ++ after /\ ends_lines before /\ starts_line after /\ ~ In 10 l /\
    tok_at (1 + count_nl before) (len before) l t.

Lemma line_end_no_cr l after : ~ In 13 after -> line_end l after -> starts_line after.
Proof.
  intros Hcr [->|[(a & -> & _)|(a & ->)]]; [now left|right; now exists a|].
  exfalso. apply Hcr. now left.
Qed.

Theorem span_exact_no_cr src t :
  ~ In 13 src -> src <> [] -> In t (lex_alpha src) -> tok_in_source src t.
Proof.
  intros Hcr Hne Hin. rewrite <- (lex_alpha_fixed_no_cr src Hcr) in Hin.
  destruct (span_exact_fixed src t Hne Hin) as (before & l & after & -> & Hb & He & Hnl & Hat).
  exists before, l, after. repeat split; try assumption.
  apply (line_end_no_cr l); [|exact He]. intros H. apply Hcr. rewrite !in_app_iff. auto.
Qed.

Theorem span_exact_no_cr_explicit src t :
  ~ In 13 src -> src <> [] -> In t (lex_alpha src) ->
  exists A0 A1 used B0 B1,
    src = (A0 ++ A1) ++ used ++ (B0 ++ B1) /\
    ends_lines A0 /\ starts_line B1 /\ ~ In 10 A1 /\ ~ In 10 used /\ ~ In 10 B0 /\ used <> [] /\
    line t = 1 + count_nl (A0 ++ A1) /\
    ((tstart t = len (A0 ++ A1) /\ tend t = len (A0 ++ A1) + len used /\ lstart t = len A1 /\
      lex_step (hd 0 used) (tl used ++ B0) =
        StTok (kind t) (value t) (vtype t) (bytes t) (len used) B0)
     \/
     (kind t = KError /\ (hd 0 used = 34 \/ hd 0 used = 39) /\
      len (A0 ++ A1) <= tstart t /\ tstart t < tend t /\ tend t <= len (A0 ++ A1) + len used + 1 /\
      len A1 < lstart t <= len A1 + len used)).
Proof.
  intros Hcr Hne Hin. rewrite <- (lex_alpha_fixed_no_cr src Hcr) in Hin.
  destruct (span_exact_fixed_explicit src t Hne Hin) as (A0 & A1 & used & B0 & B1 & Hsrc & Hb & He & H).
  exists A0, A1, used, B0, B1. repeat (split; [assumption|]). split; [|exact H].
  apply (line_end_no_cr _ _ ) in He; [exact He|]. intros HB. apply Hcr. rewrite Hsrc, !in_app_iff. auto.
Qed.

(* With CRLF line ends the statement is false: lex() adds chars().count() + 1
   per line although the line end was two characters long, so every token
   after the first CRLF is reported too far left (by one per preceding CRLF).
   Witness "a\r\nb": the identifier b is at offset 3 but gets the span [2,3),
   which is the '\n'. *)
Theorem span_crlf_refuted :
  exists src t,
    In t (lex_alpha src) /\ kind t = KIdentifier /\
    tstart t = 2 /\ tend t = 3 /\ line t = 2 /\ lstart t = 0 /\
    nth 2 src 0 = 10 /\ nth 3 src 0 = 98 /\
    ~ tok_in_source src t.
Proof.
  exists [97; 13; 10; 98], (mk KIdentifier 0%Z None [] 2 3 2 0).
  split; [vm_compute; auto|]. repeat (split; [reflexivity|]).
  intros (before & l & after & Hsrc & Hb & Ha & Hnl & pre & used & post & Hl & Hu & _ & Hstep).
  (* the line containing offset 2 would have to contain the newline *)
  destruct (lex_step (hd 0 used) (tl used ++ post)) as [| |k v ty bs n r|c es ee eo n m r] eqn:E;
    try contradiction.
  - destruct Hstep as (Ht & _ & _). inversion Ht as [[Hk Hv Hty Hbs Hs He Hln Hlo]].
    assert (Hpre : pre = []) by (destruct pre; [reflexivity|rewrite len_cons in Hlo; lia]).
    subst pre. rewrite len_nil, N.add_0_r in Hs.
    assert (Hused : len used = 1) by lia.
    (* before has length 2: it is [97;13], which does not end a line *)
    destruct before as [|b0 [|b1 [|b2 before]]]; try (cbn in Hs; lia).
    cbn [app] in Hsrc. injection Hsrc as <- <- Hrest.
    destruct Hb as [Hb|[b Hb]]; [discriminate|].
    destruct b as [|b0' [|b1' [|b2' b]]]; discriminate.
  - destruct Hstep as (Ht & _). inversion Ht.
Qed.

Fixpoint pay_line (fuel : nat) (cs : list N) : list payl :=
  match cs with
  | [] => []
  | x :: rest =>
      match fuel with
      | O => [(KError, OOF, None, [])]
      | S f =>
          match lex_step x rest with
          | StEnd => []
          | StSkip => pay_line f rest
          | StTok k v ty bs _ rest' => (k, v, ty, bs) :: pay_line f rest'
          | StStrErr c _ _ _ _ _ rest' => (KError, c, None, []) :: pay_line f rest'
          end
      end
  end.

Lemma pay_line_eq : forall fuel ln sos lo cs,
  map pay (lex_line_fuel fuel ln sos lo cs) = pay_line fuel cs.
Proof.
  induction fuel as [|f IH]; intros ln sos lo cs; destruct cs as [|x rest]; try reflexivity.
  cbn [lex_line_fuel pay_line].
  destruct (lex_step x rest); cbn [map]; try reflexivity; try apply IH; f_equal; apply IH.
Qed.

Definition pays_of (cs : list N) : list payl := pay_line (length cs) cs.

Lemma pays_toks ln sos lo cs : map pay (toks ln sos lo cs) = pays_of cs.
Proof. apply pay_line_eq. Qed.

Lemma lex_line_pays l off ln : map pay (lex_line l off ln) = pays_of l.
Proof. apply pays_toks. Qed.

Definition step_payload (s : step) : list payl :=
  match s with
  | StTok k v ty bs _ _ => [(k, v, ty, bs)]
  | StStrErr c _ _ _ _ _ _ => [(KError, c, None, [])]
  | _ => []
  end.

Lemma pays_of_cons x rest :
  pays_of (x :: rest) =
  match lex_step x rest with
  | StEnd => []
  | StSkip => pays_of rest
  | s => step_payload s ++ match rest_of s with Some r => pays_of r | None => [] end
  end.
Proof.
  rewrite <- (pays_toks 0 0 0 (x :: rest)), toks_cons.
  destruct (lex_step x rest); cbn [map step_payload rest_of app]; rewrite ?pays_toks; reflexivity.
Qed.

Lemma with_rest_payload s r : step_payload (with_rest s r) = step_payload s.
Proof. destruct s; reflexivity. Qed.

Lemma with_rest_rest s r r0 : rest_of s = Some r0 -> rest_of (with_rest s r) = Some r.
Proof. destruct s; cbn; intros H; try discriminate; reflexivity. Qed.

(* [boundary a b]: when the line [a ++ b] is lexed, the scanner is between two
   tokens (at the head of the outer loop) when it reaches [b]. *)
Inductive boundary : list N -> list N -> Prop :=
| Bd_nil b : boundary [] b
| Bd_skip w a b : blank w -> boundary a b -> boundary (w :: a) b
| Bd_tok x u a b :
    rest_of (lex_step x (u ++ a ++ b)) = Some (a ++ b) ->
    boundary a b -> boundary (x :: u ++ a) b.

(* One step of the outer loop at a token that is followed by the non-empty [r]:
   the token it yields and the advance of both offsets (the length of [x :: u])
   stay the same when [r] is replaced by a quiet [r2]. *)
Lemma toks_local x u r : r <> [] -> rest_of (lex_step x (u ++ r)) = Some r ->
  forall ln sos lo, exists t, forall r2, quiet x r r2 ->
    toks ln sos lo (x :: u ++ r2) = t :: toks ln (sos + len (x :: u)) (lo + len (x :: u)) r2.
Proof.
  intros Hne Hstep ln sos lo.
  destruct (lex_step_local x (u ++ r) r Hstep (or_introl Hne)) as (u0 & Hu0 & Hloc).
  apply app_inv_tail in Hu0. subst u0.
  pose proof (lex_step_wf x (u ++ r)) as Hwf.
  destruct (lex_step x (u ++ r)) as [| |k v ty bs n r'|c es ee eo n m r']; try discriminate;
    injection Hstep as ->; destruct Hwf as (used & Hused & Hwf);
    change (x :: u ++ r) with ((x :: u) ++ r) in Hused; apply app_inv_tail in Hused; subst used.
  - destruct Hwf as (<- & _). eexists. intros r2 Hq. rewrite toks_cons, (Hloc r2 Hq). reflexivity.
  - (* a string error: n = m, the length of [x :: u], because the rest is not empty *)
    destruct Hwf as (<- & _ & _ & _ & _ & _ & [->|[_ Hnil]] & _); [|contradiction].
    eexists. intros r2 Hq. rewrite toks_cons, (Hloc r2 Hq). reflexivity.
Qed.

(* The tokens of the part of a line before a token boundary, with their
   positions, do not depend on what follows the boundary as long as it is quiet;
   behind the boundary the scanner continues with both offsets advanced by the
   length of that part. *)
Lemma boundary_line a b : boundary a b -> b <> [] ->
  forall ln sos lo, exists T, forall b', (forall x, quiet x b b') ->
    toks ln sos lo (a ++ b') = T ++ toks ln (sos + len a) (lo + len a) b'.
Proof.
  intros Hb Hne. induction Hb as [b|w a b Hw Hb IH|x u a b Hstep Hb IH]; intros ln sos lo.
  - exists []. intros b' _. now rewrite len_nil, !N.add_0_r.
  - destruct (IH Hne ln (sos + 1) (lo + 1)) as (T & HT). exists T. intros b' Hq. cbn [app].
    rewrite toks_cons, (blank_step w _ Hw), (HT b' Hq), len_cons, !N.add_assoc. reflexivity.
  - assert (Hab : a ++ b <> []) by (destruct a; [exact Hne|discriminate]).
    destruct (toks_local x u (a ++ b) Hab Hstep ln sos lo) as (t & Ht).
    destruct (IH Hne ln (sos + len (x :: u)) (lo + len (x :: u))) as (T & HT).
    exists (t :: T). intros b' Hq. cbn [app]. rewrite <- app_assoc, Ht.
    + rewrite (HT b' Hq). change (x :: u ++ a) with ((x :: u) ++ a).
      rewrite len_app, !N.add_assoc. reflexivity.
    + destruct a as [|h t']; [apply Hq|]. cbn [app quiet].
      (* quiet: the same first character *) right. right. right. now exists (t' ++ b).
Qed.

Lemma boundary_pays a b : boundary a b -> b <> [] ->
  exists ta, forall b', (forall x, quiet x b b') -> pays_of (a ++ b') = ta ++ pays_of b'.
Proof.
  intros Hb Hne. destruct (boundary_line a b Hb Hne 0 0 0) as (T & HT). exists (map pay T).
  intros b' Hq. now rewrite <- (pays_toks 0 0 0 (a ++ b')), (HT b' Hq), map_app, pays_toks.
Qed.

(* Layout between two tokens is skipped: behind a boundary, [b] may be
   replaced by any quiet [b'] that yields the same tokens up to [extra]. *)
Lemma boundary_layout a b b' extra : boundary a b -> b <> [] -> (forall x, quiet x b b') ->
  pays_of b' ++ extra = pays_of b -> pays_of (a ++ b') ++ extra = pays_of (a ++ b).
Proof.
  intros Hb Hne Hq He. destruct (boundary_pays a b Hb Hne) as (ta & Hta).
  now rewrite (Hta b' Hq), (Hta b (fun x => quiet_refl x b)), <- app_assoc, He.
Qed.

(* A blank inserted between two tokens (anywhere the outer
   loop is at its head, with something following on the line) does not change
   the sequence of (kind, value, vtype, bytes). *)
Theorem whitespace_invariance a b w : boundary a b -> b <> [] -> blank w ->
  pays_of (a ++ w :: b) = pays_of (a ++ b).
Proof.
  intros Hb Hne Hw. rewrite <- (app_nil_r (pays_of (a ++ w :: b))).
  apply boundary_layout; [exact Hb|exact Hne|intros x; now apply quiet_blank|].
  now rewrite app_nil_r, pays_of_cons, (blank_step w b Hw).
Qed.

(* A blank, a comment and a line break inserted between two
   tokens: the first line yields the tokens before, the second the tokens
   after. *)
Theorem comment_invariance a b w c : boundary a b -> b <> [] -> blank w ->
  pays_of (a ++ w :: 47 :: 47 :: c) ++ pays_of b = pays_of (a ++ b).
Proof.
  intros Hb Hne Hw.
  apply boundary_layout; [exact Hb|exact Hne|intros x; now apply quiet_blank|].
  now rewrite pays_of_cons, (blank_step w _ Hw), pays_of_cons.
Qed.

(* Without the blank the statement is false directly behind a division sign:
   "1/2" against "1///c" + "2" -- the slash joins the comment. *)
Theorem comment_directly_after_slash_refuted :
  exists a b c, boundary a b /\ b <> [] /\
    pays_of (a ++ 47 :: 47 :: c) ++ pays_of b <> pays_of (a ++ b).
Proof.
  exists [49; 47], [50], [99]. split; [|split; [discriminate|vm_compute; discriminate]].
  apply (Bd_tok 49 [] [47] [50]); [reflexivity|].
  apply (Bd_tok 47 [] [] [50]); [reflexivity|]. constructor.
Qed.

(* At the end of the line a blank can change the payload: a backslash that
   ended the line (E161) becomes an invalid escape (E162). *)
Theorem whitespace_at_end_refuted :
  exists a w, boundary a [] /\ blank w /\ pays_of (a ++ [w]) <> pays_of a.
Proof.
  exists [34; 92], 32. split; [|split; [now left|vm_compute; discriminate]].
  apply (Bd_tok 34 [92] [] []); [reflexivity|constructor].
Qed.

(* [boundary] holds between the tokens of x = 1 and behind a string literal. *)
Example boundary_ok :
  boundary (str "x =") (str "1") /\ boundary (str "f(""a b""") (str ")").
Proof.
  split.
  - apply (Bd_tok 120 [] (str " =") (str "1")); [reflexivity|].
    apply Bd_skip; [now left|]. apply (Bd_tok 61 [] [] (str "1")); [reflexivity|constructor].
  - apply (Bd_tok 102 [] (str "(""a b""") (str ")")); [reflexivity|].
    apply (Bd_tok 40 [] (str """a b""") (str ")")); [reflexivity|].
    apply (Bd_tok 34 (str "a b""") [] (str ")")); [reflexivity|constructor].
Qed.

(* lex_step and lex_line are the same in lex_alpha and lex_alpha_fixed (the
   repair of D8 changed the bookkeeping of lex only), so what is proved of
   them holds for both.  What a line contributes to the repaired lexer: *)
Theorem lex_alpha_fixed_lines src :
  map pay (lex_alpha_fixed src) =
  flat_map pays_of (lines_of src) ++ (if is_nil src then [(KError, E101, None, [])] else []).
Proof.
  assert (Hl : forall lts o i, map pay (lex_lines_fixed lts o i) = flat_map pays_of (map fst lts)).
  { induction lts as [|[l t] ls IH]; intros o i; [reflexivity|].
    cbn [lex_lines_fixed map fst flat_map]. rewrite map_app, lex_line_pays, IH. reflexivity. }
  unfold lex_alpha_fixed. rewrite map_app, Hl, lines_term_fst.
  destruct src; reflexivity.
Qed.

(* What str::lines() strips from a line that a LF terminates: one CR at its end. *)
Fixpoint strip_cr (l : list N) : list N :=
  match l with
  | [] => []
  | c :: r => match r with
              | [] => if c =? 13 then [] else [c]
              | _ :: _ => c :: strip_cr r
              end
  end.

Lemma strip_cr_id l : ~ In 13 l -> strip_cr l = l.
Proof.
  induction l as [|c [|d l] IH]; intros H; [reflexivity| |].
  - cbn [strip_cr]. destruct (N.eqb_spec c 13) as [->|_]; [exfalso; apply H; now left|reflexivity].
  - cbn [strip_cr] in *. rewrite IH; [reflexivity|]. intros H'. apply H. now right.
Qed.

Lemma strip_cr_snoc l c : strip_cr (l ++ [c]) = if c =? 13 then l else l ++ [c].
Proof.
  induction l as [|d l IH]; [cbn; destruct (c =? 13); reflexivity|].
  cbn [app strip_cr]. destruct (l ++ [c]) as [|e t] eqn:E; [destruct l; discriminate|].
  rewrite IH. destruct (c =? 13); reflexivity.
Qed.

Lemma lines_of_no_nl l : ~ In 10 l -> l <> [] -> lines_of l = [l].
Proof.
  induction l as [|c l IH]; intros Hn Hne; [congruence|]. cbn [lines_of].
  destruct (N.eqb_spec c 10) as [->|_]; [exfalso; apply Hn; now left|].
  assert (Hnext : match l with n :: _ => n =? 10 | [] => false end = false).
  { destruct l as [|d l']; [reflexivity|]. apply N.eqb_neq. intros ->. apply Hn. right. now left. }
  rewrite Hnext, andb_false_r. destruct l as [|d l']; [reflexivity|].
  rewrite IH; [reflexivity| |discriminate]. intros H. apply Hn. now right.
Qed.

Lemma lines_of_app_nl l s : ~ In 10 l -> lines_of (l ++ 10 :: s) = strip_cr l :: lines_of s.
Proof.
  induction l as [|c l IH]; intros Hn; [reflexivity|]. cbn [app lines_of strip_cr].
  destruct (N.eqb_spec c 10) as [->|_]; [exfalso; apply Hn; now left|].
  assert (Hn' : ~ In 10 l) by (intros H; apply Hn; now right).
  destruct l as [|d l'].
  - cbn [app]. rewrite N.eqb_refl, andb_true_r. destruct (c =? 13); reflexivity.
  - cbn [app]. destruct (N.eqb_spec d 10) as [->|_]; [exfalso; apply Hn'; now left|].
    rewrite andb_false_r. change (d :: l' ++ 10 :: s) with ((d :: l') ++ 10 :: s). rewrite (IH Hn'). reflexivity.
Qed.

Lemma no_nl_cr_spec cs :
  forallb (fun c => negb (c =? 10) && negb (c =? 13)) cs = true -> ~ In 10 cs /\ ~ In 13 cs.
Proof.
  intros H. rewrite forallb_forall in H. split; intros Hin; specialize (H _ Hin); discriminate.
Qed.

Lemma no_nl_lines cs : cs <> [] -> forallb (fun c => negb (c =? 10) && negb (c =? 13)) cs = true ->
  lines_of cs = [cs].
Proof. intros Hne H. apply lines_of_no_nl; [apply (no_nl_cr_spec cs H)|exact Hne]. Qed.

Lemma lines_of_line l s : forallb (fun c => negb (c =? 10) && negb (c =? 13)) l = true ->
  lines_of (l ++ 10 :: s) = l :: lines_of s.
Proof.
  intros H. destruct (no_nl_cr_spec l H) as [H10 H13]. now rewrite (lines_of_app_nl l s H10), (strip_cr_id l H13).
Qed.

(* A source without LF is one line, which both versions of lex place alike. *)
Lemma lex_alpha_line cs : cs <> [] -> ~ In 10 cs ->
  lex_alpha cs = lex_line cs 0 1 /\ lex_alpha_fixed cs = lex_line cs 0 1.
Proof.
  intros Hne Hnl. pose proof (lines_term_fst cs) as Hf. rewrite (lines_of_no_nl cs Hnl Hne) in Hf.
  unfold lex_alpha, lex_alpha_fixed. rewrite (lines_of_no_nl cs Hnl Hne).
  destruct (lines_term cs) as [|[l t] [|? ?]]; try discriminate Hf. injection Hf as ->.
  cbn [lex_lines lex_lines_fixed]. destruct cs; [congruence|]. cbn [is_nil]. now rewrite !app_nil_r.
Qed.

Lemma lex_alpha_single_line cs : cs <> [] ->
  forallb (fun c => negb (c =? 10) && negb (c =? 13)) cs = true ->
  lex_alpha cs = lex_line cs 0 1.
Proof. intros Hne H. apply lex_alpha_line; [exact Hne|apply (no_nl_cr_spec cs H)]. Qed.

Lemma lex_alpha_fixed_single_line cs : cs <> [] ->
  forallb (fun c => negb (c =? 10) && negb (c =? 13)) cs = true ->
  lex_alpha_fixed cs = lex_line cs 0 1.
Proof. intros Hne H. apply lex_alpha_line; [exact Hne|apply (no_nl_cr_spec cs H)]. Qed.

Lemma lex_alpha_one_token x cs k v ty bs n :
  ~ In 10 (x :: cs) -> lex_step x cs = StTok k v ty bs n [] ->
  lex_alpha (x :: cs) = [mk k v ty bs 0 n 1 0] /\ lex_alpha_fixed (x :: cs) = [mk k v ty bs 0 n 1 0].
Proof.
  intros Hnl Hs. destruct (lex_alpha_line (x :: cs) ltac:(discriminate) Hnl) as [-> ->].
  unfold lex_line. cbn [length lex_line_fuel]. now rewrite Hs, lex_line_fuel_nil.
Qed.

Theorem whitespace_invariance_source a b w :
  boundary a b -> b <> [] -> blank w ->
  forallb (fun c => negb (c =? 10) && negb (c =? 13)) (a ++ b) = true ->
  map pay (lex_alpha (a ++ w :: b)) = map pay (lex_alpha (a ++ b)).
Proof.
  intros Hb Hne Hw Hnl.
  rewrite !lex_alpha_single_line, !lex_line_pays.
  - now apply whitespace_invariance.
  - destruct a; [exact Hne|discriminate].
  - exact Hnl.
  - destruct a; discriminate.
  - rewrite forallb_app in *. apply andb_true_iff in Hnl. destruct Hnl as [H1 H2].
    apply andb_true_iff. split; [exact H1|]. cbn [forallb]. rewrite H2.
    destruct Hw as [->| ->]; reflexivity.
Qed.

Theorem whitespace_invariance_source_fixed a b w :
  boundary a b -> b <> [] -> blank w ->
  forallb (fun c => negb (c =? 10) && negb (c =? 13)) (a ++ b) = true ->
  map pay (lex_alpha_fixed (a ++ w :: b)) = map pay (lex_alpha_fixed (a ++ b)).
Proof.
  intros Hb Hne Hw Hnl. rewrite !lex_alpha_fixed_pays. now apply whitespace_invariance_source.
Qed.

(* Blank + comment + line break between two tokens of a line, as a source. *)
Theorem comment_invariance_source_fixed a b w c :
  boundary a b -> b <> [] -> blank w ->
  forallb (fun c => negb (c =? 10) && negb (c =? 13)) (a ++ b) = true ->
  forallb (fun c => negb (c =? 10) && negb (c =? 13)) c = true ->
  map pay (lex_alpha_fixed ((a ++ w :: 47 :: 47 :: c) ++ 10 :: b)) = map pay (lex_alpha_fixed (a ++ b)).
Proof.
  intros Hb Hne Hw Hab Hc.
  rewrite forallb_app in Hab. apply andb_true_iff in Hab. destruct Hab as [Ha Hbb].
  assert (Hl1 : forallb (fun c => negb (c =? 10) && negb (c =? 13)) (a ++ w :: 47 :: 47 :: c) = true).
  { rewrite forallb_app, Ha. cbn [forallb andb]. rewrite Hc. destruct Hw as [->| ->]; reflexivity. }
  rewrite !lex_alpha_fixed_lines, (lines_of_line _ b Hl1), (no_nl_lines b Hne Hbb).
  rewrite (no_nl_lines (a ++ b)); [|destruct a; [exact Hne|discriminate]|rewrite forallb_app, Ha, Hbb; reflexivity].
  cbn [flat_map]. rewrite !app_nil_r.
  replace (is_nil ((a ++ w :: 47 :: 47 :: c) ++ 10 :: b)) with false by (destruct a; reflexivity).
  replace (is_nil (a ++ b)) with false by (destruct a; [destruct b; [congruence|reflexivity]|reflexivity]).
  rewrite !app_nil_r. now apply comment_invariance.
Qed.

Lemma digits_no_nl isd ds : isd 10 = false -> isd 13 = false -> digits_us isd ds = true ->
  forallb (fun c => negb (c =? 10) && negb (c =? 13)) ds = true.
Proof.
  intros H10 H13 H. unfold digits_us in H. rewrite forallb_forall in *. intros c Hc. specialize (H c Hc).
  destruct (N.eqb_spec c 10) as [->|_]; [now rewrite H10 in H|].
  destruct (N.eqb_spec c 13) as [->|_]; [now rewrite H13 in H|]. reflexivity.
Qed.

Lemma decimal_no_nl x ds : is_nonzero_dec x = true -> digits_us is_dec ds = true ->
  forallb (fun c => negb (c =? 10) && negb (c =? 13)) (x :: ds) = true.
Proof.
  intros Hx Hds. cbn [forallb]. rewrite (digits_no_nl is_dec ds eq_refl eq_refl Hds), andb_true_r.
  apply in_range_spec in Hx. rewrite andb_true_iff, !negb_true_iff, !N.eqb_neq. lia.
Qed.

Local Open Scope Z_scope.

Theorem decimal_value_source x ds :
  is_nonzero_dec x = true -> digits_us is_dec ds = true ->
  let v := value_of_digits 10 (x :: strip_us ds) in
  lex_alpha (x :: ds) =
  [if v <? 2 ^ 128
   then mk KNakedDecimal v None [] 0 (1 + len ds) 1 0
   else mk KError E140 None [] 0 (1 + len ds) 1 0].
Proof.
  intros Hx Hds v.
  rewrite (lex_alpha_single_line (x :: ds)) by (discriminate || now apply decimal_no_nl).
  unfold lex_line. cbn [length lex_line_fuel].
  pose proof (decimal_value x ds [] Hx Hds I) as Hstep. rewrite app_nil_r in Hstep.
  cbv zeta in Hstep. fold v in Hstep. rewrite Hstep.
  destruct (v <? 2 ^ 128); destruct ds; reflexivity.
Qed.

Local Open Scope N_scope.

Theorem decimal_value_source_fixed x ds :
  is_nonzero_dec x = true -> digits_us is_dec ds = true ->
  let v := value_of_digits 10 (x :: strip_us ds) in
  lex_alpha_fixed (x :: ds) =
  [if (v <? 2 ^ 128)%Z
   then mk KNakedDecimal v None [] 0 (1 + len ds) 1 0
   else mk KError E140 None [] 0 (1 + len ds) 1 0].
Proof.
  intros Hx Hds v. rewrite lex_alpha_fixed_no_cr; [now apply decimal_value_source|].
  now apply no_nl_cr_spec, decimal_no_nl.
Qed.

(* For the test vectors: the positions of a token; payloads and positions of
   the tokens of a source given as a string; payloads without value / with a
   value / of an error code. *)
Definition pos (t : tok) : N * N * N * N := (tstart t, tend t, line t, lstart t).
Definition pays (s : string) := map pay (lex_alpha (str s)).
Definition poss (s : string) := map pos (lex_alpha (str s)).
Definition P (k : tkind) : tkind * Z * option tykw * list N := (k, 0%Z, None, []).
Definition Pv (k : tkind) (v : Z) : tkind * Z * option tykw * list N := (k, v, None, []).
Definition PE (c : Z) : tkind * Z * option tykw * list N := (KError, c, None, []).

(* The numeric tables of the model, read as strings. *)
Example keyword_table_spelling :
  map fst keyword_table =
  map str ["fn"; "var"; "const"; "if"; "goto"; "loop"; "else"; "cast"; "as"; "import"; "pub";
           "extern"; "struct"; "word8"; "word16"; "word32"; "word64"; "word128"; "_"]%string.
Proof. vm_compute. reflexivity. Qed.

Example bool_table_spelling : map fst bool_table = map str ["true"; "false"]%string.
Proof. vm_compute. reflexivity. Qed.

Example type_table_spelling :
  map fst type_table =
  map str ["void"; "i8"; "i16"; "i32"; "i64"; "i128"; "u8"; "u16"; "u32"; "u64"; "u128";
           "usize"; "char8"; "bool"]%string.
Proof. vm_compute. reflexivity. Qed.

Example suffix_table_spelling :
  map fst suffix_table =
  map str ["i8"; "i16"; "i32"; "i64"; "i128"; "u8"; "u16"; "u32"; "u64"; "u128"; "usize"]%string.
Proof. vm_compute. reflexivity. Qed.

Example escape_table_spelling :
  map fst escape_table = str "nrt\'""0"%string.
Proof. vm_compute. reflexivity. Qed.

Example ex_singles :
  pays "(){}[]&^+*%:;," =
  map P [KParenLeft; KParenRight; KBraceLeft; KBraceRight; KBracketLeft; KBracketRight;
         KAmpersand; KCaret; KPlus; KTimes; KModulo; KColon; KSemicolon; KComma].
Proof. vm_compute. reflexivity. Qed.

Example ex_doubles :
  pays "< << <= > >> >= | |: ! != . .. ... = == === - -> / <<<" =
  map P [KAngleLeft; KShiftLeft; KIsLE; KAngleRight; KShiftRight; KIsGE; KPipe; KPipeForType;
         KExclamation; KDoesNotEqual; KDot; KDots; KDots; KDot; KAssignment; KEquals; KEquals;
         KAssignment; KMinus; KArrow; KDivide; KShiftLeft; KAngleLeft].
Proof. vm_compute. reflexivity. Qed.

Example ex_comment : pays "a / b // c d
e" = map P [KIdentifier; KDivide; KIdentifier; KIdentifier].
Proof. vm_compute. reflexivity. Qed.

Example ex_comment_pos : poss "a//x
  b" = [(0, 1, 1, 0); (7, 8, 2, 2)].
Proof. vm_compute. reflexivity. Qed.

Example ex_keywords :
  pays "fn var const if goto loop else cast as import pub extern struct word8 word16 word32 word64 word128 _ return" =
  map P [KFn; KVar; KConst; KIf; KGoto; KLoop; KElse; KCast; KAs; KImport; KPub; KExtern; KStruct;
         KWord8; KWord16; KWord32; KWord64; KWord128; KPlaceholder; KIdentifier (* no return keyword *)].
Proof. vm_compute. reflexivity. Qed.

Example ex_types_bools :
  pays "void i8 u128 usize char8 bool true false i7" =
  [(KType, 0%Z, Some TyVoid, []); (KType, 0%Z, Some (TyPrim Int8), []);
   (KType, 0%Z, Some (TyPrim Uint128), []); (KType, 0%Z, Some (TyPrim Usize), []);
   (KType, 0%Z, Some (TyPrim Char8), []); (KType, 0%Z, Some (TyPrim Bool), []);
   Pv KBool 1; Pv KBool 0; P KIdentifier].
Proof. vm_compute. reflexivity. Qed.

(* a keyword followed by '!' is not a builtin; "__" is an identifier *)
Example ex_builtin :
  pays "print! if! _! __ x9_!= a!!" =
  map P [KBuiltin; KIf; KExclamation; KPlaceholder; KExclamation; KIdentifier;
         KBuiltin; KAssignment; KBuiltin; KExclamation].
Proof. vm_compute. reflexivity. Qed.

Example ex_builtin_pos : poss "ab! c" = [(0, 3, 1, 0); (4, 5, 1, 4)].
Proof. vm_compute. reflexivity. Qed.

Example ex_numbers :
  pays "0 7 1_000 1_ 0x1F 0xfF_ 0b101 0x0 0b0 0x_1" =
  [Pv KNakedDecimal 0; Pv KNakedDecimal 7; Pv KNakedDecimal 1000; Pv KNakedDecimal 1;
   Pv KBitInteger 31; Pv KBitInteger 255; Pv KBitInteger 5; Pv KBitInteger 0; Pv KBitInteger 0;
   Pv KBitInteger 1].
Proof. vm_compute. reflexivity. Qed.

Example ex_number_quirks :
  pays "0123 00 0_ 0x 0b 0x_ 0xg 0b2 0b12 0X1 1a 1_a 12u 0u8 0x1u8 0b1i8 0xu8 0xfu8 1e5 0xi8" =
  [PE E141; PE E141; PE E141; PE E141; PE E141; PE E141; PE E141; PE E141; PE E141; PE E141;
   PE E141; PE E141; PE E141;
   (KSuffixedInteger, 0%Z, Some (TyPrim Uint8), []);
   (KSuffixedInteger, 1%Z, Some (TyPrim Uint8), []);
   (KSuffixedInteger, 1%Z, Some (TyPrim Int8), []);
   PE E141; (KSuffixedInteger, 15%Z, Some (TyPrim Uint8), []); PE E141; PE E141].
Proof. vm_compute. reflexivity. Qed.

Example ex_suffixes :
  pays "1i8 2i16 3i32 4i64 5i128 6u8 7u16 8u32 9u64 10u128 11usize 12char8 13bool 1_u8 1u_8 1u8_" =
  [(KSuffixedInteger, 1%Z, Some (TyPrim Int8), []); (KSuffixedInteger, 2%Z, Some (TyPrim Int16), []);
   (KSuffixedInteger, 3%Z, Some (TyPrim Int32), []); (KSuffixedInteger, 4%Z, Some (TyPrim Int64), []);
   (KSuffixedInteger, 5%Z, Some (TyPrim Int128), []); (KSuffixedInteger, 6%Z, Some (TyPrim Uint8), []);
   (KSuffixedInteger, 7%Z, Some (TyPrim Uint16), []); (KSuffixedInteger, 8%Z, Some (TyPrim Uint32), []);
   (KSuffixedInteger, 9%Z, Some (TyPrim Uint64), []); (KSuffixedInteger, 10%Z, Some (TyPrim Uint128), []);
   (KSuffixedInteger, 11%Z, Some (TyPrim Usize), []); PE E141; PE E141;
   (KSuffixedInteger, 1%Z, Some (TyPrim Uint8), []); PE E141; PE E141].
Proof. vm_compute. reflexivity. Qed.

Example ex_u128_limits :
  pays "340282366920938463463374607431768211455 340282366920938463463374607431768211456 0xffffffffffffffffffffffffffffffff 0x100000000000000000000000000000000 0x000000000000000000000000000000000000001 340282366920938463463374607431768211456u8 340282366920938463463374607431768211456zz" =
  [Pv KNakedDecimal (2 ^ 128 - 1); PE E140; Pv KBitInteger (2 ^ 128 - 1); PE E140; Pv KBitInteger 1;
   PE E140; PE E140 (* overflow wins over a bad suffix *)].
Proof. vm_compute. reflexivity. Qed.

Example ex_number_pos : poss "12_u8+0x_f_ 0" = [(0, 5, 1, 0); (5, 6, 1, 5); (6, 11, 1, 6); (12, 13, 1, 12)].
Proof. vm_compute. reflexivity. Qed.

Example ex_string :
  pays "x = ""a b\n\r\t\\\'\""\0\x41\x7f\xfF\u{41}\u{e9}\u{20AC}\u{1F600}""" =
  [P KIdentifier; P KAssignment;
   (KStringLiteral, 0%Z, None,
    [97; 32; 98; 10; 13; 9; 92; 39; 34; 0; 65; 127; 255; 65; 195; 169; 226; 130; 172; 240; 159; 152; 128])].
Proof. vm_compute. reflexivity. Qed.

(* raw non-ASCII characters are UTF-8 encoded: e-acute, euro sign, U+1F600, U+80, U+10FFFF *)
Example ex_string_nonascii :
  map pay (lex_alpha ([34; 233; 8364; 128512; 128; 1114111; 34])) =
  [(KStringLiteral, 0%Z, None,
    [195; 169; 226; 130; 172; 240; 159; 152; 128; 194; 128; 244; 143; 191; 191])].
Proof. vm_compute. reflexivity. Qed.

Example ex_char_literals :
  pays "'a' ' ' '""' '\'' '\x80' '\u{41}' '' 'ab' '\u{e9}' ""'""" =
  [Pv KCharLiteral 97; Pv KCharLiteral 32; Pv KCharLiteral 34; Pv KCharLiteral 39;
   Pv KCharLiteral 128; Pv KCharLiteral 65; PE E163; PE E163; PE E163;
   (KStringLiteral, 0%Z, None, [39])].
Proof. vm_compute. reflexivity. Qed.

(* a raw non-ASCII char in a char literal is two bytes: E163 *)
Example ex_char_nonascii : map pay (lex_alpha [39; 233; 39]) = [PE E163].
Proof. vm_compute. reflexivity. Qed.

(* errors inside literals: only the first error is reported, the literal is
   consumed up to its closing quote (or the end of the line) *)
Example ex_string_errors :
  pays """\q"" ""\x4"" ""\xg"" ""\u"" ""\u{}"" ""\u{41"" ""\u{d800}"" ""\u{110000}"" ""\u{100000000}"" ""\U{41}"" ""a\qb\x"" 1" =
  [PE E162; PE E162; PE E162; PE E162; PE E162; PE E162; PE E162; PE E162; PE E162; PE E162; PE E162;
   Pv KNakedDecimal 1].
Proof. vm_compute. reflexivity. Qed.

Example ex_string_unterminated : pays "a ""bc + 1" = [P KIdentifier; PE E160].
Proof. vm_compute. reflexivity. Qed.

Example ex_string_trailing_backslash : pays "a ""bc\" = [P KIdentifier; PE E161].
Proof. vm_compute. reflexivity. Qed.

(* the unterminated literal ends at the end of the line; the next line is lexed normally *)
Example ex_string_unterminated_lines : pays "'a
b'" = [PE E160; P KIdentifier; PE E160].
Proof. vm_compute. reflexivity. Qed.

(* tab / control characters / DEL inside a literal: E110 (the literal is still consumed) *)
Example ex_string_control :
  map pay (lex_alpha ([34; 97; 9; 98; 34; 49])) = [PE E110; Pv KNakedDecimal 1].
Proof. vm_compute. reflexivity. Qed.
Example ex_string_del : map pay (lex_alpha ([34; 127; 34])) = [PE E110].
Proof. vm_compute. reflexivity. Qed.

(* positions of in-literal errors: span of the offending character(s),
   line_offset = index of the offending character + 1 *)
Example ex_string_error_pos :
  poss "  ""ab\qcd"" x" = [(5, 7, 1, 6); (11, 12, 1, 11)].
Proof. vm_compute. reflexivity. Qed.
Example ex_string_error_pos_x : poss """\x4g""" = [(1, 4, 1, 2)].
Proof. vm_compute. reflexivity. Qed.
Example ex_string_error_pos_u : poss """a\u{12z""" = [(2, 7, 1, 3)].
Proof. vm_compute. reflexivity. Qed.
(* E160: span of the whole rest of the line, line_offset = its length *)
Example ex_unterminated_pos : poss " ""abc" = [(1, 5, 1, 5)].
Proof. vm_compute. reflexivity. Qed.
Example ex_unterminated_pos_empty : poss " """ = [(1, 2, 1, 2)].
Proof. vm_compute. reflexivity. Qed.
(* E161: the span ends one past the end of the line *)
Example ex_trailing_backslash_pos : poss """ab\" = [(3, 5, 1, 4)].
Proof. vm_compute. reflexivity. Qed.
Example ex_trailing_backslash_next_line :
  poss """\
x" = [(1, 3, 1, 2); (3, 4, 2, 0)].
Proof. vm_compute. reflexivity. Qed.

Example ex_unexpected :
  map pay (lex_alpha (str "#$@?~`\" ++ [0; 13; 127; 233; 8364; 128512; 160; 12])) =
  repeat (PE E110) 15.
Proof. vm_compute. reflexivity. Qed.

Example ex_whitespace : map pay (lex_alpha [32; 32; 9; 32; 97; 9; 32]) = [P KIdentifier].
Proof. vm_compute. reflexivity. Qed.

Example ex_empty : map pay (lex_alpha []) = [PE E101] /\ map pos (lex_alpha []) = [(0, 0, 1, 1)].
Proof. vm_compute. split; reflexivity. Qed.
Example ex_only_newline : lex_alpha [10] = [].
Proof. vm_compute. reflexivity. Qed.

Example ex_lines_of :
  lines_of (str "a" ++ [13; 10] ++ str "b" ++ [13; 13; 10; 10] ++ str "c" ++ [13]) =
  [str "a"; str "b" ++ [13]; []; str "c" ++ [13]].
Proof. vm_compute. reflexivity. Qed.
Example ex_lines_of_2 : lines_of [10; 10] = [[]; []] /\ lines_of [97; 10] = [[97]] /\ lines_of [13] = [[13]].
Proof. vm_compute. repeat split; reflexivity. Qed.

Example ex_lines_term :
  lines_term (str "a" ++ [13; 10] ++ str "b" ++ [13; 13; 10; 10] ++ str "c" ++ [13]) =
  [(str "a", 2); (str "b" ++ [13], 2); ([], 1); (str "c" ++ [13], 0)] /\
  lines_term [10] = [([], 1)] /\ lines_term [13; 10] = [([], 2)] /\ lines_term [13] = [([13], 0)] /\
  lines_term [97; 10] = [([97], 1)] /\ lines_term [] = [].
Proof. vm_compute. repeat split; reflexivity. Qed.

Example ex_lines_pos : poss "a
 bc

d" = [(0, 1, 1, 0); (3, 5, 2, 1); (7, 8, 4, 0)].
Proof. vm_compute. reflexivity. Qed.

(* a bare CR (not before LF) and a CR at the very end are characters of the line: E110 *)
Example ex_bare_cr :
  map pay (lex_alpha (str "a" ++ [13] ++ str "b" ++ [13])) = [P KIdentifier; PE E110; P KIdentifier; PE E110].
Proof. vm_compute. reflexivity. Qed.

Example span_crlf_fixed_example :
  map pos (lex_alpha_fixed [97; 13; 10; 98]) = [(0, 1, 1, 0); (3, 4, 2, 0)] /\
  map pos (lex_alpha [97; 13; 10; 98]) = [(0, 1, 1, 0); (2, 3, 2, 0)] /\
  nth 3 [97; 13; 10; 98] 0 = 98.
Proof. vm_compute. repeat split; reflexivity. Qed.

(* mixed terminators, a bare CR inside a line, a CR at the very end *)
Example span_mixed_fixed_example :
  map pos (lex_alpha_fixed (str "a" ++ [13; 10] ++ str "b" ++ [13] ++ str "c" ++ [10; 13; 10] ++ str "d" ++ [13])) =
  [(0, 1, 1, 0); (3, 4, 2, 0); (4, 5, 2, 1); (5, 6, 2, 2); (9, 10, 4, 0); (10, 11, 4, 1)].
Proof. vm_compute. reflexivity. Qed.

Print Assumptions decimal_value.
Print Assumptions decimal_value_source.
Print Assumptions hex_value.
Print Assumptions bin_value.
Print Assumptions radix_without_digits.
Print Assumptions zero_value.
Print Assumptions zero_then_digits.
Print Assumptions suffix_value.
Print Assumptions suffix_invalid.
Print Assumptions radix_suffix_value.
Print Assumptions span_exact_no_cr.
Print Assumptions span_exact_no_cr_explicit.
Print Assumptions span_crlf_refuted.
Print Assumptions lex_alpha_no_oof.
Print Assumptions utf8_roundtrip.
Print Assumptions escape_simple.
Print Assumptions escape_hex.
Print Assumptions escape_unicode.
Print Assumptions escape_invalid.
Print Assumptions escape_decode.
Print Assumptions escape_decode_char.
Print Assumptions escape_error_first.
Print Assumptions missing_closing_quote.
Print Assumptions lex_step_local.
Print Assumptions whitespace_invariance.
Print Assumptions whitespace_invariance_source.
Print Assumptions comment_invariance.
Print Assumptions comment_directly_after_slash_refuted.
Print Assumptions whitespace_at_end_refuted.

Print Assumptions lines_term_fst.
Print Assumptions lex_alpha_fixed_no_cr.
Print Assumptions lex_alpha_fixed_same_but_spans.
Print Assumptions span_exact_fixed.
Print Assumptions span_exact_fixed_explicit.
Print Assumptions span_crlf_fixed_example.
Print Assumptions lex_alpha_fixed_pays.
Print Assumptions lex_alpha_fixed_no_oof.
Print Assumptions decimal_value_source_fixed.
Print Assumptions whitespace_invariance_source_fixed.
Print Assumptions lex_alpha_fixed_lines.
Print Assumptions comment_invariance_source_fixed.
