(* Proofs about Model/Cfg.v, the control-flow lowering of src/alpha/generator.rs.  The
   generator's `unreachable!()` is hit exactly when some `loop` is not the last statement
   of a block, which the function body is not (lower_body_panics_iff).  With unique labels and
   no goto to an undeclared label the emitted CFG is well formed (lower_cfg_wf); with unique
   labels a structured run that ends normally is reproduced by the CFG (lower_simulates,
   lower_simulates_trace).  No branch targets "entry", an "unreachable-after-goto" or an
   "after-looped-block" (lower_branch_targets).  Bodies the earlier stages accept satisfy all
   hypotheses (accepted_compiles, stages_accept).

   The idea.  Two invariants of the builder, neither needed to keep the other.  [Shape] holds of
   every lowering: label map and tags say the same, "entry" is block 0 only, every branch target
   has a targetable tag.  [Inv] needs unique labels: a stack of blocks that still wait for their
   terminator, each with the position where it will go, so that [Inv] kept across a statement says
   that the statement wrote to none of them; every other block is the empty block of a label yet
   to come, or has its terminator.  Each builder operation (emit, enter, close, find_or_append,
   switch) has one lemma per invariant, and every arm of [lower_stmt] is a composition of these
   operations.  [lower_ind] is induction over a successful lowering: a relation between the states
   before and after a statement that holds arm by arm, given that the parts of the statement were
   lowered, holds of [lower_stmt].  It is used twice: without hypothesis the lowering only appends
   ([Ext]), keeps [Shape], and its label map learns only labels of the body ([lower_list_low]);
   with unique labels it keeps [Inv] and puts the code of every statement in place for every later
   state ([lower_list_step], which takes [Ext] for the parts from the first).
   [lower_body_finished] collects both for the state before the final `ret`, and the theorems
   about [lower_body] start from it.  The simulation is by induction on the structured fuel
   ([sim_all]), over the placed [code] alone. *)
From PV Require Import Base.Common Model.Cfg.
From PV Require Model.LabelScope Model.Syntax Proofs.LabelScopeProofs Proofs.SyntaxProofs.
Open Scope N_scope.

Section stmt_ind2.
  Variable P : stmt -> Prop.
  Hypothesis HA : forall a, P (SAct a).
  Hypothesis HG : forall l, P (SGoto l).
  Hypothesis HL : forall l, P (SLabel l).
  Hypothesis HI : forall c t e, P t -> match e with Some e' => P e' | None => True end -> P (SIf c t e).
  Hypothesis HB : forall b, Forall P b -> P (SBlock b).
  Hypothesis HO : P SLoop.
  Fixpoint stmt_ind2 (s : stmt) : P s :=
    match s with
    | SAct a => HA a
    | SGoto l => HG l
    | SLabel l => HL l
    | SIf c t e => HI c t e (stmt_ind2 t) (match e with Some e' => stmt_ind2 e' | None => I end)
    | SBlock b => HB b (Forall_all P stmt_ind2 b)
    | SLoop => HO
    end.
End stmt_ind2.

Lemma ends_in_loop_snoc ss : ends_in_loop ss = true -> ss = removelast ss ++ [SLoop].
Proof.
  induction ss as [|s r IH]; [discriminate|].
  destruct r as [|s' r'].
  - cbn [ends_in_loop removelast app]. destruct s; cbn [is_loop]; try discriminate. reflexivity.
  - intros H. change (ends_in_loop (s :: s' :: r')) with (ends_in_loop (s' :: r')) in H.
    change (removelast (s :: s' :: r')) with (s :: removelast (s' :: r')).
    cbn [app]. f_equal. now apply IH.
Qed.

Lemma ends_in_loop_app_loop ss : ends_in_loop (ss ++ [SLoop]) = true.
Proof.
  induction ss as [|s r IH]; [reflexivity|].
  cbn [app ends_in_loop]. destruct (r ++ [SLoop]) eqn:E; [destruct r; discriminate|exact IH].
Qed.

Lemma ends_in_loop_cons s r :
  ends_in_loop (s :: r) = if is_nil r then is_loop s else ends_in_loop r.
Proof. destruct r; reflexivity. Qed.

Lemma strip_loop_cons s r :
  strip_loop (s :: r) = if is_loop s && is_nil r then [] else s :: strip_loop r.
Proof.
  unfold strip_loop. rewrite ends_in_loop_cons. destruct r as [|s' r'].
  - cbn [is_nil removelast]. rewrite andb_true_r. destruct (is_loop s); reflexivity.
  - cbn [is_nil]. rewrite andb_false_r. now destruct (ends_in_loop (s' :: r')).
Qed.

Lemma strip_loop_noloop ss : ends_in_loop ss = false -> strip_loop ss = ss.
Proof. unfold strip_loop. now intros ->. Qed.

Lemma labels_block ss : labels_of (SBlock ss) = labels_list ss.
Proof. reflexivity. Qed.

Lemma gotos_block ss : gotos_of (SBlock ss) = gotos_list ss.
Proof. reflexivity. Qed.

(* the local fix of [lower_stmt (SBlock _)] *)
Definition lower_go : list stmt -> bstate -> option bstate :=
  fix go (ss : list stmt) (b : bstate) {struct ss} : option bstate :=
    match ss with
    | [] => Some b
    | s :: r =>
        if is_loop s && is_nil r then Some b else
        match lower_stmt s b with
        | None => None
        | Some b1 => go r b1
        end
    end.

Lemma lower_list_cons s r b :
  lower_list (s :: r) b = match lower_stmt s b with None => None | Some b1 => lower_list r b1 end.
Proof. reflexivity. Qed.

Lemma lower_go_strip ss b : lower_go ss b = lower_list (strip_loop ss) b.
Proof.
  revert b. induction ss as [|s r IH]; intros b; [reflexivity|]. rewrite strip_loop_cons.
  change (lower_go (s :: r) b) with
    (if is_loop s && is_nil r then Some b else
       match lower_stmt s b with None => None | Some b1 => lower_go r b1 end).
  destruct (is_loop s && is_nil r); [reflexivity|]. rewrite lower_list_cons.
  now destruct (lower_stmt s b).
Qed.

Lemma lower_body_eq body :
  lower_body body = option_map (fun b => blocks (emit IRet b)) (lower_list body init_state).
Proof. unfold lower_body, lower_body_state. now destruct (lower_list body init_state). Qed.

(* [nb b]: the number of blocks, which is the id the next appended block gets; [insl], [tagl]: [ins], [tg]
   on a list of blocks (the finished cfg). *)
Definition nb (b : bstate) : N := next_id (blocks b).
Definition lk (b : bstate) (l : N) : option N := lookup_label l (lmap b).
Definition insl (bs : list block) (i : N) : list instr :=
  match get_block bs i with Some blk => binstrs blk | None => [] end.
Definition ins (b : bstate) (i : N) : list instr := insl (blocks b) i.
Definition tagl (bs : list block) (i : N) : option tag :=
  match get_block bs i with Some blk => Some (btag blk) | None => None end.
Definition tg (b : bstate) (i : N) : option tag := tagl (blocks b) i.

(* append_block, and the recording half of find_or_append, as state transformers *)
Definition apb (t : tag) (b : bstate) : bstate := snd (append_block t b).
Definition bind_label (l i : N) (b : bstate) : bstate :=
  {| blocks := blocks b; cur := cur b; lmap := (l, i) :: lmap b |}.

Lemma get_block_none bs i : next_id bs <= i -> get_block bs i = None.
Proof. unfold next_id, get_block. intros H. apply nth_error_None. lia. Qed.

Lemma get_block_some bs i : i < next_id bs -> exists blk, get_block bs i = Some blk.
Proof.
  unfold next_id, get_block. intros H.
  destruct (nth_error bs (N.to_nat i)) eqn:E; [eauto|]. apply nth_error_None in E. lia.
Qed.

Lemma ins_oob b i : nb b <= i -> ins b i = [].
Proof. intros H. unfold ins, insl. now rewrite get_block_none. Qed.

Lemma tg_oob b i : nb b <= i -> tg b i = None.
Proof. intros H. unfold tg, tagl. now rewrite get_block_none. Qed.

Lemma tg_some b i t : tg b i = Some t -> i < nb b.
Proof.
  intros H. destruct (N.ltb_spec i (nb b)) as [|Hge]; [assumption|].
  rewrite tg_oob in H by assumption. discriminate.
Qed.

Lemma tg_inb b i : i < nb b -> exists t, tg b i = Some t.
Proof. intros H. unfold tg, tagl. destruct (get_block_some _ _ H) as [blk ->]. eauto. Qed.

Lemma emit_nth_length n x bs : length (emit_nth n x bs) = length bs.
Proof.
  revert n. induction bs as [|b r IH]; intros n; [reflexivity|].
  destruct n; cbn [emit_nth length]; [reflexivity|]. now rewrite IH.
Qed.

Lemma nth_error_emit_nth n x bs m :
  nth_error (emit_nth n x bs) m =
  if (m =? n)%nat
  then option_map (fun blk => {| btag := btag blk; binstrs := binstrs blk ++ [x] |}) (nth_error bs m)
  else nth_error bs m.
Proof.
  revert n m. induction bs as [|b r IH]; intros n m.
  - destruct m; now destruct (_ =? n)%nat.
  - destruct n, m; cbn [emit_nth nth_error Nat.eqb option_map]; try reflexivity. apply IH.
Qed.

Lemma emit_nth_app n x bs bs' :
  (n < length bs)%nat -> emit_nth n x (bs ++ bs') = emit_nth n x bs ++ bs'.
Proof.
  revert n. induction bs as [|b r IH]; intros n H; cbn [length] in H; [lia|].
  destruct n; cbn [app emit_nth]; [reflexivity|]. now rewrite IH by lia.
Qed.

Lemma emit_nth_comm n m x y bs :
  n <> m -> emit_nth n x (emit_nth m y bs) = emit_nth m y (emit_nth n x bs).
Proof.
  revert n m. induction bs as [|b r IH]; intros n m H; [reflexivity|].
  destruct n, m; cbn [emit_nth]; try reflexivity; try congruence. f_equal. apply IH. congruence.
Qed.

Lemma nb_emit_at j x b : nb (emit_at j x b) = nb b.
Proof. unfold nb, next_id, emit_at. cbn [blocks]. now rewrite emit_nth_length. Qed.
Lemma cur_emit_at j x b : cur (emit_at j x b) = cur b.
Proof. reflexivity. Qed.
Lemma lk_emit_at j x b l : lk (emit_at j x b) l = lk b l.
Proof. reflexivity. Qed.

Lemma get_block_emit_at j x b i :
  get_block (blocks (emit_at j x b)) i =
  if i =? j
  then option_map (fun blk => {| btag := btag blk; binstrs := binstrs blk ++ [x] |})
         (get_block (blocks b) i)
  else get_block (blocks b) i.
Proof.
  unfold get_block, emit_at. cbn [blocks]. rewrite nth_error_emit_nth.
  destruct (N.eqb_spec i j) as [->|Hne]; [now rewrite Nat.eqb_refl|].
  destruct (Nat.eqb_spec (N.to_nat i) (N.to_nat j)) as [E|]; [|reflexivity].
  now apply N2Nat.inj in E.
Qed.

Lemma tg_emit_at j x b i : tg (emit_at j x b) i = tg b i.
Proof.
  unfold tg, tagl. rewrite get_block_emit_at. destruct (i =? j); [|reflexivity].
  now destruct (get_block (blocks b) i).
Qed.

Lemma ins_emit_at j x b i :
  ins (emit_at j x b) i = if (i =? j) && (j <? nb b) then ins b i ++ [x] else ins b i.
Proof.
  unfold ins, insl. rewrite get_block_emit_at.
  destruct (N.eqb_spec i j) as [->|Hne]; cbn [andb]; [|reflexivity].
  destruct (N.ltb_spec j (nb b)) as [Hlt|Hge].
  - now destruct (get_block_some _ _ Hlt) as [blk ->].
  - now rewrite get_block_none.
Qed.

Lemma ins_emit_at_same j x b : j < nb b -> ins (emit_at j x b) j = ins b j ++ [x].
Proof. intros H. apply N.ltb_lt in H. now rewrite ins_emit_at, N.eqb_refl, H. Qed.

Lemma ins_emit_at_other j x b i : i <> j -> ins (emit_at j x b) i = ins b i.
Proof. intros H. apply N.eqb_neq in H. now rewrite ins_emit_at, H. Qed.

Lemma emit_at_comm i j x y b : i <> j -> emit_at i x (emit_at j y b) = emit_at j y (emit_at i x b).
Proof.
  intros H. unfold emit_at. cbn [blocks cur lmap]. f_equal. apply emit_nth_comm.
  intros E. now apply N2Nat.inj in E.
Qed.

Lemma emit_at_swap i j x b : emit_at i x (emit_at j x b) = emit_at j x (emit_at i x b).
Proof. destruct (N.eq_dec i j) as [->|H]; [reflexivity|now apply emit_at_comm]. Qed.

Lemma nb_emit x b : nb (emit x b) = nb b.
Proof. apply nb_emit_at. Qed.
Lemma cur_emit x b : cur (emit x b) = cur b.
Proof. reflexivity. Qed.
Lemma lk_emit x b l : lk (emit x b) l = lk b l.
Proof. reflexivity. Qed.
Lemma tg_emit x b i : tg (emit x b) i = tg b i.
Proof. apply tg_emit_at. Qed.
Lemma ins_emit x b i :
  ins (emit x b) i = if (i =? cur b) && (cur b <? nb b) then ins b i ++ [x] else ins b i.
Proof. apply ins_emit_at. Qed.

Lemma nb_set_cur j b : nb (set_cur j b) = nb b. Proof. reflexivity. Qed.
Lemma cur_set_cur j b : cur (set_cur j b) = j. Proof. reflexivity. Qed.
Lemma lk_set_cur j b l : lk (set_cur j b) l = lk b l. Proof. reflexivity. Qed.
Lemma tg_set_cur j b i : tg (set_cur j b) i = tg b i. Proof. reflexivity. Qed.
Lemma ins_set_cur j b i : ins (set_cur j b) i = ins b i. Proof. reflexivity. Qed.

Lemma append_block_eq t b : append_block t b = (nb b, apb t b).
Proof. reflexivity. Qed.

Lemma nb_apb t b : nb (apb t b) = N.succ (nb b).
Proof.
  unfold nb, next_id, apb, append_block. cbn [snd blocks]. rewrite app_length. cbn [length]. lia.
Qed.
Lemma cur_apb t b : cur (apb t b) = cur b. Proof. reflexivity. Qed.
Lemma lk_apb t b l : lk (apb t b) l = lk b l. Proof. reflexivity. Qed.

Lemma get_block_apb t b i :
  get_block (blocks (apb t b)) i =
  if i =? nb b then Some {| btag := t; binstrs := [] |} else get_block (blocks b) i.
Proof.
  unfold get_block, apb, append_block, nb, next_id. cbn [snd blocks].
  destruct (N.eqb_spec i (N.of_nat (length (blocks b)))) as [->|Hne].
  - rewrite Nat2N.id, nth_error_app2, Nat.sub_diag by lia. reflexivity.
  - destruct (Nat.lt_ge_cases (N.to_nat i) (length (blocks b))) as [Hlt|Hge].
    + now rewrite nth_error_app1.
    + assert (E : nth_error (blocks b) (N.to_nat i) = None) by now apply nth_error_None.
      rewrite E. apply nth_error_None. rewrite app_length. cbn [length]. lia.
Qed.

Lemma tg_apb t b i : tg (apb t b) i = if i =? nb b then Some t else tg b i.
Proof. unfold tg, tagl. rewrite get_block_apb. now destruct (i =? nb b). Qed.

Lemma tg_keep_apb t b i t' : tg b i = Some t' -> tg (apb t b) i = Some t'.
Proof.
  intros H. rewrite tg_apb. pose proof (tg_some _ _ _ H). destruct (N.eqb_spec i (nb b)); [lia|assumption].
Qed.

Lemma ins_apb t b i : ins (apb t b) i = ins b i.
Proof.
  unfold ins, insl. rewrite get_block_apb. destruct (N.eqb_spec i (nb b)) as [->|]; [|reflexivity].
  unfold nb. rewrite get_block_none by lia. reflexivity.
Qed.

(* LLVMAppendBasicBlockInContext, then LLVMPositionBuilderAtEnd on the new block *)
Definition enter (t : tag) (b : bstate) : bstate := set_cur (nb b) (apb t b).

Lemma nb_enter t b : nb (enter t b) = N.succ (nb b).
Proof. apply nb_apb. Qed.
Lemma cur_enter t b : cur (enter t b) = nb b.
Proof. reflexivity. Qed.
Lemma tg_enter t b i : tg (enter t b) i = if i =? nb b then Some t else tg b i.
Proof. apply tg_apb. Qed.
Lemma ins_enter t b i : ins (enter t b) i = ins b i.
Proof. apply ins_apb. Qed.

Lemma enter_emit_at t i x b : i < nb b -> enter t (emit_at i x b) = emit_at i x (enter t b).
Proof.
  intros H. unfold enter, set_cur, apb, append_block, emit_at, nb, next_id in *.
  cbn [snd blocks cur lmap]. rewrite emit_nth_length. f_equal.
  symmetry. apply emit_nth_app. lia.
Qed.

Lemma nb_bind l i b : nb (bind_label l i b) = nb b. Proof. reflexivity. Qed.
Lemma cur_bind l i b : cur (bind_label l i b) = cur b. Proof. reflexivity. Qed.
Lemma tg_bind l i b j : tg (bind_label l i b) j = tg b j. Proof. reflexivity. Qed.
Lemma ins_bind l i b j : ins (bind_label l i b) j = ins b j. Proof. reflexivity. Qed.
Lemma lk_bind l i b l' : lk (bind_label l i b) l' = if l' =? l then Some i else lk b l'.
Proof. reflexivity. Qed.

Lemma foa_eq l b :
  find_or_append l b =
  match lk b l with Some i => (i, b) | None => (nb b, bind_label l (nb b) (apb (Lbl l) b)) end.
Proof. reflexivity. Qed.

Lemma foa_set_cur j l b :
  find_or_append l (set_cur j b) = (fst (find_or_append l b), set_cur j (snd (find_or_append l b))).
Proof. unfold find_or_append. cbn [set_cur lmap]. now destruct (lookup_label l (lmap b)). Qed.

Lemma cur_foa l b : cur (snd (find_or_append l b)) = cur b.
Proof. rewrite foa_eq. now destruct (lk b l). Qed.

Lemma ins_foa l b i : ins (snd (find_or_append l b)) i = ins b i.
Proof. rewrite foa_eq. destruct (lk b l); [reflexivity|apply ins_apb]. Qed.

Lemma lk_foa l b : lk (snd (find_or_append l b)) l = Some (fst (find_or_append l b)).
Proof.
  rewrite foa_eq. destruct (lk b l) eqn:H; [exact H|]. cbn [fst snd].
  now rewrite lk_bind, N.eqb_refl.
Qed.

Definition nonterm (x : instr) : Prop := is_term x = false.
Definition openl (l : list instr) : Prop := Forall nonterm l.

Lemma openl_nil : openl [].
Proof. constructor. Qed.

Lemma openl_snoc l x : openl l -> is_term x = false -> openl (l ++ [x]).
Proof. intros Ho Hx. unfold openl. rewrite Forall_app. split; [assumption|]. now repeat constructor. Qed.

(* A position is a block and an index into its instructions. *)
Definition pos : Type := N * nat.
Definition iat (g : bstate) (p : pos) : option instr := nth_error (ins g (fst p)) (snd p).

(* what a later builder state keeps of an earlier one *)
Record Ext (b b' : bstate) : Prop := {
  ext_iat : forall p x, iat b p = Some x -> iat b' p = Some x;
  ext_lk : forall l i, lk b l = Some i -> lk b' l = Some i;
  ext_tg : forall i t, tg b i = Some t -> tg b' i = Some t
}.

Lemma Ext_same b b' :
  (forall i, ins b' i = ins b i) -> (forall l i, lk b l = Some i -> lk b' l = Some i) ->
  (forall i t, tg b i = Some t -> tg b' i = Some t) -> Ext b b'.
Proof. intros H2 H3 H4. constructor; auto. intros p x. unfold iat. now rewrite H2. Qed.

Lemma Ext_refl b : Ext b b.
Proof. constructor; auto. Qed.

Lemma Ext_trans a b c : Ext a b -> Ext b c -> Ext a c.
Proof. intros [A2 A3 A4] [B2 B3 B4]. constructor; auto. Qed.

Lemma Ext_emit_at j x b : Ext b (emit_at j x b).
Proof.
  constructor; auto.
  - intros p y H. unfold iat in *. rewrite ins_emit_at. destruct ((fst p =? j) && (j <? nb b)); [|assumption].
    rewrite nth_error_app1; [assumption|]. apply nth_error_Some. congruence.
  - intros i t. now rewrite tg_emit_at.
Qed.

Lemma Ext_set_cur j b : Ext b (set_cur j b).
Proof. apply Ext_same; auto. Qed.

Lemma Ext_enter t b : Ext b (enter t b).
Proof. apply Ext_same; auto; [apply ins_enter|intros i t'; apply tg_keep_apb]. Qed.

Lemma Ext_foa l b : Ext b (snd (find_or_append l b)).
Proof.
  apply Ext_same; [apply ins_foa| |].
  - rewrite foa_eq. destruct (lk b l) eqn:Hn; cbn [snd]; [auto|].
    intros l' i H. rewrite lk_bind, lk_apb. destruct (N.eqb_spec l' l); [congruence|assumption].
  - rewrite foa_eq. destruct (lk b l); cbn [snd]; [auto|].
    intros i t. rewrite tg_bind. apply tg_keep_apb.
Qed.

(* [curpos b] is the position the builder writes next.
   [code g s p q]: the instructions of [s] stand in [g] from [p] on, and a run of [s] that ends normally
   goes on at [q].  Where no run ends normally - after a goto, after a block that ends in `loop` - [q] is
   not constrained. *)
Definition curpos (b : bstate) : pos := (cur b, length (ins b (cur b))).

Section Code.
Variable g : bstate.

(* the code of a statement list, given that of a statement: one piece after the other *)
Definition code_seq (C : stmt -> pos -> pos -> Prop) : list stmt -> pos -> pos -> Prop :=
  fix go (ss : list stmt) (p q : pos) {struct ss} : Prop :=
    match ss with
    | [] => p = q
    | s :: r => exists m, C s p m /\ go r m q
    end.

Fixpoint code (s : stmt) (p q : pos) {struct s} : Prop :=
  match s with
  | SAct a => iat g p = Some (IAct a) /\ q = (fst p, S (snd p))
  | SGoto l => exists lb, iat g p = Some (IBr lb) /\ lk g l = Some lb
  | SLabel l => exists lb, iat g p = Some (IBr lb) /\ lk g l = Some lb /\ q = (lb, O)
  | SIf c t e =>
      exists th el af pe,
        iat g p = Some (ICmp c) /\ iat g (fst p, S (snd p)) = Some (ICondBr c th el) /\
        code t (th, O) pe /\ iat g pe = Some (IBr af) /\ q = (af, O) /\
        match e with
        | None => el = af
        | Some e' => exists pe', code e' (el, O) pe' /\ iat g pe' = Some (IBr af)
        end
  | SBlock ss =>
      if ends_in_loop ss then
        exists lp pe, iat g p = Some (IBr lp) /\ code_seq code ss (lp, O) pe /\ iat g pe = Some (IBr lp)
      else code_seq code ss p q
  | SLoop => p = q   (* the back edge belongs to the enclosing block *)
  end.

Definition code_list := code_seq code.

Lemma code_block ss p q :
  code (SBlock ss) p q =
  if ends_in_loop ss then
    exists lp pe, iat g p = Some (IBr lp) /\ code_list ss (lp, O) pe /\ iat g pe = Some (IBr lp)
  else code_list ss p q.
Proof. reflexivity. Qed.
End Code.

Lemma iat_emit_at i x b : i < nb b -> iat (emit_at i x b) (i, length (ins b i)) = Some x.
Proof.
  intros H. unfold iat. cbn [fst snd].
  rewrite ins_emit_at_same, nth_error_app2, Nat.sub_diag by (assumption || lia). reflexivity.
Qed.

Lemma curpos_enter t b : curpos (enter t b) = (nb b, 0%nat).
Proof. unfold curpos. rewrite cur_enter, ins_enter, ins_oob by lia. reflexivity. Qed.

Lemma curpos_emit x b : cur b < nb b -> curpos (emit x b) = (cur b, S (length (ins b (cur b)))).
Proof.
  intros H. unfold curpos, emit. now rewrite cur_emit_at, ins_emit_at_same, app_length, Nat.add_1_r.
Qed.

Lemma curpos_foa l b : curpos (snd (find_or_append l b)) = curpos b.
Proof. unfold curpos. now rewrite cur_foa, ins_foa. Qed.

Definition terminated (l : list instr) : Prop :=
  exists body t, l = body ++ [t] /\ openl body /\ is_term t = true.

(* The invariant of the builder.  [D]: the labels whose Label statement has been generated;
   [cur b :: map fst O]: the blocks still waiting for their terminator (the insertion block, then
   the blocks an enclosing `if` or block will come back to), each of the latter with the position
   its terminator will take: nothing is written to a block while it waits.  Every other block is
   the still empty block of a label not yet generated, or has its terminator.  Tags and branch
   targets are not its business: see [Shape]. *)
Record Inv (b : bstate) (D : list N) (O : list pos) : Prop := {
  inv_lt : forall l i, lk b l = Some i -> i < nb b;
  inv_inj : forall l l' i, lk b l = Some i -> lk b l' = Some i -> l = l';
  inv_done : forall l, In l D -> lk b l <> None;
  inv_nodup : NoDup (cur b :: map fst O);
  inv_open : forall i, In i (cur b :: map fst O) -> i < nb b /\ openl (ins b i);
  inv_len : forall i k, In (i, k) O -> length (ins b i) = k;
  inv_pend : forall l i, lk b l = Some i -> ~ In l D -> ins b i = [] /\ ~ In i (cur b :: map fst O);
  inv_class : forall i, i < nb b ->
    In i (cur b :: map fst O) \/ (exists l, lk b l = Some i /\ ~ In l D) \/ terminated (ins b i)
}.

Lemma terminated_not_open l : terminated l -> openl l -> False.
Proof.
  intros (body & t & -> & _ & Ht) Ho. unfold openl in Ho. rewrite Forall_app in Ho.
  destruct Ho as [_ Ho]. inversion Ho as [|? ? Hn _]. unfold nonterm in Hn. congruence.
Qed.

Lemma Inv_emit x b D O : is_term x = false -> Inv b D O -> Inv (emit x b) D O.
Proof.
  intros Hx HI. destruct (inv_open _ _ _ HI (cur b) (or_introl eq_refl)) as [Hc Hoc].
  assert (Hins : forall i, i <> cur b -> ins (emit x b) i = ins b i)
    by (intros; now apply ins_emit_at_other).
  constructor; rewrite ?nb_emit; try apply HI.
  - intros i Hi. destruct (inv_open _ _ _ HI i Hi) as [Hlt Ho].
    split; [assumption|]. destruct (N.eq_dec i (cur b)) as [->|Hne]; [|now rewrite Hins].
    unfold emit. rewrite ins_emit_at_same by assumption. now apply openl_snoc.
  - intros i k Hi. rewrite Hins; [now apply (inv_len _ _ _ HI)|]. intros ->.
    pose proof (inv_nodup _ _ _ HI) as Hn. inversion Hn as [|? ? Hn' _]. exact (Hn' (in_map fst _ _ Hi)).
  - intros l i Hk Hl. destruct (inv_pend _ _ _ HI l i Hk Hl) as [He Hn].
    split; [|assumption]. rewrite Hins; [assumption|]. intros ->. apply Hn. now left.
  - intros i Hi. destruct (inv_class _ _ _ HI i Hi) as [H|[H|H]]; [now left|right; now left|].
    right. right. rewrite Hins; [assumption|]. intros ->. exact (terminated_not_open _ H Hoc).
Qed.

Lemma Inv_enter t b D O : Inv b D O -> Inv (enter t b) D (curpos b :: O).
Proof.
  intros HI.
  assert (Hlt : forall i, In i (cur b :: map fst O) -> i < nb b) by (intros i Hi; now apply (inv_open _ _ _ HI)).
  constructor; cbn [map fst curpos]; rewrite ?nb_enter; try apply HI.
  - intros l i H. apply (inv_lt _ _ _ HI) in H. lia.
  - rewrite cur_enter. constructor; [|apply HI]. intros H. apply Hlt in H. lia.
  - intros i Hi. rewrite ins_enter. destruct Hi as [<-|Hi].
    + rewrite cur_enter. split; [lia|]. rewrite ins_oob by lia. apply openl_nil.
    + destruct (inv_open _ _ _ HI i Hi). split; [lia|assumption].
  - intros i k Hi. rewrite ins_enter. destruct Hi as [E|Hi]; [now inversion E|now apply (inv_len _ _ _ HI)].
  - intros l i Hk Hl. rewrite ins_enter. destruct (inv_pend _ _ _ HI l i Hk Hl) as [He Hn].
    split; [assumption|]. intros [H|H]; [|contradiction]. rewrite cur_enter in H.
    apply (inv_lt _ _ _ HI) in Hk. lia.
  - intros i Hi. rewrite ins_enter.
    destruct (N.eq_dec i (nb b)) as [->|Hne]; [left; now left|].
    destruct (inv_class _ _ _ HI i) as [H|[H|H]]; [lia|left; now right|right; now left|right; now right].
Qed.

Lemma Inv_close i k x b D O : is_term x = true -> Inv b D ((i, k) :: O) -> Inv (emit_at i x b) D O.
Proof.
  intros Hx HI. pose proof (inv_nodup _ _ _ HI) as Hnd0. cbn [map fst] in Hnd0.
  destruct (NoDup_remove [cur b] (map fst O) i Hnd0) as [Hnd Hni]. cbn [app] in Hnd, Hni.
  destruct (inv_open _ _ _ HI i) as [Hi Ho]; [right; now left|].
  assert (Hins : forall j, j <> i -> ins (emit_at i x b) j = ins b j)
    by (intros; now apply ins_emit_at_other).
  assert (Hin : forall j, In j (cur b :: map fst O) -> In j (cur b :: map fst ((i, k) :: O)) /\ j <> i).
  { intros j Hj. split; [destruct Hj; [now left|right; now right]|]. intros ->. contradiction. }
  constructor; rewrite ?nb_emit_at; try apply HI.
  - exact Hnd.
  - intros j Hj. destruct (Hin j Hj) as [Hj' Hne]. rewrite Hins by assumption.
    now apply (inv_open _ _ _ HI).
  - intros j k' Hj. rewrite Hins; [apply (inv_len _ _ _ HI); now right|].
    apply Hin. right. exact (in_map fst _ _ Hj).
  - intros l j Hkl Hl. destruct (inv_pend _ _ _ HI l j Hkl Hl) as [He Hn].
    assert (j <> i) by (intros ->; apply Hn; right; now left).
    rewrite Hins by assumption. split; [assumption|]. intros Hj. apply Hn. now apply Hin.
  - intros j Hj. destruct (N.eq_dec j i) as [->|Hne].
    + right. right. rewrite ins_emit_at_same by assumption. now exists (ins b i), x.
    + rewrite Hins by assumption.
      destruct (inv_class _ _ _ HI j Hj) as [H|[H|H]]; [|right; now left|right; now right].
      left. destruct H as [H|[H|H]]; [now left|cbn [fst] in H; congruence|now right].
Qed.

Lemma Inv_foa l b D O : Inv b D O -> Inv (snd (find_or_append l b)) D O.
Proof.
  intros HI. rewrite foa_eq. destruct (lk b l) eqn:Hn; [exact HI|]. cbn [snd].
  set (b' := bind_label l (nb b) (apb (Lbl l) b)).
  assert (Hnb : nb b' = N.succ (nb b)) by apply nb_apb.
  assert (Hins : forall i, ins b' i = ins b i) by (intros; apply ins_apb).
  assert (Hlk' : forall l', lk b' l' = if l' =? l then Some (nb b) else lk b l') by reflexivity.
  assert (Hold : forall l' i, lk b' l' = Some i -> l' <> l -> lk b l' = Some i).
  { intros l' i H Hne. rewrite Hlk' in H. apply N.eqb_neq in Hne. now rewrite Hne in H. }
  constructor; rewrite ?Hnb; try apply HI.
  - intros l' i H. rewrite Hlk' in H. destruct (l' =? l); [inversion H; lia|].
    apply (inv_lt _ _ _ HI) in H. lia.
  - intros l1 l2 i H1 H2. rewrite Hlk' in H1, H2.
    destruct (N.eqb_spec l1 l) as [->|], (N.eqb_spec l2 l) as [->|]; auto.
    + inversion H1; subst i. apply (inv_lt _ _ _ HI) in H2. lia.
    + inversion H2; subst i. apply (inv_lt _ _ _ HI) in H1. lia.
    + eapply (inv_inj _ _ _ HI); eauto.
  - intros l' Hl'. rewrite Hlk'. destruct (l' =? l); [discriminate|now apply (inv_done _ _ _ HI)].
  - intros i Hi. rewrite Hins. destruct (inv_open _ _ _ HI i Hi). split; [lia|assumption].
  - intros i k. rewrite Hins. apply HI.
  - intros l' i Hk Hl'. rewrite Hins. destruct (N.eq_dec l' l) as [->|Hne].
    + rewrite Hlk', N.eqb_refl in Hk. inversion Hk; subst i. split; [apply ins_oob; lia|].
      intros H. apply (inv_open _ _ _ HI) in H. lia.
    + apply (inv_pend _ _ _ HI l'); auto.
  - intros i Hi. rewrite Hins. destruct (N.eq_dec i (nb b)) as [->|Hne].
    + right. left. exists l. rewrite Hlk', N.eqb_refl. split; [reflexivity|].
      intros H. now apply (inv_done _ _ _ HI) in H.
    + destruct (inv_class _ _ _ HI i) as [H|[(l' & Hk & Hl')|H]]; [lia|now left| |right; now right].
      right. left. exists l'. rewrite Hlk'. assert (l' <> l) by congruence.
      apply N.eqb_neq in H. rewrite H. auto.
Qed.

Lemma Inv_switch l i b D O :
  Inv b D O -> lk b l = Some i -> ~ In l D -> Inv (set_cur i b) (D ++ [l]) (curpos b :: O).
Proof.
  intros HI Hk Hl. destruct (inv_pend _ _ _ HI l i Hk Hl) as [He Hni].
  pose proof (inv_lt _ _ _ HI _ _ Hk) as Hi.
  constructor; cbn [map fst curpos]; try apply HI.
  - intros l' Hl'. apply in_app_or in Hl'.
    destruct Hl' as [Hl'|[<-|[]]]; [now apply (inv_done _ _ _ HI)|].
    change (lk (set_cur i b) l) with (lk b l). congruence.
  - constructor; [exact Hni|apply HI].
  - intros j [Hj|Hj]; [|now apply (inv_open _ _ _ HI)]. cbn [set_cur cur] in Hj. subst j.
    split; [assumption|]. change (ins (set_cur i b) i) with (ins b i). rewrite He. apply openl_nil.
  - intros j k [E|Hj]; [now inversion E|now apply (inv_len _ _ _ HI)].
  - intros l' j Hk' Hl'.
    assert (Hl1 : ~ In l' D) by (intros H; apply Hl', in_or_app; now left).
    destruct (inv_pend _ _ _ HI l' j Hk' Hl1) as [He' Hn']. split; [exact He'|].
    intros [H|H]; [|contradiction]. cbn [set_cur cur] in H. subst j.
    apply Hl', in_or_app. right. left. exact (inv_inj _ _ _ HI _ _ _ Hk Hk').
  - intros j Hj. destruct (inv_class _ _ _ HI j Hj) as [H|[(l' & Hk' & Hl')|H]].
    + left. now right.
    + destruct (N.eq_dec l' l) as [->|Hne].
      * left. left. change (cur (set_cur i b)) with i. congruence.
      * right. left. exists l'. split; [assumption|]. intros H. apply in_app_or in H.
        destruct H as [H|[H|[]]]; [contradiction|congruence].
    + right. now right.
Qed.

Lemma Inv_init : Inv init_state [] [].
Proof.
  constructor; try discriminate.
  - intros l [].
  - constructor; [intros []|constructor].
  - intros i [<-|[]]. split; [reflexivity|apply openl_nil].
  - intros i k [].
  - intros i Hi. left. left. change (nb init_state) with 1 in Hi. cbn [init_state cur]. lia.
Qed.

Lemma inv_cur b D O : Inv b D O -> cur b < nb b.
Proof. intros HI. apply (inv_open _ _ _ HI). now left. Qed.

(* a waiting block gets its terminator where the stack said it would *)
Lemma close_spec i k x b D O :
  is_term x = true -> Inv b D ((i, k) :: O) ->
  Inv (emit_at i x b) D O /\ iat (emit_at i x b) (i, k) = Some x /\ curpos (emit_at i x b) = curpos b.
Proof.
  intros Hx HI. pose proof (inv_nodup _ _ _ HI) as Hnd.
  split; [now apply (Inv_close i k)|]. split.
  - rewrite <- (inv_len _ _ _ HI i k) by now left. apply iat_emit_at, (inv_open _ _ _ HI). right. now left.
  - unfold curpos. rewrite cur_emit_at, ins_emit_at_other; [reflexivity|].
    intros E. inversion Hnd as [|? ? Hn _]. apply Hn. now left.
Qed.

(* the insertion block gets its terminator, `br j`, and a fresh block takes over *)
Definition leave (j : N) (t : tag) (b : bstate) : bstate := emit_at (cur b) (IBr j) (enter t b).

Lemma Ext_leave j t b : Ext b (leave j t b).
Proof. exact (Ext_trans _ _ _ (Ext_enter t b) (Ext_emit_at _ _ _)). Qed.

Lemma leave_spec j t b D O :
  Inv b D O ->
  Inv (leave j t b) D O /\ iat (leave j t b) (curpos b) = Some (IBr j) /\ curpos (leave j t b) = (nb b, 0%nat).
Proof.
  intros HI. destruct (close_spec _ _ (IBr j) _ D O eq_refl (Inv_enter t b D O HI)) as (I & A & P).
  rewrite curpos_enter in P. exact (conj I (conj A P)).
Qed.

(* The state each arm of [lower_stmt] ends in, as a composition of enter / emit_at /
   find_or_append / set_cur.  [set_cur] is moved inward (it commutes with [emit_at] by
   computation), so that the new insertion block is entered before the blocks that waited get
   their terminators, and in [if2_end] the two `br after` change places ([emit_at_swap]), so that
   the waiting blocks are closed in the order of the stack, the one next to the insertion block
   first.  [loop_end] keeps the generator's order: moving its [emit] past the [append_block] needs
   cur b2 < nb b2 ([enter_emit_at]). *)
Definition goto_end (l : N) (b : bstate) : bstate :=
  let f := find_or_append l (enter Unreachable b) in emit_at (cur b) (IBr (fst f)) (snd f).
Definition label_end (l : N) (b : bstate) : bstate :=
  let f := find_or_append l b in emit_at (cur b) (IBr (fst f)) (set_cur (fst f) (snd f)).
Definition if_start (c : N) (b : bstate) : bstate := enter Then_ (emit (ICmp c) b).
Definition if1_end (c : N) (b b2 : bstate) : bstate :=
  emit_at (cur b) (ICondBr c (nb b) (nb b2)) (leave (nb b2) After b2).
Definition if2_end (c : N) (b b2 b4 : bstate) : bstate :=
  emit_at (cur b) (ICondBr c (nb b) (nb b2))
    (emit_at (cur b2) (IBr (nb b4)) (leave (nb b4) After b4)).
Definition loop_start (b : bstate) : bstate := leave (nb b) Looped b.
Definition loop_end (b b2 : bstate) : bstate := enter AfterLooped (emit (IBr (nb b)) b2).

Lemma lower_goto l b : lower_stmt (SGoto l) b = Some (goto_end l b).
Proof.
  change (lower_stmt (SGoto l) b) with
    (let '(u, b1) := append_block Unreachable b in
     let '(lb, b2) := find_or_append l b1 in
     Some (set_cur u (emit_at (cur b) (IBr lb) b2))).
  unfold goto_end, enter. rewrite append_block_eq, foa_set_cur. cbn [fst snd].
  now destruct (find_or_append l (apb Unreachable b)).
Qed.

Lemma lower_label l b : lower_stmt (SLabel l) b = Some (label_end l b).
Proof.
  change (lower_stmt (SLabel l) b) with
    (let '(lb, b1) := find_or_append l b in Some (set_cur lb (emit_at (cur b) (IBr lb) b1))).
  unfold label_end. now destruct (find_or_append l b).
Qed.

Lemma lower_if1 c t b :
  lower_stmt (SIf c t None) b =
  match lower_stmt t (if_start c b) with None => None | Some b2 => Some (if1_end c b b2) end.
Proof.
  change (lower_stmt (SIf c t None) b) with
    (match lower_stmt t (if_start c b) with
     | None => None
     | Some b2 =>
         Some (set_cur (nb b2) (emit_at (cur b) (ICondBr c (nb (emit (ICmp c) b)) (nb b2))
                                  (emit_at (cur b2) (IBr (nb b2)) (apb After b2))))
     end).
  now rewrite nb_emit.
Qed.

Lemma lower_if2 c t e b :
  lower_stmt (SIf c t (Some e)) b =
  match lower_stmt t (if_start c b) with
  | None => None
  | Some b2 =>
      match lower_stmt e (enter Else_ b2) with None => None | Some b4 => Some (if2_end c b b2 b4) end
  end.
Proof.
  change (lower_stmt (SIf c t (Some e)) b) with
    (match lower_stmt t (if_start c b) with
     | None => None
     | Some b2 =>
         match lower_stmt e (enter Else_ b2) with
         | None => None
         | Some b4 =>
             Some (set_cur (nb b4)
                     (emit_at (cur b) (ICondBr c (nb (emit (ICmp c) b)) (nb b2))
                        (emit_at (cur b4) (IBr (nb b4)) (emit_at (cur b2) (IBr (nb b4)) (apb After b4)))))
         end
     end).
  rewrite nb_emit. destruct (lower_stmt t _) as [b2|]; [|reflexivity].
  destruct (lower_stmt e _) as [b4|]; [|reflexivity]. now rewrite (emit_at_swap (cur b4)).
Qed.

Lemma lower_block ss b :
  lower_stmt (SBlock ss) b =
  if ends_in_loop ss then
    match lower_list (removelast ss) (loop_start b) with
    | None => None
    | Some b2 => Some (loop_end b b2)
    end
  else lower_list ss b.
Proof.
  change (lower_stmt (SBlock ss) b) with
    (if ends_in_loop ss then
       match lower_go ss (loop_start b) with None => None | Some b2 => Some (loop_end b b2) end
     else lower_go ss b).
  rewrite !lower_go_strip. unfold strip_loop. now destruct (ends_in_loop ss).
Qed.

Lemma lower_block_loop ss b :
  lower_stmt (SBlock (ss ++ [SLoop])) b =
  match lower_list ss (loop_start b) with None => None | Some b2 => Some (loop_end b b2) end.
Proof. now rewrite lower_block, ends_in_loop_app_loop, removelast_last. Qed.

(* [labels_list] is [flat_map labels_of] up to conversion, and likewise [gotos_list] *)
Lemma labels_block_loop ss : labels_of (SBlock (ss ++ [SLoop])) = labels_list ss.
Proof. rewrite labels_block. exact (eq_trans (flat_map_app labels_of ss [SLoop]) (app_nil_r _)). Qed.

Lemma gotos_block_loop ss : gotos_of (SBlock (ss ++ [SLoop])) = gotos_list ss.
Proof. rewrite gotos_block. exact (eq_trans (flat_map_app gotos_of ss [SLoop]) (app_nil_r _)). Qed.

Section LowerInd.
Variable Q : stmt -> bstate -> bstate -> Prop.
Variable QL : list stmt -> bstate -> bstate -> Prop.
Hypothesis Hact : forall a b, Q (SAct a) b (emit (IAct a) b).
Hypothesis Hgoto : forall l b, Q (SGoto l) b (goto_end l b).
Hypothesis Hlabel : forall l b, Q (SLabel l) b (label_end l b).
Hypothesis Hif1 : forall c t b b2,
  lower_stmt t (if_start c b) = Some b2 -> Q t (if_start c b) b2 -> Q (SIf c t None) b (if1_end c b b2).
Hypothesis Hif2 : forall c t e b b2 b4,
  lower_stmt t (if_start c b) = Some b2 -> lower_stmt e (enter Else_ b2) = Some b4 ->
  Q t (if_start c b) b2 -> Q e (enter Else_ b2) b4 -> Q (SIf c t (Some e)) b (if2_end c b b2 b4).
Hypothesis Hblock : forall ss b b', ends_in_loop ss = false -> QL ss b b' -> Q (SBlock ss) b b'.
Hypothesis Hloop : forall ss b b2,
  lower_list ss (loop_start b) = Some b2 -> QL ss (loop_start b) b2 ->
  Q (SBlock (ss ++ [SLoop])) b (loop_end b b2).
Hypothesis Hnil : forall b, QL [] b b.
Hypothesis Hcons : forall s r b b1 b',
  lower_list r b1 = Some b' -> Q s b b1 -> QL r b1 b' -> QL (s :: r) b b'.

Lemma lower_list_ind_gen ss :
  Forall (fun s => forall b b', lower_stmt s b = Some b' -> Q s b b') ss ->
  forall b b', lower_list ss b = Some b' -> QL ss b b'.
Proof.
  induction 1 as [|s r Hs _ IH]; intros b b' H.
  - inversion H; subst. apply Hnil.
  - rewrite lower_list_cons in H. destruct (lower_stmt s b) as [b1|] eqn:E; [|discriminate]. eauto.
Qed.

Lemma lower_ind : forall s b b', lower_stmt s b = Some b' -> Q s b b'.
Proof.
  induction s as [a|l|l|c t e IHt IHe|ss IHss|] using stmt_ind2; intros b b' H.
  - inversion H; subst. apply Hact.
  - rewrite lower_goto in H. inversion H; subst. apply Hgoto.
  - rewrite lower_label in H. inversion H; subst. apply Hlabel.
  - destruct e as [e|]; [rewrite lower_if2 in H|rewrite lower_if1 in H];
      (destruct (lower_stmt t _) as [b2|] eqn:E; [|discriminate]).
    + destruct (lower_stmt e _) as [b4|] eqn:E'; [|discriminate]. inversion H; subst. auto.
    + inversion H; subst. auto.
  - destruct (ends_in_loop ss) eqn:El.
    + rewrite (ends_in_loop_snoc ss El) in *. apply Forall_app in IHss. destruct IHss as [IHss _].
      rewrite lower_block_loop in H.
      destruct (lower_list _ _) as [b2|] eqn:E; [|discriminate]. inversion H; subst.
      apply Hloop; [assumption|now apply lower_list_ind_gen].
    + rewrite lower_block, El in H. apply Hblock; [assumption|]. now apply lower_list_ind_gen.
  - discriminate.
Qed.

Lemma lower_list_ind ss b b' : lower_list ss b = Some b' -> QL ss b b'.
Proof. exact (lower_list_ind_gen ss (Forall_all _ lower_ind ss) b b'). Qed.
End LowerInd.

(* What holds of every lowering, unique labels or not.  [Shape b]: the label map and the tags say
   the same, "entry" is block 0 and no other, and every branch target is a block with a targetable
   tag.  So no branch ever targets "entry", an "unreachable-after-goto" block or an
   "after-looped-block" ([lower_branch_targets]); blocks of the latter two kinds are not block 0
   either, so no run of the CFG enters them. *)
Definition targets (x : instr) : list N :=
  match x with IBr j => [j] | ICondBr _ j1 j2 => [j1; j2] | _ => [] end.

Definition tag_targetable (t : tag) : bool :=
  match t with Entry | Unreachable | AfterLooped => false | _ => true end.

Definition tgt_ok (b : bstate) (j : N) : Prop :=
  exists t, tg b j = Some t /\ tag_targetable t = true.

Record Shape (b : bstate) : Prop := {
  sh_lk : forall l i, lk b l = Some i <-> tg b i = Some (Lbl l);
  sh_entry : forall i, tg b i = Some Entry <-> i = 0;
  sh_tgt : forall i x j, In x (ins b i) -> In j (targets x) -> tgt_ok b j
}.

Lemma tgt_ok_ext b b' j : Ext b b' -> tgt_ok b j -> tgt_ok b' j.
Proof. intros K (t & H1 & H2). exists t. split; [exact (ext_tg _ _ K _ _ H1)|assumption]. Qed.

Lemma tgt_ok_emit_at i x b j : tgt_ok b j -> tgt_ok (emit_at i x b) j.
Proof. intros (t & H1 & H2). exists t. now rewrite tg_emit_at. Qed.

Lemma Shape_emit_at i x b :
  Shape b -> (forall j, In j (targets x) -> tgt_ok b j) -> Shape (emit_at i x b).
Proof.
  intros [H1 H2 H3] Hx. constructor.
  - intros l j. rewrite tg_emit_at. apply H1.
  - intros j. rewrite tg_emit_at. apply H2.
  - intros i0 x0 j Hin Hj. apply tgt_ok_emit_at. rewrite ins_emit_at in Hin.
    destruct ((i0 =? i) && (i <? nb b)); [|eapply H3; eauto].
    apply in_app_or in Hin. destruct Hin as [Hin|[<-|[]]]; [eapply H3; eauto|now apply Hx].
Qed.

Lemma Shape_set_cur j b : Shape b -> Shape (set_cur j b).
Proof. intros [H1 H2 H3]. constructor; assumption. Qed.

(* the tags [enter] is used with: neither "entry" nor a label's block *)
Definition plain_tag (t : tag) : bool := match t with Entry | Lbl _ => false | _ => true end.

Lemma Shape_enter t b : plain_tag t = true -> Shape b -> Shape (enter t b).
Proof.
  intros Ht [H1 H2 H3]. constructor.
  - intros l i. rewrite tg_enter. destruct (N.eqb_spec i (nb b)) as [->|]; [|apply H1].
    split; intros H; [apply H1, tg_some in H; lia|inversion H; subst; discriminate].
  - intros i. rewrite tg_enter. destruct (N.eqb_spec i (nb b)) as [->|]; [|apply H2].
    split; intros H; [inversion H; subst; discriminate|].
    assert (E : tg b 0 = Some Entry) by now apply H2. apply tg_some in E. lia.
  - intros i x j Hin Hj. rewrite ins_enter in Hin. apply (tgt_ok_ext b); [apply Ext_enter|eauto].
Qed.

Lemma Shape_foa l b : Shape b -> Shape (snd (find_or_append l b)).
Proof.
  intros HS. pose proof (Ext_foa l b) as M.
  rewrite foa_eq in *. destruct (lk b l) as [i|] eqn:Hk; cbn [snd] in *; [assumption|].
  destruct HS as [H1 H2 H3].
  assert (Hlb : forall l' i, tg b i = Some (Lbl l') -> l' <> l).
  { intros l' i H ->. apply H1 in H. congruence. }
  constructor.
  - intros l' i. rewrite lk_bind, tg_bind, tg_apb, lk_apb.
    destruct (N.eqb_spec l' l) as [->|Hl], (N.eqb_spec i (nb b)) as [->|Hi].
    + tauto.
    + split; intros H; [inversion H; congruence|now apply Hlb in H].
    + split; intros H; [apply H1, tg_some in H; lia|inversion H; congruence].
    + apply H1.
  - intros i. rewrite tg_bind, tg_apb. destruct (N.eqb_spec i (nb b)) as [->|]; [|apply H2].
    split; [discriminate|]. intros E1. assert (E0 : tg b 0 = Some Entry) by now apply H2.
    apply tg_some in E0. lia.
  - intros i x j Hin Hj. rewrite ins_bind, ins_apb in Hin. apply (tgt_ok_ext b); eauto.
Qed.

Lemma Shape_init : Shape init_state.
Proof.
  assert (Htg : forall i, tg init_state i = if i =? 0 then Some Entry else None).
  { intros i. unfold tg, tagl, get_block. cbn [init_state blocks].
    destruct (N.eqb_spec i 0) as [->|Hn]; [reflexivity|].
    destruct (N.to_nat i) eqn:E; [lia|]. cbn [nth_error]. now destruct n. }
  constructor.
  - intros l i. rewrite Htg. split; [discriminate|destruct (i =? 0); discriminate].
  - intros i. rewrite Htg. destruct (N.eqb_spec i 0); split; congruence.
  - intros i x j Hin. unfold ins, insl, get_block in Hin. cbn [init_state blocks] in Hin.
    destruct (N.to_nat i) as [|[|n]]; destruct Hin.
Qed.

Definition sh_prop (b b' : bstate) : Prop := Ext b b' /\ (Shape b -> Shape b').

Lemma sh_seq a b c : sh_prop a b -> sh_prop b c -> sh_prop a c.
Proof. intros [K1 T1] [K2 T2]. split; [eapply Ext_trans; eauto|auto]. Qed.

Lemma sh_emit_at i x b : (forall j, In j (targets x) -> tgt_ok b j) -> sh_prop b (emit_at i x b).
Proof. intros Hx. split; [apply Ext_emit_at|intros T; now apply Shape_emit_at]. Qed.

Lemma sh_br i j b : tgt_ok b j -> sh_prop b (emit_at i (IBr j) b).
Proof. intros H. apply sh_emit_at. now intros j' [<-|[]]. Qed.

Lemma sh_cbr i c j1 j2 b : tgt_ok b j1 -> tgt_ok b j2 -> sh_prop b (emit_at i (ICondBr c j1 j2) b).
Proof. intros H1 H2. apply sh_emit_at. now intros j' [<-|[<-|[]]]. Qed.

Lemma sh_set_cur j b : sh_prop b (set_cur j b).
Proof. split; [apply Ext_set_cur|apply Shape_set_cur]. Qed.

Lemma sh_enter t b : plain_tag t = true -> sh_prop b (enter t b).
Proof. intros Ht. split; [apply Ext_enter|now apply Shape_enter]. Qed.

Lemma tgt_ok_enter t b : tag_targetable t = true -> tgt_ok (enter t b) (nb b).
Proof. intros H. exists t. now rewrite tg_enter, N.eqb_refl. Qed.

Lemma sh_leave t b :
  plain_tag t = true -> tag_targetable t = true -> sh_prop b (leave (nb b) t b).
Proof. intros Hp H. apply (sh_seq _ _ _ (sh_enter t b Hp)), sh_br. now apply tgt_ok_enter. Qed.

Lemma sh_if_start c b : sh_prop b (if_start c b).
Proof.
  apply (sh_seq _ (emit (ICmp c) b)); [apply (sh_emit_at (cur b) (ICmp c)); intros j []|now apply sh_enter].
Qed.

Lemma tgt_ok_if_start c b : tgt_ok (if_start c b) (nb b).
Proof. unfold if_start. rewrite <- (nb_emit (ICmp c) b). now apply tgt_ok_enter. Qed.

Lemma sh_foa_br l i b :
  sh_prop b (emit_at i (IBr (fst (find_or_append l b))) (snd (find_or_append l b))).
Proof.
  split; [exact (Ext_trans _ _ _ (Ext_foa l b) (Ext_emit_at _ _ _))|].
  intros T. pose proof (Shape_foa l b T) as T1. apply Shape_emit_at; [assumption|].
  intros j [<-|[]]. exists (Lbl l). split; [apply (sh_lk _ T1), lk_foa|reflexivity].
Qed.

Lemma lk_foa_inv l0 b l i :
  lk (snd (find_or_append l0 b)) l = Some i -> lk b l = Some i \/ l = l0.
Proof.
  rewrite foa_eq. destruct (lk b l0); cbn [snd]; [now left|].
  rewrite lk_bind, lk_apb. destruct (N.eqb_spec l l0); auto.
Qed.

Definition dom_prop (ls gs : list N) (b b' : bstate) : Prop :=
  forall l i, lk b' l = Some i -> lk b l = Some i \/ In l ls \/ In l gs.

Lemma dom_seq ls1 gs1 ls2 gs2 b b1 b2 :
  dom_prop ls1 gs1 b b1 -> dom_prop ls2 gs2 b1 b2 -> dom_prop (ls1 ++ ls2) (gs1 ++ gs2) b b2.
Proof.
  intros H1 H2 l i Hk. rewrite !in_app_iff. apply H2 in Hk. destruct Hk as [Hk|Hk]; [|tauto].
  apply H1 in Hk. tauto.
Qed.

(* each arm as the sequence of its builder operations; a target made earlier is still a legal
   target where the branch to it is emitted ([tgt_ok_ext]) *)
Lemma lower_list_low ss b b' :
  lower_list ss b = Some b' -> sh_prop b b' /\ dom_prop (labels_list ss) (gotos_list ss) b b'.
Proof.
  apply (lower_list_ind (fun s b b' => sh_prop b b' /\ dom_prop (labels_of s) (gotos_of s) b b')
           (fun ss b b' => sh_prop b b' /\ dom_prop (labels_list ss) (gotos_list ss) b b')).
  - intros a b0. split; [apply sh_emit_at; intros j []|intros l i H; now left].
  - intros l0 b0. split; [exact (sh_seq _ _ _ (sh_enter Unreachable b0 eq_refl) (sh_foa_br l0 _ _))|].
    intros l i H. apply lk_foa_inv in H. destruct H as [H| ->]; [now left|right; right; now left].
  - intros l0 b0. split; [exact (sh_seq _ _ _ (sh_foa_br l0 _ b0) (sh_set_cur _ _))|].
    intros l i H. apply lk_foa_inv in H. destruct H as [H| ->]; [now left|right; left; now left].
  - intros c t b0 b2 _ [IH IHd]. split; [|cbn [labels_of gotos_of]; rewrite !app_nil_r; exact IHd].
    pose proof (sh_seq _ _ _ IH (sh_leave After b2 eq_refl eq_refl)) as K.
    apply (sh_seq _ _ _ (sh_if_start c b0)), (sh_seq _ _ _ K), sh_cbr.
    + apply (tgt_ok_ext _ _ _ (proj1 K)), tgt_ok_if_start.
    + apply tgt_ok_emit_at. now apply tgt_ok_enter.
  - intros c t e b0 b2 b4 _ _ [IHt IHtd] [IHe IHed]. split; [|exact (dom_seq _ _ _ _ _ _ _ IHtd IHed)].
    pose proof (sh_seq _ _ _ IHe (sh_leave After b4 eq_refl eq_refl)) as K4.
    pose proof (sh_seq _ _ _ IHt (sh_seq _ _ _ (sh_enter Else_ b2 eq_refl) K4)) as K2.
    assert (Haf : tgt_ok (leave (nb b4) After b4) (nb b4)) by now apply tgt_ok_emit_at, tgt_ok_enter.
    apply (sh_seq _ _ _ (sh_if_start c b0)), (sh_seq _ _ _ K2), (sh_seq _ _ _ (sh_br (cur b2) _ _ Haf)), sh_cbr;
      apply tgt_ok_emit_at.
    + apply (tgt_ok_ext _ _ _ (proj1 K2)), tgt_ok_if_start.
    + apply (tgt_ok_ext _ _ _ (proj1 K4)). now apply tgt_ok_enter.
  - intros ss0 b0 b0' _. now rewrite labels_block, gotos_block.
  - intros ss0 b0 b2 _ [IH IHd]. split; [|now rewrite labels_block_loop, gotos_block_loop].
    apply (sh_seq _ _ _ (sh_leave Looped b0 eq_refl eq_refl)), (sh_seq _ _ _ IH), (sh_seq _ (emit (IBr (nb b0)) b2));
      [|now apply sh_enter].
    apply sh_br, (tgt_ok_ext _ _ _ (proj1 IH)), tgt_ok_emit_at. now apply tgt_ok_enter.
  - intros b0. split; [split; [apply Ext_refl|auto]|intros l i H; now left].
  - intros s r b0 b1 b0' _ [Hs Hsd] [Hr Hrd]. split; [exact (sh_seq _ _ _ Hs Hr)|exact (dom_seq _ _ _ _ _ _ _ Hsd Hrd)].
Qed.

Lemma lower_list_ext ss b b' : lower_list ss b = Some b' -> Ext b b'.
Proof. intros H. exact (proj1 (proj1 (lower_list_low ss b b' H))). Qed.

Lemma lower_ext s b b' : lower_stmt s b = Some b' -> Ext b b'.
Proof. intros H. apply (lower_list_ext [s]). cbn [lower_list]. now rewrite H. Qed.

Definition step_prop (s : stmt) (b b' : bstate) : Prop :=
  forall D O, Inv b D O -> NoDup (D ++ labels_of s) ->
    Inv b' (D ++ labels_of s) O /\ forall g, Ext b' g -> code g s (curpos b) (curpos b').

Definition step_list (ss : list stmt) (b b' : bstate) : Prop :=
  forall D O, Inv b D O -> NoDup (D ++ labels_list ss) ->
    Inv b' (D ++ labels_list ss) O /\ forall g, Ext b' g -> code_list g ss (curpos b) (curpos b').

Lemma step_act a b : step_prop (SAct a) b (emit (IAct a) b).
Proof.
  intros D O HI _. pose proof (inv_cur _ _ _ HI) as Hc. cbn [labels_of]. rewrite app_nil_r.
  split; [now apply Inv_emit|]. intros g Hg.
  split; [apply (ext_iat _ _ Hg); now apply iat_emit_at|now apply curpos_emit].
Qed.

Lemma step_goto l b : step_prop (SGoto l) b (goto_end l b).
Proof.
  intros D O HI _. cbn [labels_of]. rewrite app_nil_r.
  unfold goto_end. set (f := find_or_append l (enter Unreachable b)).
  assert (I1 : Inv (snd f) D (curpos b :: O)) by now apply Inv_foa, Inv_enter.
  destruct (close_spec _ _ (IBr (fst f)) _ _ _ eq_refl I1) as (I & A & _).
  split; [exact I|]. intros g Hg. exists (fst f).
  split; [exact (ext_iat _ _ Hg _ _ A)|exact (ext_lk _ _ Hg _ _ (lk_foa l _))].
Qed.

Lemma step_label l b : step_prop (SLabel l) b (label_end l b).
Proof.
  intros D O HI Hnd. cbn [labels_of] in *.
  pose proof (NoDup_remove_2 _ _ _ Hnd) as Hl. rewrite app_nil_r in Hl.
  unfold label_end. set (f := find_or_append l b). set (b1 := set_cur (fst f) (snd f)).
  assert (I1 : Inv (snd f) D O) by now apply Inv_foa.
  assert (Hk : lk (snd f) l = Some (fst f)) by apply lk_foa.
  destruct (inv_pend _ _ _ I1 _ _ Hk Hl) as [He _].
  assert (I2 : Inv b1 (D ++ [l]) (curpos b :: O))
    by (rewrite <- (curpos_foa l b); exact (Inv_switch _ _ _ _ _ I1 Hk Hl)).
  destruct (close_spec _ _ (IBr (fst f)) _ _ _ eq_refl I2) as (I & A & P).
  split; [exact I|]. intros g Hg. exists (fst f). split; [exact (ext_iat _ _ Hg _ _ A)|].
  split; [exact (ext_lk _ _ Hg _ _ Hk)|].
  rewrite P. unfold curpos, b1. cbn [set_cur cur]. now rewrite ins_set_cur, He.
Qed.

(* what the two kinds of `if` share: the condition and the then-branch *)
Lemma if_then c t b b2 D O :
  lower_stmt t (if_start c b) = Some b2 -> step_prop t (if_start c b) b2 ->
  Inv b D O -> NoDup (D ++ labels_of t) ->
  Inv b2 (D ++ labels_of t) ((cur b, S (length (ins b (cur b)))) :: O) /\
  forall g, Ext b2 g -> iat g (curpos b) = Some (ICmp c) /\ code g t (nb b, 0%nat) (curpos b2).
Proof.
  intros Ht IH HI Hnd. pose proof (inv_cur _ _ _ HI) as Hc.
  assert (I0 : Inv (emit (ICmp c) b) D O) by now apply Inv_emit.
  apply (Inv_enter Then_) in I0. rewrite curpos_emit in I0 by assumption.
  destruct (IH D _ I0 Hnd) as (I2 & C2).
  unfold if_start in *. rewrite curpos_enter, nb_emit in C2.
  split; [assumption|]. intros g Hg. split; [|now apply C2].
  apply (ext_iat _ _ (Ext_trans _ _ _ (Ext_enter Then_ _) (Ext_trans _ _ _ (lower_ext _ _ _ Ht) Hg))).
  now apply iat_emit_at.
Qed.

Lemma step_if1 c t b b2 :
  lower_stmt t (if_start c b) = Some b2 -> step_prop t (if_start c b) b2 ->
  step_prop (SIf c t None) b (if1_end c b b2).
Proof.
  intros Ht IH D O HI Hnd. cbn [labels_of] in *. rewrite app_nil_r in *.
  destruct (if_then _ _ _ _ _ _ Ht IH HI Hnd) as (I2 & C2).
  unfold if1_end. set (x := ICondBr c (nb b) (nb b2)).
  destruct (leave_spec (nb b2) After b2 _ _ I2) as (I4 & A4 & P4).
  set (b4 := leave (nb b2) After b2) in *.
  destruct (close_spec _ _ x b4 _ O eq_refl I4) as (I5 & X & P5).
  split; [exact I5|]. intros g Hg. pose proof (Ext_trans _ _ _ (Ext_emit_at (cur b) x b4) Hg) as Hg4.
  destruct (C2 g (Ext_trans _ _ _ (Ext_leave _ After b2) Hg4)) as [Xc Ct].
  exists (nb b), (nb b2), (nb b2), (curpos b2). unfold curpos at 2. cbn [fst snd].
  split; [exact Xc|]. split; [exact (ext_iat _ _ Hg _ _ X)|]. split; [exact Ct|].
  split; [exact (ext_iat _ _ Hg4 _ _ A4)|]. split; [|reflexivity]. rewrite P5. exact P4.
Qed.

Lemma step_if2 c t e b b2 b4 :
  lower_stmt t (if_start c b) = Some b2 -> lower_stmt e (enter Else_ b2) = Some b4 ->
  step_prop t (if_start c b) b2 -> step_prop e (enter Else_ b2) b4 ->
  step_prop (SIf c t (Some e)) b (if2_end c b b2 b4).
Proof.
  intros Ht He IHt IHe D O HI Hnd. cbn [labels_of] in *. rewrite app_assoc in *.
  destruct (if_then _ _ _ _ _ _ Ht IHt HI (proj1 (NoDup_app_inv _ _ Hnd))) as (I2 & C2).
  set (D2 := D ++ labels_of t) in *.
  destruct (IHe D2 _ (Inv_enter Else_ _ _ _ I2) Hnd) as (I4 & C4).
  rewrite curpos_enter in C4. set (D4 := D2 ++ labels_of e) in *.
  unfold if2_end. set (x := ICondBr c (nb b) (nb b2)).
  destruct (leave_spec (nb b4) After b4 _ _ I4) as (I6 & A6 & P6).
  set (b6 := leave (nb b4) After b4) in *.
  destruct (close_spec _ _ (IBr (nb b4)) b6 D4 _ eq_refl I6) as (I7 & X7 & P7).
  set (b7 := emit_at (cur b2) (IBr (nb b4)) b6) in *.
  destruct (close_spec _ _ x b7 D4 O eq_refl I7) as (I8 & X8 & P8).
  split; [exact I8|]. intros g Hg. pose proof (Ext_trans _ _ _ (Ext_emit_at (cur b) x b7) Hg) as Hg7.
  pose proof (Ext_trans _ _ _ (Ext_emit_at (cur b2) (IBr (nb b4)) b6) Hg7) as Hg6.
  pose proof (Ext_trans _ _ _ (Ext_leave _ After b4) Hg6) as Hg4.
  destruct (C2 g (Ext_trans _ _ _ (Ext_enter Else_ b2) (Ext_trans _ _ _ (lower_ext _ _ _ He) Hg4))) as [Xc Ct].
  exists (nb b), (nb b2), (nb b4), (curpos b2). unfold curpos at 2. cbn [fst snd].
  split; [exact Xc|]. split; [exact (ext_iat _ _ Hg _ _ X8)|]. split; [exact Ct|].
  split; [exact (ext_iat _ _ Hg7 _ _ X7)|]. split; [rewrite P8, P7; exact P6|].
  exists (curpos b4). split; [exact (C4 g Hg4)|exact (ext_iat _ _ Hg6 _ _ A6)].
Qed.

Lemma code_list_app_loop g ss p q : code_list g ss p q -> code_list g (ss ++ [SLoop]) p q.
Proof.
  revert p. induction ss as [|s r IH]; intros p H.
  - exists q. now split.
  - destruct H as (m & H1 & H2). exists m. split; [assumption|now apply IH].
Qed.

Lemma step_loop ss b b2 :
  lower_list ss (loop_start b) = Some b2 -> step_list ss (loop_start b) b2 ->
  step_prop (SBlock (ss ++ [SLoop])) b (loop_end b b2).
Proof.
  intros Hss IH D O HI Hnd. rewrite labels_block_loop in *.
  destruct (leave_spec (nb b) Looped b D O HI) as (Is & As & Ps).
  fold (loop_start b) in *.
  destruct (IH D O Is Hnd) as (I2 & C2). rewrite Ps in C2.
  unfold loop_end, emit. rewrite enter_emit_at by (eapply inv_cur; eauto).
  destruct (leave_spec (nb b) AfterLooped b2 (D ++ labels_list ss) O I2) as (I3 & A3 & _).
  split; [exact I3|]. intros g Hg. pose proof (Ext_trans _ _ _ (Ext_leave _ AfterLooped b2) Hg) as Hg2.
  rewrite code_block, ends_in_loop_app_loop. exists (nb b), (curpos b2).
  split; [|split; [|exact (ext_iat _ _ Hg _ _ A3)]].
  - exact (ext_iat _ _ (Ext_trans _ _ _ (lower_list_ext _ _ _ Hss) Hg2) _ _ As).
  - apply code_list_app_loop, C2, Hg2.
Qed.

Lemma step_cons s r b b1 b' :
  lower_list r b1 = Some b' -> step_prop s b b1 -> step_list r b1 b' -> step_list (s :: r) b b'.
Proof.
  intros Hr' Hs Hr D O HI Hnd. cbn [labels_list] in *. rewrite app_assoc in *.
  destruct (Hs D O HI (proj1 (NoDup_app_inv _ _ Hnd))) as (I1 & C1).
  destruct (Hr _ O I1 Hnd) as (I2 & C2).
  split; [assumption|]. intros g Hg. exists (curpos b1).
  split; [exact (C1 g (Ext_trans _ _ _ (lower_list_ext _ _ _ Hr') Hg))|exact (C2 g Hg)].
Qed.

Lemma step_block ss b b' : ends_in_loop ss = false -> step_list ss b b' -> step_prop (SBlock ss) b b'.
Proof.
  intros El IH D O HI Hnd. rewrite labels_block in *.
  destruct (IH D O HI Hnd) as (I & C). split; [assumption|].
  intros g Hg. rewrite code_block, El. exact (C g Hg).
Qed.

Lemma step_nil b : step_list [] b b.
Proof. intros D O HI _. cbn [labels_list]. rewrite app_nil_r. split; [assumption|reflexivity]. Qed.

Lemma lower_list_step ss b b' : lower_list ss b = Some b' -> step_list ss b b'.
Proof.
  exact (lower_list_ind step_prop step_list step_act step_goto step_label step_if1 step_if2
           step_block step_loop step_nil step_cons ss b b').
Qed.

(* The state after the whole body, before the `ret`: what the three theorems about [lower_body] start
   from. *)
Record finished (body : list stmt) (b : bstate) : Prop := {
  fin_shape : Shape (emit IRet b);
  fin_dom : forall l i, lk b l = Some i -> In l (labels_list body) \/ In l (gotos_list body);
  fin_inv : NoDup (labels_list body) ->
    Inv b (labels_list body) [] /\ code_list (emit IRet b) body (0, O) (curpos b) /\
    iat (emit IRet b) (curpos b) = Some IRet
}.

Lemma lower_body_finished body g :
  lower_body body = Some g -> exists b, g = blocks (emit IRet b) /\ finished body b.
Proof.
  rewrite lower_body_eq. destruct (lower_list body init_state) as [b|] eqn:E; [|discriminate].
  intros Hlow. inversion Hlow. exists b. split; [reflexivity|].
  destruct (lower_list_low _ _ _ E) as [[_ T] Hd]. constructor.
  - apply Shape_emit_at; [exact (T Shape_init)|intros j []].
  - intros l i H. destruct (Hd l i H) as [H'|H']; [discriminate|exact H'].
  - intros Hnd. destruct (lower_list_step _ _ _ E [] [] Inv_init Hnd) as (I & C). cbn [app] in I.
    split; [exact I|]. split; [exact (C _ (Ext_emit_at _ _ _))|].
    apply iat_emit_at, (inv_cur _ _ _ I).
Qed.

Theorem lower_branch_targets body g :
  lower_body body = Some g ->
  forall i blk x j, get_block g i = Some blk -> In x (binstrs blk) -> In j (targets x) ->
  exists t, tagl g j = Some t /\ tag_targetable t = true.
Proof.
  intros Hlow i blk x j Hg Hin Hj. destruct (lower_body_finished _ _ Hlow) as (b & -> & [T _ _]).
  apply (sh_tgt _ T i x j); [|assumption]. unfold ins, insl. now rewrite Hg.
Qed.

Lemma loops_ok_block ss : loops_ok (SBlock ss) = loops_ok_list (strip_loop ss).
Proof.
  cbn [loops_ok]. induction ss as [|s r IH]; [reflexivity|]. rewrite strip_loop_cons, IH.
  now destruct (is_loop s && is_nil r).
Qed.

Lemma loops_ok_list_noloop ss : loops_ok_list ss = true -> ends_in_loop ss = false.
Proof.
  induction ss as [|s r IH]; [reflexivity|]. cbn [loops_ok_list]. rewrite ends_in_loop_cons.
  intros H. apply andb_true_iff in H. destruct H as [Hs Hr]. destruct r; [now destruct s|auto].
Qed.

(* lowering succeeds exactly where every `loop` is in place *)
Lemma lower_list_ok_gen ss :
  Forall (fun s => forall b, (if lower_stmt s b then true else false) = loops_ok s) ss ->
  forall b, (if lower_list ss b then true else false) = loops_ok_list ss.
Proof.
  induction 1 as [|s r Hs _ IH]; intros b; [reflexivity|].
  rewrite lower_list_cons. cbn [loops_ok_list]. rewrite <- (Hs b).
  destruct (lower_stmt s b) as [b1|]; [apply IH|reflexivity].
Qed.

Lemma lower_ok : forall s b, (if lower_stmt s b then true else false) = loops_ok s.
Proof.
  induction s as [a|l|l|c t e IHt IHe|ss IHss|] using stmt_ind2; intros b.
  - reflexivity.
  - now rewrite lower_goto.
  - now rewrite lower_label.
  - cbn [loops_ok]. rewrite <- (IHt (if_start c b)). destruct e as [e|].
    + rewrite lower_if2. destruct (lower_stmt t _) as [b2|]; [|reflexivity].
      rewrite <- (IHe (enter Else_ b2)). now destruct (lower_stmt e _).
    + rewrite lower_if1. now destruct (lower_stmt t _).
  - rewrite loops_ok_block, lower_block. unfold strip_loop. destruct (ends_in_loop ss) eqn:El.
    + rewrite (ends_in_loop_snoc ss El) in IHss. apply Forall_app in IHss.
      rewrite <- (lower_list_ok_gen _ (proj1 IHss) (loop_start b)).
      now destruct (lower_list (removelast ss) _).
    + now apply lower_list_ok_gen.
  - reflexivity.
Qed.

Lemma lower_list_ok ss b : (if lower_list ss b then true else false) = loops_ok_list ss.
Proof. exact (lower_list_ok_gen ss (Forall_all _ lower_ok ss) b). Qed.

Theorem lower_body_panics_iff body : lower_body body = None <-> loops_ok_list body = false.
Proof.
  rewrite lower_body_eq, <- (lower_list_ok body init_state).
  now destruct (lower_list body init_state).
Qed.

Definition closedl (n : N) (l : list instr) : Prop :=
  exists body t, l = body ++ [t] /\ openl body /\ is_term t = true /\ target_ok n t = true.

(* [closedl] of the finished graph: the terminator comes from [Inv], that its targets exist from [Shape] *)
Lemma closedl_of n l :
  terminated l -> (forall x j, In x l -> In j (targets x) -> j < n) -> closedl n l.
Proof.
  intros (body & t & -> & Ho & Ht) H. exists body, t. repeat split; auto.
  assert (Hj : forall j, In j (targets t) -> j < n).
  { intros j. apply H, in_or_app. right. now left. }
  destruct t; cbn [target_ok targets] in *; try reflexivity.
  - apply N.ltb_lt, Hj. now left.
  - apply andb_true_iff. split; apply N.ltb_lt, Hj; [now left|right; now left].
Qed.

Record cfg_wf (labels : list N) (g : cfg) : Prop := {
  (* block 0 is the entry block and it is the only one of that name *)
  wf_entry : forall i, tagl g i = Some Entry <-> i = 0;
  (* every block: non-terminators, then exactly one terminator, whose targets exist *)
  wf_closed : forall i blk, get_block g i = Some blk -> closedl (next_id g) (binstrs blk);
  (* exactly one block per label *)
  wf_label : forall l, In l labels ->
             exists i, tagl g i = Some (Lbl l) /\ forall j, tagl g j = Some (Lbl l) -> j = i;
  (* and no other labelled blocks *)
  wf_label_only : forall i l, tagl g i = Some (Lbl l) -> In l labels
}.

Theorem lower_cfg_wf body g :
  lower_body body = Some g ->
  NoDup (labels_list body) ->
  incl (gotos_list body) (labels_list body) ->
  cfg_wf (labels_list body) g.
Proof.
  intros Hlow Hnd Hincl. destruct (lower_body_finished _ _ Hlow) as (b & -> & [T Hd HI]).
  destruct (HI Hnd) as (I & _ & _). pose proof (inv_cur _ _ _ I) as Hc. set (bf := emit IRet b) in *.
  assert (Hlbl : forall i l, lk b l = Some i -> In l (labels_list body)).
  { intros i l H. destruct (Hd l i H) as [H'|H']; [assumption|now apply Hincl]. }
  constructor.
  - exact (sh_entry _ T).
  - intros i blk Hg. change (next_id (blocks bf)) with (nb bf).
    assert (Hb : binstrs blk = ins bf i) by (unfold ins, insl; now rewrite Hg).
    rewrite Hb. apply closedl_of.
    + assert (Hi : i < nb b).
      { destruct (N.ltb_spec i (nb b)); [assumption|]. rewrite get_block_none in Hg; [discriminate|].
        change (nb bf <= i). unfold bf. now rewrite nb_emit. }
      unfold bf, emit. destruct (inv_class _ _ _ I i Hi) as [[<-|[]]|[(l & Hk & Hl)|Hcl]].
      * rewrite ins_emit_at_same by assumption. exists (ins b (cur b)), IRet.
        repeat split. apply (inv_open _ _ _ I). now left.
      * exfalso. eapply Hl, Hlbl; eauto.
      * rewrite ins_emit_at_other; [assumption|]. intros ->.
        eapply terminated_not_open; [exact Hcl|]. apply (inv_open _ _ _ I). now left.
    + intros x j Hx Hj. destruct (sh_tgt _ T i x j Hx Hj) as (t & Ht & _). now apply tg_some in Ht.
  - intros l Hl. pose proof (inv_done _ _ _ I l Hl) as Hb.
    destruct (lk b l) as [i|] eqn:Hk; [|congruence]. exists i.
    split; [now apply (sh_lk _ T)|]. intros j Hj. apply (sh_lk _ T) in Hj.
    change (lk bf l) with (lk b l) in Hj. congruence.
  - intros i l Ht. apply (sh_lk _ T) in Ht. eapply Hlbl; eauto.
Qed.

Lemma instrs_wfb_closed n l : closedl n l -> instrs_wfb n l = true.
Proof.
  intros (body & t & -> & Ho & Ht & Hk). induction body as [|x r IH].
  - cbn. now rewrite Ht, Hk.
  - inversion Ho as [|? ? Hx Hr]; subst. specialize (IH Hr). cbn [app].
    change (instrs_wfb n (x :: (r ++ [t]))) with
      (match r ++ [t] with
       | [] => is_term x && target_ok n x
       | _ => negb (is_term x) && instrs_wfb n (r ++ [t])
       end).
    destruct (r ++ [t]) eqn:E; [destruct r; discriminate|].
    unfold nonterm in Hx. rewrite Hx. exact IH.
Qed.

Lemma tag_eqb_eq a b : tag_eqb a b = true <-> a = b.
Proof.
  destruct a, b; cbn; split; try congruence; try reflexivity.
  - intros H. apply N.eqb_eq in H. now subst.
  - intros H. inversion H. apply N.eqb_refl.
Qed.

(* the executable [cfg_wfb] accepts every [cfg_wf] graph.  Only this direction: [cfg_wfb] tests the
   entry and the terminator clause, not the two clauses about labels *)
Lemma cfg_wf_wfb labels g : cfg_wf labels g -> cfg_wfb g = true.
Proof.
  intros [He Hc _ _]. unfold cfg_wfb.
  assert (H0 : tagl g 0 = Some Entry) by now apply He.
  destruct g as [|e r]; [discriminate|].
  assert (Hte : btag e = Entry) by (cbn in H0; congruence).
  apply andb_true_iff. split; [apply andb_true_iff; split|].
  - apply forallb_forall. intros blk Hin. apply In_nth_error in Hin. destruct Hin as [n Hn].
    apply instrs_wfb_closed. apply (Hc (N.of_nat n)). unfold get_block. now rewrite Nat2N.id.
  - apply tag_eqb_eq. exact Hte.
  - unfold count_tag. cbn [filter]. rewrite (proj2 (tag_eqb_eq _ _) Hte).
    rewrite filter_none; [reflexivity|]. intros x Hx1.
    destruct (tag_eqb (btag x) Entry) eqn:Hx2; [exfalso|reflexivity]. apply tag_eqb_eq in Hx2.
    apply In_nth_error in Hx1. destruct Hx1 as [n Hn].
    assert (Hi : tagl (e :: r) (N.of_nat (S n)) = Some Entry).
    { unfold tagl, get_block. rewrite Nat2N.id. cbn [nth_error]. now rewrite Hn, Hx2. }
    apply He in Hi. lia.
Qed.

Corollary lower_cfg_wfb body g :
  lower_body body = Some g -> NoDup (labels_list body) ->
  incl (gotos_list body) (labels_list body) -> cfg_wfb g = true.
Proof. intros. eapply cfg_wf_wfb. eapply lower_cfg_wf; eauto. Qed.

Lemma jump_target_nil l : jump_target l [] = None.
Proof. reflexivity. Qed.

Lemma jump_target_cons l s r :
  jump_target l (s :: r) =
  match s with
  | SLabel l' => if N.eqb l l' then Some r else jump_target l r
  | _ => jump_target l r
  end.
Proof. reflexivity. Qed.

Lemma jump_target_ind l (P : list stmt -> list stmt -> Prop) :
  (forall r, P (SLabel l :: r) r) ->
  (forall s r r', jump_target l r = Some r' -> P r r' -> P (s :: r) r') ->
  forall r r', jump_target l r = Some r' -> P r r'.
Proof.
  intros Hhit Hskip. induction r as [|s r IH]; intros r' H; [discriminate|].
  rewrite jump_target_cons in H. destruct s; auto. destruct (N.eqb_spec l l0) as [<-|]; auto.
  inversion H; subst. apply Hhit.
Qed.

Lemma jump_target_ends l r r' : jump_target l r = Some r' -> ends_in_loop r' = ends_in_loop r.
Proof.
  revert r r'. apply jump_target_ind.
  - intros r. now destruct r.
  - intros s r r' H IH. rewrite IH. destruct r; [discriminate|reflexivity].
Qed.

Lemma direct_labels_cons s r :
  direct_labels (s :: r) = match s with SLabel l => l :: direct_labels r | _ => direct_labels r end.
Proof. destruct s; reflexivity. Qed.

Lemma jump_target_none l r : jump_target l r = None -> ~ In l (direct_labels r).
Proof.
  induction r as [|s r IH]; intros H; [intros []|].
  rewrite jump_target_cons in H. rewrite direct_labels_cons. destruct s; auto.
  destruct (N.eqb_spec l l0); [discriminate|]. intros [Hi|Hi]; [congruence|now apply IH].
Qed.

Lemma jump_target_legal l r r' V :
  jump_target l r = Some r' -> legal_list r V = true -> legal_list r' V = true.
Proof.
  revert r r'. refine (jump_target_ind l _ _ _); [intros r H|intros s r r' _ IH H];
    cbn [legal_list] in H; apply andb_true_iff in H; [apply H|apply IH, H].
Qed.

Lemma jump_target_loops_strip l r r' :
  jump_target l r = Some r' -> loops_ok_list (strip_loop r) = true ->
  loops_ok_list (strip_loop r') = true.
Proof.
  revert r r'. refine (jump_target_ind l _ _ _); [intros r H|intros s r r' Hj IH H]; rewrite strip_loop_cons in H.
  - exact H.
  - destruct r; [discriminate|]. cbn [is_nil] in H. rewrite andb_false_r in H.
    cbn [loops_ok_list] in H. apply andb_true_iff in H. apply IH, H.
Qed.

Section Sim.
Variable St : Type.
Variable act : N -> St -> St.
Variable cond : N -> St -> bool.
Variable g : bstate.

Lemma exec_S f s st :
  exec St act cond (S f) s st =
  match s with
  | SAct a => Ok (ONormal, act a st)
  | SGoto l => Ok (OJump l, st)
  | SLabel _ => Ok (ONormal, st)
  | SIf c t e =>
      if cond c st then exec St act cond f t st
      else match e with Some e' => exec St act cond f e' st | None => Ok (ONormal, st) end
  | SBlock b => exec_block St act cond f b b st
  | SLoop => Stuck
  end.
Proof. reflexivity. Qed.

Lemma exec_block_S f whole rest st :
  exec_block St act cond (S f) whole rest st =
  match rest with
  | [] => Ok (ONormal, st)
  | s :: r =>
      if is_loop s && is_nil r then exec_block St act cond f whole whole st else
      match exec St act cond f s st with
      | Ok (ONormal, st1) => exec_block St act cond f whole r st1
      | Ok (OJump l, st1) =>
          match jump_target l r with
          | Some r' => exec_block St act cond f whole r' st1
          | None => Ok (OJump l, st1)
          end
      | Stuck => Stuck
      | OutOfFuel => OutOfFuel
      end
  end.
Proof. reflexivity. Qed.

Lemma exec_list_S f ss st :
  exec_list St act cond (S f) ss st =
  match ss with
  | [] => Ok (ONormal, st)
  | s :: r =>
      match exec St act cond f s st with
      | Ok (ONormal, st1) => exec_list St act cond f r st1
      | Ok (OJump l, st1) =>
          match jump_target l r with
          | Some r' => exec_list St act cond f r' st1
          | None => Ok (OJump l, st1)
          end
      | Stuck => Stuck
      | OutOfFuel => OutOfFuel
      end
  end.
Proof. reflexivity. Qed.

Lemma exec_block_noloop : forall f whole rest st,
  ends_in_loop rest = false -> exec_block St act cond f whole rest st = exec_list St act cond f rest st.
Proof.
  induction f as [|f IH]; intros whole rest st He; [reflexivity|].
  rewrite exec_block_S, exec_list_S. destruct rest as [|s r]; [reflexivity|].
  rewrite ends_in_loop_cons in He.
  assert (Hc : is_loop s && is_nil r = false).
  { destruct (is_nil r) eqn:En; [now rewrite He|apply andb_false_r]. }
  rewrite Hc. destruct (exec St act cond f s st) as [[[|l] st1]| |]; try reflexivity.
  - apply IH. destruct r; [reflexivity|exact He].
  - destruct (jump_target l r) as [r'|] eqn:Ej; [|reflexivity]. apply IH.
    rewrite (jump_target_ends _ _ _ Ej). destruct r; [discriminate|exact He].
Qed.

Lemma run_from_S m p x st :
  iat g p = Some x ->
  run_from St act cond (S m) (blocks g) (fst p) (snd p) st =
  match x with
  | IAct a => run_from St act cond m (blocks g) (fst p) (S (snd p)) (act a st)
  | ICmp _ => run_from St act cond m (blocks g) (fst p) (S (snd p)) st
  | IBr j => run_from St act cond m (blocks g) j O st
  | ICondBr c j1 j2 => run_from St act cond m (blocks g) (if cond c st then j1 else j2) O st
  | IRet => CRet st
  end.
Proof.
  unfold iat, ins, insl. cbn [run_from]. destruct (get_block (blocks g) (fst p)) as [blk|]; [now intros ->|].
  destruct (snd p); discriminate.
Qed.

(* [n] instructions take the CFG from [p] in state [st] to [q] in state [st'] *)
Definition reach (n : nat) (p : pos) (st : St) (q : pos) (st' : St) : Prop :=
  forall m, run_from St act cond (n + m) (blocks g) (fst p) (snd p) st =
            run_from St act cond m (blocks g) (fst q) (snd q) st'.

Lemma reach_trans n1 n2 p st m st1 q st' :
  reach n1 p st m st1 -> reach n2 m st1 q st' -> reach (n1 + n2) p st q st'.
Proof. intros H1 H2 k. rewrite <- Nat.add_assoc, H1. apply H2. Qed.

Lemma reach_br p j st : iat g p = Some (IBr j) -> reach 1 p st (j, O) st.
Proof. intros H m. exact (run_from_S m _ _ _ H). Qed.

(* CFG instructions per unit of structured fuel.  2x: a statement list runs its head and its tail, each
   within [bound f']; +3: an `if` adds the comparison, the conditional branch and the `br after` (the
   `br` into a looped block and its back edge add one each). *)
Fixpoint bound (f : nat) : nat :=
  match f with O => O | S f' => 2 * bound f' + 3 end.

(* [n] instructions take the CFG where outcome [o] of the structured run says: to the exit [q], or to
   the start of the block of the label jumped to *)
Definition R (o : outcome) (p q : pos) (st st' : St) (n : nat) : Prop :=
  match o with
  | ONormal => reach n p st q st'
  | OJump l => exists lb, lk g l = Some lb /\ reach n p st (lb, O) st'
  end.

Lemma jump_target_code l r r' m q :
  jump_target l r = Some r' -> code_list g r m q ->
  exists lb, lk g l = Some lb /\ code_list g r' (lb, O) q.
Proof.
  intros H. revert r r' H m. refine (jump_target_ind l _ _ _).
  - intros r m (m' & (lb & _ & Hk & ->) & Hr). eauto.
  - intros s r r' _ IH m (m' & _ & Hr). eauto.
Qed.

Definition sim_stmt (f : nat) : Prop :=
  forall s st o st' p q, exec St act cond f s st = Ok (o, st') -> code g s p q ->
    exists n, (n <= bound f)%nat /\ R o p q st st' n.

Lemma R_prepend o p m q st st1 st' n1 n2 :
  reach n1 p st m st1 -> R o m q st1 st' n2 -> R o p q st st' (n1 + n2).
Proof.
  intros H1 H2. destruct o; cbn [R] in *; [eapply reach_trans; eauto|].
  destruct H2 as (lb & Hk & H2). exists lb. split; [assumption|eapply reach_trans; eauto].
Qed.

(* [e]: where the code of a statement list ends; without a final `loop` that is the exit
   [q], with one it holds the branch back to the start of [whole] *)
Definition back_edge (whole : list stmt) (looping : bool) (e q : pos) : Prop :=
  if looping then
    exists lp, ends_in_loop whole = true /\ code_list g whole (lp, O) e /\ iat g e = Some (IBr lp)
  else e = q.

Definition sim_block (f : nat) : Prop :=
  forall whole rest st o st' p e q,
    exec_block St act cond f whole rest st = Ok (o, st') ->
    code_list g rest p e -> back_edge whole (ends_in_loop rest) e q ->
    exists n, (n <= bound f)%nat /\ R o p q st st' n.

Lemma bound_S f : bound (S f) = (2 * bound f + 3)%nat.
Proof. reflexivity. Qed.

Lemma sim_stmt_S f : sim_stmt f -> sim_block f -> sim_stmt (S f).
Proof.
  intros IHs IHb s st o st' p q He Hc. rewrite bound_S.
  rewrite exec_S in He. destruct s as [a|l|l|c t e|ss|].
  - inversion He; subst. destruct Hc as [Hi ->]. exists 1%nat.
    split; [lia|]. exact (fun m => run_from_S m _ _ _ Hi).
  - inversion He; subst. destruct Hc as (lb & Hi & Hk). exists 1%nat.
    split; [lia|]. exists lb. split; [assumption|now apply reach_br].
  - inversion He; subst. destruct Hc as (lb & Hi & Hk & ->). exists 1%nat.
    split; [lia|now apply reach_br].
  - destruct Hc as (th & el & af & pe & H1 & H2 & H3 & H4 & -> & Hel).
    assert (S2 : reach 2 p st (if cond c st then th else el, O) st).
    { intros m. cbn [Nat.add]. now rewrite (run_from_S _ _ _ _ H1), (run_from_S _ _ _ _ H2). }
    (* a branch that is taken, then its `br after` *)
    assert (Hbr : forall s0 j pe0, exec St act cond f s0 st = Ok (o, st') -> code g s0 (j, O) pe0 ->
              iat g pe0 = Some (IBr af) -> reach 2 p st (j, O) st ->
              exists n, (n <= 2 * bound f + 3)%nat /\ R o p (af, O) st st' n).
    { intros s0 j pe0 He0 Hc0 Hb0 S0. destruct (IHs _ _ _ _ _ _ He0 Hc0) as (n & Hn & HR).
      destruct o as [|l]; cbn [R] in *.
      - exists (2 + (n + 1))%nat. split; [lia|]. eapply reach_trans; [exact S0|].
        eapply reach_trans; [exact HR|]. now apply reach_br.
      - destruct HR as (lb & Hk & HR). exists (2 + n)%nat. split; [lia|]. exists lb.
        split; [assumption|]. eapply reach_trans; eauto. }
    destruct (cond c st); [now apply (Hbr t th pe)|]. destruct e as [e|].
    + destruct Hel as (pe' & H5 & H6). now apply (Hbr e el pe').
    + subst el. inversion He; subst. exists 2%nat. split; [lia|exact S2].
  - rewrite code_block in Hc. destruct (ends_in_loop ss) eqn:El.
    + destruct Hc as (lp & pe & H1 & H2 & H3).
      destruct (IHb ss ss st o st' (lp, O) pe q He H2) as (n & Hn & HR); [rewrite El; exists lp; auto|].
      exists (1 + n)%nat. split; [lia|].
      exact (R_prepend _ _ _ _ _ _ _ _ _ (reach_br _ _ _ H1) HR).
    + destruct (IHb ss ss st o st' p q q He Hc) as (n & Hn & HR); [now rewrite El|].
      exists n. split; [lia|assumption].
  - discriminate.
Qed.

Lemma sim_block_S f : sim_stmt f -> sim_block f -> sim_block (S f).
Proof.
  intros IHs IHb whole rest st o st' p e q He Hcr Hk. rewrite bound_S.
  rewrite exec_block_S in He. destruct rest as [|s r].
  - inversion He; subst. cbn in Hcr, Hk. subst. exists O. split; [lia|intros m; reflexivity].
  - destruct Hcr as (m & Hs & Hcr). rewrite ends_in_loop_cons in Hk.
    destruct (is_loop s && is_nil r) eqn:Ec.
    + apply andb_true_iff in Ec. destruct Ec as [E1 E2]. destruct r; [|discriminate].
      cbn [is_nil] in Hk. rewrite E1 in Hk. destruct s; try discriminate. cbn in Hs, Hcr. subst m e.
      destruct Hk as (lp & Hw & Hcw & Hpe).
      destruct (IHb whole whole st o st' (lp, O) p q He Hcw) as (n & Hn & HR);
        [rewrite Hw; exists lp; auto|].
      exists (1 + n)%nat. split; [lia|].
      exact (R_prepend _ _ _ _ _ _ _ _ _ (reach_br _ _ _ Hpe) HR).
    + assert (Hk' : back_edge whole (ends_in_loop r) e q).
      { destruct r; [rewrite andb_true_r in Ec; cbn [is_nil] in Hk; rewrite Ec in Hk|]; exact Hk. }
      destruct (exec St act cond f s st) as [[[|l] st1]| |] eqn:Es; try discriminate.
      * destruct (IHs _ _ _ _ _ _ Es Hs) as (n1 & Hn1 & HR1). cbn [R] in HR1.
        destruct (IHb _ _ _ _ _ _ _ _ He Hcr Hk') as (n2 & Hn2 & HR2).
        exists (n1 + n2)%nat. split; [lia|]. eapply R_prepend; eauto.
      * destruct (IHs _ _ _ _ _ _ Es Hs) as (n1 & Hn1 & lb & Hlk & HR1).
        destruct (jump_target l r) as [r'|] eqn:Ej.
        -- destruct (jump_target_code _ _ _ _ _ Ej Hcr) as (lb' & Hlk' & Hcr').
           assert (lb' = lb) by congruence. subst lb'.
           rewrite <- (jump_target_ends _ _ _ Ej) in Hk'.
           destruct (IHb _ _ _ _ _ _ _ _ He Hcr' Hk') as (n2 & Hn2 & HR2).
           exists (n1 + n2)%nat. split; [lia|]. eapply R_prepend; eauto.
        -- inversion He; subst. exists n1. split; [lia|]. exists lb. auto.
Qed.

Lemma sim_all f : sim_stmt f /\ sim_block f.
Proof.
  induction f as [|f (IHs & IHb)].
  - split; intro; intros; discriminate.
  - split; [apply sim_stmt_S|apply sim_block_S]; assumption.
Qed.

(* a statement list that is not a block: [exec_list] is [exec_block] without a final `loop` *)
Lemma sim_list f ss st o st' p q :
  ends_in_loop ss = false ->
  exec_list St act cond f ss st = Ok (o, st') -> code_list g ss p q ->
  exists n, (n <= bound f)%nat /\ R o p q st st' n.
Proof.
  intros El He Hc. rewrite <- (exec_block_noloop f ss ss st El) in He.
  apply (proj2 (sim_all f) ss ss st o st' p q q He Hc). now rewrite El.
Qed.
End Sim.

Section Main.
Variable St : Type.
Variable act : N -> St -> St.
Variable cond : N -> St -> bool.

Lemma run_from_mono : forall m g b k st,
  run_from St act cond m g b k st <> COutOfFuel ->
  forall m', (m <= m')%nat -> run_from St act cond m' g b k st = run_from St act cond m g b k st.
Proof.
  induction m as [|m IH]; intros g b k st Hne m' Hle; [now contradiction Hne|].
  destruct m' as [|m']; [lia|]. cbn [run_from] in *.
  destruct (get_block g b) as [blk|]; [|reflexivity].
  destruct (nth_error (binstrs blk) k) as [[a|c|j|c j1 j2|]|]; try reflexivity; apply IH; auto; lia.
Qed.

(* A structured run that terminates normally is reproduced by the CFG: same final
   state, within [bound fuel + 1] instructions. *)
Theorem lower_simulates body g :
  lower_body body = Some g -> NoDup (labels_list body) ->
  forall f st st', run_body St act cond f body st = Ok st' ->
  exists n, (n <= bound f + 1)%nat /\
    forall m, (n <= m)%nat -> run_cfg St act cond m g st = CRet st'.
Proof.
  intros Hlow Hnd f st st' Hrun. destruct (lower_body_finished _ _ Hlow) as (b & Hg & [_ _ HI]).
  destruct (HI Hnd) as (_ & C & Hret). set (bf := emit IRet b) in *.
  unfold run_body in Hrun.
  destruct (exec_list St act cond f body st) as [[[|l] st1]| |] eqn:Ex; try discriminate.
  inversion Hrun; subst st1. clear Hrun.
  assert (El : ends_in_loop body = false).
  { apply loops_ok_list_noloop. destruct (loops_ok_list body) eqn:HO; [reflexivity|].
    apply lower_body_panics_iff in HO. congruence. }
  subst g. destruct (sim_list St act cond bf f _ _ _ _ _ _ El Ex C) as (n & Hn & HR). cbn [R] in HR.
  exists (n + 1)%nat. split; [lia|]. intros m Hm.
  replace m with (n + S (m - n - 1))%nat by lia. unfold run_cfg.
  rewrite (HR _). exact (run_from_S St act cond bf _ _ _ st' Hret).
Qed.

Corollary lower_simulates_any_fuel body g :
  lower_body body = Some g -> NoDup (labels_list body) ->
  forall f st st', run_body St act cond f body st = Ok st' ->
  forall m, run_cfg St act cond m g st = COutOfFuel \/ run_cfg St act cond m g st = CRet st'.
Proof.
  intros Hlow Hnd f st st' Hrun m.
  destruct (lower_simulates body g Hlow Hnd f st st' Hrun) as (n & _ & Hn).
  assert (H : run_cfg St act cond m g st <> COutOfFuel -> run_cfg St act cond m g st = CRet st').
  { intros Hne. rewrite <- (Hn (Nat.max n m)) by lia. symmetry. apply run_from_mono; [exact Hne|lia]. }
  destruct (run_cfg St act cond m g st); [right; apply H; discriminate..|now left].
Qed.
End Main.

Theorem lower_simulates_trace St (act : N -> St -> St) (cond : N -> St -> bool) body g :
  lower_body body = Some g -> NoDup (labels_list body) ->
  forall f st tr st', trace_body act cond f body st = Ok (tr, st') ->
  exists n, (n <= bound f + 1)%nat /\
    forall m, (n <= m)%nat -> trace_cfg act cond m g st = CRet (tr, st').
Proof.
  intros Hlow Hnd f st tr st' H. unfold trace_body, trace_cfg in *.
  eapply lower_simulates; eauto.
Qed.

Lemma legal_block ss V : legal_stmt (SBlock ss) V = legal_list ss V.
Proof. cbn [legal_stmt]. induction ss as [|s r IH]; [reflexivity|]. cbn [legal_list]. now rewrite IH. Qed.

Section Safe.
Variable St : Type.
Variable act : N -> St -> St.
Variable cond : N -> St -> bool.

Notation exec := (exec St act cond).
Notation exec_block := (exec_block St act cond).
Notation exec_list := (exec_list St act cond).

Definition safe_res (r : res (outcome * St)) (V : list N) : Prop :=
  match r with Stuck => False | Ok (OJump l, _) => In l V | _ => True end.

Definition safe_stmt (f : nat) : Prop :=
  forall s V st, legal_stmt s V = true -> loops_ok s = true -> safe_res (exec f s st) V.
Definition safe_block (f : nat) : Prop :=
  forall whole rest V st,
    legal_list whole V = true -> loops_ok_list (strip_loop whole) = true ->
    legal_list rest V = true -> loops_ok_list (strip_loop rest) = true ->
    safe_res (exec_block f whole rest st) V.

Lemma safe_all f : safe_stmt f /\ safe_block f.
Proof.
  induction f as [|f (IHs & IHb)].
  - split; intro; intros; exact I.
  - split.
    + intros s V st HL HO. rewrite exec_S. destruct s as [a|l|l|c t e|ss|].
      * exact I.
      * now apply mem_name_In.
      * exact I.
      * cbn [legal_stmt loops_ok] in HL, HO. apply andb_true_iff in HL, HO.
        destruct HL as [HL1 HL2], HO as [HO1 HO2]. destruct (cond c st); [now apply IHs|].
        destruct e as [e|]; [now apply IHs|exact I].
      * rewrite legal_block in HL. rewrite loops_ok_block in HO. now apply IHb.
      * discriminate.
    + intros whole rest V st HLw HOw HL HO. rewrite exec_block_S.
      destruct rest as [|s r]; [exact I|].
      rewrite strip_loop_cons in HO. destruct (is_loop s && is_nil r) eqn:Ec; [now apply IHb|].
      cbn [legal_list loops_ok_list] in HL, HO. apply andb_true_iff in HL, HO.
      destruct HL as [HL1 HL2], HO as [HO1 HO2].
      pose proof (IHs s _ st HL1 HO1) as Hs.
      destruct (exec f s st) as [[[|l] st1]| |]; [now apply IHb| |exact Hs|exact I].
      cbn [safe_res] in Hs. destruct (jump_target l r) as [r'|] eqn:Ej.
      * apply IHb; auto; [eapply jump_target_legal; eauto|eapply jump_target_loops_strip; eauto].
      * apply in_app_or in Hs. destruct Hs as [Hs|Hs]; [|exact Hs]. now apply jump_target_none in Ej.
Qed.

(* of the three conditions of [accepted], the one on gotos and the one on `loop`; unique labels are not
   needed *)
Theorem accepted_not_stuck body :
  legal_list body [] = true -> loops_ok_list body = true ->
  forall f st, run_body St act cond f body st <> Stuck.
Proof.
  intros HL HO f st. pose proof (loops_ok_list_noloop _ HO) as El. unfold run_body.
  rewrite <- (exec_block_noloop St act cond f body body st El).
  assert (H : safe_res (exec_block f body body st) [])
    by (apply (proj2 (safe_all f)); try rewrite strip_loop_noloop; auto).
  destruct (exec_block f body body st) as [[[|l] st1]| |]; (discriminate || destruct H).
Qed.
End Safe.

Lemma nodupb_NoDup l : nodupb l = true -> NoDup l.
Proof.
  induction l as [|x r IH]; intros H; [constructor|].
  cbn [nodupb] in H. apply andb_true_iff in H. destruct H as [H1 H2].
  constructor; [|auto]. apply mem_name_false. now destruct (mem_name x r).
Qed.

Lemma direct_labels_incl ss : incl (direct_labels ss) (labels_list ss).
Proof.
  induction ss as [|s r IH]; [intros l []|]. rewrite direct_labels_cons. cbn [labels_list].
  intros l Hl. apply in_or_app. destruct s; try (right; now apply IH).
  destruct Hl as [<-|Hl]; [left; now left|right; now apply IH].
Qed.

Lemma legal_gotos : forall s V, legal_stmt s V = true ->
  forall l, In l (gotos_of s) -> In l V \/ In l (labels_of s).
Proof.
  induction s as [a|l0|l0|c t e IHt IHe|ss IHss|] using stmt_ind2; intros V HL l Hl;
    try (now destruct Hl).
  - destruct Hl as [<-|[]]. left. now apply mem_name_In.
  - cbn [legal_stmt gotos_of labels_of] in *. apply andb_true_iff in HL. destruct HL as [H1 H2].
    rewrite in_app_iff in *. destruct Hl as [Hl|Hl]; [destruct (IHt V H1 l Hl); tauto|].
    destruct e as [e|]; [destruct (IHe V H2 l Hl); tauto|destruct Hl].
  - rewrite legal_block in HL. rewrite gotos_block in Hl. rewrite labels_block.
    revert V HL Hl. induction IHss as [|s r Hs _ IH]; intros V HL Hl; [destruct Hl|].
    cbn [legal_list gotos_list labels_list] in *. apply andb_true_iff in HL. destruct HL as [H1 H2].
    rewrite in_app_iff in *. destruct Hl as [Hl|Hl].
    + destruct (Hs _ H1 l Hl) as [H|H]; [|tauto]. apply in_app_or in H. destruct H as [H|H]; [|tauto].
      right. right. now apply direct_labels_incl.
    + destruct (IH V H2 Hl); tauto.
Qed.

Lemma legal_list_gotos ss V : legal_list ss V = true -> incl (gotos_list ss) (V ++ labels_list ss).
Proof.
  intros HL l Hl. rewrite <- legal_block in HL. rewrite <- gotos_block in Hl.
  rewrite <- labels_block. apply in_or_app. eapply legal_gotos; eauto.
Qed.

Theorem accepted_compiles body :
  accepted body = true ->
  exists g, lower_body body = Some g /\ cfg_wf (labels_list body) g /\
    forall St act cond f st,
      match run_body St act cond f body st with
      | Ok st' => forall m, run_cfg St act cond m g st = COutOfFuel \/
                            run_cfg St act cond m g st = CRet st'
      | Stuck => False
      | OutOfFuel => True
      end.
Proof.
  unfold accepted. intros H. apply andb_true_iff in H. destruct H as [H H3].
  apply andb_true_iff in H. destruct H as [H1 H2]. apply nodupb_NoDup in H1.
  destruct (lower_body body) as [g|] eqn:E.
  - exists g. split; [reflexivity|]. split.
    + apply lower_cfg_wf; auto. exact (legal_list_gotos _ _ H2).
    + intros St act cond f st. destruct (run_body St act cond f body st) eqn:Er.
      * eapply lower_simulates_any_fuel; eauto.
      * eapply accepted_not_stuck; eauto.
      * exact I.
  - apply lower_body_panics_iff in E. congruence.
Qed.

(* [to_ls] / [to_syn] erase a body to the statement types of Model/LabelScope.v and
   Model/Syntax.v.  If the specification of the syntax analysis lists no code for it
   ([Syntax.spec_body]: E800/E801/E840) and that of the label scoper none either
   ([LabelScope.spec_body]: E400/E420) then the body satisfies [legal_list] and [loops_ok_list];
   uniqueness of resolution ids is the resolver's business.  That the analyzers report what their
   specifications list is SyntaxProofs.syntax_codes_eq_spec and LabelScopeProofs.scan_body_eq_spec. *)
Fixpoint to_ls (s : stmt) : LabelScope.stmt :=
  match s with
  | SAct _ => LabelScope.SOther
  | SGoto l => LabelScope.SGoto l
  | SLabel l => LabelScope.SLabel l
  | SIf _ t e => LabelScope.SIf (to_ls t) (match e with Some e' => Some (to_ls e') | None => None end)
  | SBlock ss => LabelScope.SBlock (map to_ls ss)
  | SLoop => LabelScope.SOther
  end.

Fixpoint to_syn (s : stmt) : Syntax.stmt :=
  match s with
  | SAct _ => Syntax.SSimple
  | SGoto _ => Syntax.SGoto
  | SLabel _ => Syntax.SSimple
  | SIf _ t e => Syntax.SIf (to_syn t) (match e with Some e' => Some (to_syn e') | None => None end)
  | SBlock ss => Syntax.SBlock (map to_syn ss)
  | SLoop => Syntax.SLoop
  end.

Definition is_branch_ctx (c : Syntax.ctx) : bool :=
  match c with Syntax.CThen | Syntax.CElse => true | _ => false end.

(* the scoper sees a statement contribute no label to its own block but itself, and where it is silent
   the gotos of the statement are legal *)
Definition scope_ok (s : stmt) : Prop :=
  LabelScope.labels_of (to_ls s) = match s with SLabel l => [l] | _ => [] end /\
  forall V, LabelScope.spec_stmt (to_ls s) V = [] -> legal_stmt s V = true.

Lemma scope_ok_list ss : Forall scope_ok ss ->
  forall V, LabelScope.spec_list (map to_ls ss) V = [] -> legal_list ss V = true.
Proof.
  intros HF V. assert (HL : forall r, Forall scope_ok r -> LabelScope.later (map to_ls r) = direct_labels r).
  { unfold LabelScope.later. induction 1 as [|s r [F _] _ IH]; [reflexivity|].
    cbn [map flat_map]. rewrite F, IH, direct_labels_cons. now destruct s. }
  induction HF as [|s r [_ S1] Hr IH]; intros H; [reflexivity|].
  cbn [map LabelScope.spec_list] in H. apply app_eq_nil in H. destruct H as [Ha Hb].
  rewrite (HL _ Hr) in Ha. exact (proj2 (andb_true_iff _ _) (conj (S1 _ Ha) (IH Hb))).
Qed.

(* What the two specifications say of a statement on which the syntax analysis is silent in context
   [c]: no `loop` out of place in it, it is no label where a branch is expected (E840: the scoper
   would count such a label to the block around the `if`) and no `loop` unless last; hence [scope_ok]. *)
Lemma stages_stmt : forall s c, Syntax.spec_stmt c (to_syn s) = [] ->
  (is_loop s = false -> loops_ok s = true) /\
  (is_branch_ctx c = true -> LabelScope.labels_of (to_ls s) = []) /\
  (SyntaxProofs.is_last c = false -> is_loop s = false) /\ scope_ok s.
Proof.
  unfold scope_ok. induction s as [a|l|l|cc t e IHt IHe|ss IHss|] using stmt_ind2; intros c H.
  - destruct c; cbn in H; try discriminate; repeat split; auto.
  - repeat split; auto. intros V. cbn. now destruct (mem_name l V).
  - destruct c; cbn in H; try discriminate; repeat split; auto; discriminate.
  - cbn [to_syn Syntax.spec_stmt] in H.
    assert (H' : Syntax.spec_stmt Syntax.CThen (to_syn t) = [] /\
                 forall e', e = Some e' -> Syntax.spec_stmt Syntax.CElse (to_syn e') = []).
    { destruct c; try discriminate; apply app_eq_nil in H; destruct H as [H1 H2];
        (split; [exact H1|intros e' ->; exact H2]). }
    destruct H' as [H1 H2]. destruct (IHt _ H1) as (L1 & B1 & K1 & _ & S1).
    cbn [to_ls loops_ok is_loop LabelScope.labels_of LabelScope.spec_stmt legal_stmt].
    rewrite (B1 eq_refl), (L1 (K1 eq_refl)). cbn [app]. destruct e as [e|].
    + destruct (IHe _ (H2 _ eq_refl)) as (L2 & B2 & K2 & _ & S2).
      rewrite (B2 eq_refl), (L2 (K2 eq_refl)). repeat split; auto.
      intros V HV. apply app_eq_nil in HV. now rewrite (S1 _ (proj1 HV)), (S2 _ (proj2 HV)).
    + repeat split; auto. intros V HV. rewrite app_nil_r in HV. now rewrite (S1 _ HV).
  - cbn [to_syn to_ls] in *. rewrite SyntaxProofs.spec_stmt_block in H.
    rewrite loops_ok_block. cbn [is_loop LabelScope.labels_of].
    assert (X : loops_ok_list (strip_loop ss) = true /\ Forall scope_ok ss).
    { clear c. induction IHss as [|s r Hs _ IH]; [split; [reflexivity|constructor]|].
      (* the last statement of a block stands in a context of its own *)
      assert (Hc : exists c, Syntax.spec_stmt c (to_syn s) = [] /\ (r = [] \/ SyntaxProofs.is_last c = false) /\
                             Syntax.spec_block (map to_syn r) = []).
      { destruct r as [|s' r']; [exists Syntax.CLast; auto|]. exists Syntax.COther.
        change (Syntax.spec_block (map to_syn (s :: s' :: r'))) with
          (Syntax.spec_stmt Syntax.COther (to_syn s) ++ Syntax.spec_block (map to_syn (s' :: r'))) in H.
        apply app_eq_nil in H. destruct H as [Ha Hb]. auto. }
      destruct Hc as (c & Ha & Hl & Hb). destruct (Hs _ Ha) as (L1 & _ & K1 & S1).
      destruct (IH Hb) as [L2 S2]. split; [|now constructor]. rewrite strip_loop_cons.
      destruct Hl as [->|Hl]; [|rewrite (K1 Hl); cbn [andb loops_ok_list]; now rewrite (L1 (K1 Hl))].
      cbn [is_nil]. rewrite andb_true_r. destruct (is_loop s) eqn:El; [reflexivity|].
      cbn [loops_ok_list]. now rewrite (L1 eq_refl). }
    destruct X as [X1 X2]. repeat split; auto.
    intros V. rewrite LabelScopeProofs.spec_block, legal_block. now apply scope_ok_list.
  - destruct c; cbn in H; try discriminate. repeat split; auto; discriminate.
Qed.

Theorem stages_accept body :
  Syntax.spec_body (map to_syn body) = [] ->
  LabelScope.spec_body (map to_ls body) = [] ->
  nodupb (labels_list body) = true ->
  accepted body = true.
Proof.
  intros H1 H2 H3. unfold accepted. rewrite H3.
  assert (X : loops_ok_list body = true /\ Forall scope_ok body).
  { clear H2 H3. unfold Syntax.spec_body in H1. induction body as [|s r IH]; [split; [reflexivity|constructor]|].
    cbn [map flat_map] in H1. apply app_eq_nil in H1. destruct H1 as [Ha Hb].
    destruct (stages_stmt _ _ Ha) as (L1 & _ & K1 & S1). destruct (IH Hb) as [L2 S2].
    split; [cbn [loops_ok_list]; now rewrite (L1 (K1 eq_refl))|now constructor]. }
  destruct X as [X1 X2]. exact (proj2 (andb_true_iff _ _) (conj (scope_ok_list _ X2 _ H2) X1)).
Qed.

(* { a; if c goto x; b; loop } x: d     (a = 1, b = 2, d = 3, c = 7, x = 100) *)
Definition ex1 : list stmt :=
  [SBlock [SAct 1; SIf 7 (SGoto 100) None; SAct 2; SLoop]; SLabel 100; SAct 3].

Example ex1_accepted : accepted ex1 = true.
Proof. vm_compute. reflexivity. Qed.

Example ex1_lowering :
  option_map cfg_view (lower_body ex1) =
  Some [ (Entry,       [],  TBr 1);           (* entry:                  br looped-block *)
         (Looped,      [1], TCondBr 7 2 5);   (* looped-block: a; c;     br c, then, after *)
         (Then_,       [],  TBr 4);           (* then:                   br x *)
         (Unreachable, [],  TBr 5);           (* unreachable-after-goto: br after *)
         (Lbl 100,     [3], TRet);            (* x: d;                   ret *)
         (After,       [2], TBr 1);           (* after: b;               br looped-block *)
         (AfterLooped, [],  TBr 4) ].         (* after-looped-block:     br x   (dead) *)
Proof. vm_compute. reflexivity. Qed.

Example ex1_wf : option_map cfg_wfb (lower_body ex1) = Some true.
Proof. vm_compute. reflexivity. Qed.

Definition ex_act (a s : N) : N := s + a.
Definition ex_cond (c s : N) : bool := 5 <? s.

Example ex1_run_structured : trace_body ex_act ex_cond 50 ex1 0 = Ok ([1; 2; 1; 2; 1; 3], 10).
Proof. vm_compute. reflexivity. Qed.

Example ex1_run_cfg :
  option_map (fun g => trace_cfg ex_act ex_cond 50 g 0) (lower_body ex1) =
  Some (CRet ([1; 2; 1; 2; 1; 3], 10)).
Proof. vm_compute. reflexivity. Qed.

(* if / else with a jump out of a branch *)
Definition ex2 : list stmt :=
  [SIf 1 (SBlock [SAct 1; SGoto 9]) (Some (SBlock [SAct 2])); SAct 3; SLabel 9; SAct 4].

Example ex2_accepted : accepted ex2 = true.
Proof. vm_compute. reflexivity. Qed.

Example ex2_lowering :
  option_map cfg_view (lower_body ex2) =
  Some [ (Entry,       [],  TCondBr 1 1 4);
         (Then_,       [1], TBr 3);
         (Unreachable, [],  TBr 5);
         (Lbl 9,       [4], TRet);
         (Else_,       [2], TBr 5);
         (After,       [3], TBr 3) ].
Proof. vm_compute. reflexivity. Qed.

(* a goto whose label is never declared (E400 upstream): the block made for the label has no terminator *)
Example lower_cfg_wf_without_goto_hyp_refuted :
  exists body g, lower_body body = Some g /\ NoDup (labels_list body) /\
                 ~ cfg_wf (labels_list body) g.
Proof.
  exists [SGoto 5], [ {| btag := Entry; binstrs := [IBr 2] |};
                      {| btag := Unreachable; binstrs := [IRet] |};
                      {| btag := Lbl 5; binstrs := [] |} ].
  split; [reflexivity|]. split; [constructor|].
  intros H. apply cfg_wf_wfb in H. vm_compute in H. discriminate.
Qed.

(* the same label generated twice: the second `br` goes into the label's own block, which then
   branches to itself, and the action and the `ret` follow that terminator *)
Example lower_cfg_wf_without_nodup_refuted :
  exists body g, lower_body body = Some g /\ incl (gotos_list body) (labels_list body) /\
                 ~ cfg_wf (labels_list body) g.
Proof.
  exists [SLabel 5; SLabel 5; SAct 1],
         [ {| btag := Entry; binstrs := [IBr 1] |};
           {| btag := Lbl 5; binstrs := [IBr 1; IAct 1; IRet] |} ].
  split; [reflexivity|]. split; [intros l []|].
  intros H. apply cfg_wf_wfb in H. vm_compute in H. discriminate.
Qed.

Example loop_in_body_panics : lower_body [SAct 1; SLoop] = None.
Proof. reflexivity. Qed.
Example loop_not_last_panics : lower_body [SBlock [SLoop; SAct 1]] = None.
Proof. reflexivity. Qed.
Example loop_as_branch_panics : lower_body [SIf 1 SLoop None] = None.
Proof. reflexivity. Qed.

Print Assumptions stages_accept.
Print Assumptions lower_branch_targets.
Print Assumptions lower_cfg_wf.
Print Assumptions lower_simulates.
Print Assumptions lower_simulates_trace.
Print Assumptions accepted_compiles.
Print Assumptions lower_body_panics_iff.
