(* Agreement of the two lexer models
     A = Model/LexAlpha.v  (first generation, src/alpha/lexer.rs, code points)
     D = Model/LexDelta.v  (second generation, src/delta/lexer.rs, bytes; CURRENT code)
   outside three classes of input on which they are shown to differ: the word `return` before
   `!`, `0b` literals of more than 128 digits whose value fits ([known_bin_leading_zeros]), and
   the empty source; and up to one difference of kind that is everywhere: D reserves the word
   `return` (KReturn), A has it as an identifier, so token lists are compared under [erase_return].
   Whole sources are compared only without carriage returns and quote characters and within
   D's buffers ([ascii_agree_partial]). *)
From Coq Require Import Ascii String.
From PV Require Import Base.Common Base.IR Base.Tok.
From PV Require Model.LexAlpha Model.LexDelta Proofs.LexAlphaProofs Proofs.LexDeltaProofs.
Module A := PV.Model.LexAlpha.
Module D := PV.Model.LexDelta.
Module AP := PV.Proofs.LexAlphaProofs.
Module DP := PV.Proofs.LexDeltaProofs.
Open Scope N_scope.

Definition kind_of (e : list N * (tkind * Z * option tykw)) : tkind := fst (fst (snd e)).
Definition is_plain_kw (e : list N * (tkind * Z * option tykw)) : bool :=
  match kind_of e with KBool | KType | KReturn => false | _ => true end.
Definition is_bool_kw (e : list N * (tkind * Z * option tykw)) : bool :=
  match kind_of e with KBool => true | _ => false end.
Definition is_type_kw (e : list N * (tkind * Z * option tykw)) : bool :=
  match kind_of e with KType => true | _ => false end.
Definition is_return_kw (e : list N * (tkind * Z * option tykw)) : bool :=
  match kind_of e with KReturn => true | _ => false end.

Definition w_return : list N := D.bs "return".

(* a pointwise equation over a concrete list is checked by evaluating both maps *)
Lemma Forall_map_eq {X Y : Type} (f g : X -> Y) l : map f l = map g l -> Forall (fun x => f x = g x) l.
Proof. intros H. apply Forall_forall. now apply map_ext_in_iff. Qed.

(* the second generation's keyword table is the first generation's plus `return`;
   same booleans; same type keywords (the integer types live in the suffix table
   of D); same integer suffixes *)
Theorem tables_agree :
  (* keywords, in the same order *)
  map (fun e => (fst e, kind_of e)) (filter is_plain_kw D.kw_table) = A.keyword_table /\
  Forall (fun e => snd e = (kind_of e, 0%Z, None)) (filter is_plain_kw D.kw_table) /\
  (* the only extra reserved word *)
  filter is_return_kw D.kw_table = [(w_return, (KReturn, 0%Z, None))] /\
  A.classify_word w_return = None /\
  (* booleans *)
  map (fun e => (fst e, snd (fst (snd e)))) (filter is_bool_kw D.kw_table) = A.bool_table /\
  (* type keywords *)
  A.type_table =
    [(D.bs "void", TyVoid)] ++ map (fun e => (fst e, TyPrim (snd e))) D.suffix_table ++
    [(D.bs "char8", TyPrim Char8); (D.bs "bool", TyPrim Bool)] /\
  map (fun e => (fst e, snd (snd e))) (filter is_type_kw D.kw_table) =
    [(D.bs "bool", Some (TyPrim Bool)); (D.bs "void", Some TyVoid); (D.bs "char8", Some (TyPrim Char8))] /\
  (* integer suffixes *)
  D.suffix_table = A.suffix_table /\
  (* simple escapes *)
  D.simple_escape_table = A.escape_table.
Proof.
  repeat split; try (vm_compute; reflexivity).
  apply Forall_map_eq. vm_compute. reflexivity.
Qed.

(* [A.str_eqb] and [D.bytes_eqb], [A.assoc] and [D.assoc_bytes] are the same functions up to
   conversion, so what LexAlphaProofs shows of the first lexer's holds of the second's *)
Lemma bytes_eqb_refl : forall a, D.bytes_eqb a a = true.
Proof. induction a as [|x a IH]; cbn [D.bytes_eqb]; [reflexivity|]. now rewrite N.eqb_refl, IH. Qed.
Lemma assoc_bytes_none {V : Type} (k : list N) (t : list (list N * V)) :
  ~ In k (map fst t) -> D.assoc_bytes k t = None.
Proof.
  intros H. destruct (D.assoc_bytes k t) as [v|] eqn:E; [|reflexivity].
  destruct H. exact (in_map fst _ _ (AP.assoc_In k t v E)).
Qed.

Theorem suffix_agree s : A.parse_integer_suffix s = D.parse_integer_suffix s.
Proof. reflexivity. Qed.

(* every spelling that either lexer reserves *)
Definition all_keys : list (list N) :=
  map fst D.kw_table ++ map fst D.suffix_table ++
  map fst A.keyword_table ++ map fst A.bool_table ++ map fst A.type_table ++ [w_return].

Definition classify_spec (w : list N) : option (tkind * Z * option tykw) :=
  if D.bytes_eqb w w_return then Some (KReturn, 0%Z, None) else A.classify_word w.

Lemma classify_on_keys : Forall (fun w => D.lookup_keyword w = classify_spec w) all_keys.
Proof. apply Forall_map_eq. vm_compute. reflexivity. Qed.

(* keyword / bool / type recognition agrees on EVERY word, except that D reserves `return`:
   on the reserved spellings by evaluation, and neither lexer knows any other word *)
Theorem classify_agree w : D.lookup_keyword w = classify_spec w.
Proof.
  destruct (in_dec (list_eq_dec N.eq_dec) w all_keys) as [Hin|Hnot].
  - exact (proj1 (Forall_forall _ _) classify_on_keys w Hin).
  - unfold D.lookup_keyword, D.parse_integer_suffix, classify_spec, A.classify_word.
    change (@A.assoc) with (@D.assoc_bytes).
    rewrite !assoc_bytes_none by (intros H; apply Hnot; unfold all_keys; auto 15 using in_or_app).
    destruct (D.bytes_eqb w w_return) eqn:E; [|reflexivity].
    apply AP.str_eqb_eq in E. destruct Hnot. unfold all_keys. rewrite E. auto 15 using in_or_app, in_eq.
Qed.

Definition punct_spec (seconds : list (N * tkind)) (k1 : tkind) (rest : list N) : A.step :=
  match rest with
  | y :: r' =>
      match D.assoc_N y seconds with
      | Some k2 => A.StTok k2 0%Z None [] 2 r'
      | None => A.StTok k1 0%Z None [] 1 rest
      end
  | [] => A.StTok k1 0%Z None [] 1 rest
  end.

Lemma punct_spec_single k1 rest : A.single k1 rest = punct_spec [] k1 rest.
Proof. now destruct rest. Qed.
Lemma punct_spec_double c k2 k1 rest : A.double c k2 k1 rest = punct_spec [(c, k2)] k1 rest.
Proof. destruct rest as [|z r]; [reflexivity|]. cbn [A.double punct_spec D.assoc_N]. now destruct (z =? c). Qed.
(* the tests A writes out for `<` and for `>` *)
Lemma punct_spec_triple c k2 c' k2' k1 rest :
  match rest with
  | z :: r => if z =? c then A.StTok k2 0%Z None [] 2 r
              else if z =? c' then A.StTok k2' 0%Z None [] 2 r else A.single k1 rest
  | [] => A.single k1 rest
  end = punct_spec [(c, k2); (c', k2')] k1 rest.
Proof.
  destruct rest as [|z r]; [reflexivity|]. cbn [punct_spec D.assoc_N].
  destruct (z =? c); [reflexivity|]. now destruct (z =? c').
Qed.

(* the slash: division, or a comment up to the end of the line in both models *)
Definition slash_spec (rest : list N) : A.step :=
  match rest with
  | z :: _ => if z =? 47 then A.StEnd else A.StTok KDivide 0%Z None [] 1 rest
  | [] => A.StTok KDivide 0%Z None [] 1 rest
  end.

Definition nonpunct_spec (x : N) (rest : list N) : A.step :=
  if A.is_ident_start x then A.lex_word x rest
  else if x =? 48 then A.lex_zero rest
  else if A.is_nonzero_dec x then A.lex_decimal x rest
  else if (x =? 34) || (x =? 39) then A.lex_quote x rest
  else if (x =? 32) || (x =? 9) then A.StSkip
  else A.StTok KError E110 None [] 1 rest.

(* one entry of a punctuation table, against one test of a chain on the first character *)
Lemma punct_link x c seconds k1 t rest (a r d : A.step) :
  a = punct_spec seconds k1 rest ->
  r = match D.assoc_N x t with Some (s, k) => punct_spec s k rest | None => d end ->
  (if x =? c then a else r) =
  match D.assoc_N x ((c, (seconds, k1)) :: t) with Some (s, k) => punct_spec s k rest | None => d end.
Proof. intros -> ->. cbn [D.assoc_N]. now destruct (x =? c). Qed.

(* A has no punctuation table, but its chain of tests on the first character visits the
   keys of D's table in the table's order, then the slash, then the other classes *)
Lemma lex_step_table x rest :
  A.lex_step x rest =
  match D.assoc_N x D.punct_table with
  | Some (seconds, k1) => punct_spec seconds k1 rest
  | None => if x =? 47 then slash_spec rest else nonpunct_spec x rest
  end.
Proof.
  unfold A.lex_step, D.punct_table.
  do 21 (apply punct_link; [first [apply punct_spec_single | apply punct_spec_double | apply punct_spec_triple]|]).
  reflexivity.
Qed.

(* every entry of D's punctuation table is what A's [lex_step] does for that character *)
Theorem punct_agree x seconds k1 rest :
  D.assoc_N x D.punct_table = Some (seconds, k1) -> A.lex_step x rest = punct_spec seconds k1 rest.
Proof. intros H. now rewrite lex_step_table, H. Qed.

(* ... and A knows no other punctuation (the slash is treated apart in both) *)
Theorem nonpunct_agree x rest :
  D.assoc_N x D.punct_table = None -> x <> 47 -> A.lex_step x rest = nonpunct_spec x rest.
Proof. intros H H47. apply N.eqb_neq in H47. now rewrite lex_step_table, H, H47. Qed.

Theorem slash_agree rest : A.lex_step 47 rest = slash_spec rest.
Proof. reflexivity. Qed.

Lemma cont_agree y : A.is_ident_cont y = D.is_ident_cont y.
Proof. reflexivity. Qed.

Lemma in_range_spec lo hi y : reflect (lo <= y <= hi) (A.in_range lo hi y).
Proof. apply iff_reflect. symmetry. apply N_between_iff. Qed.

Lemma nonzero_dec_spec x : A.is_nonzero_dec x = A.is_dec x && negb (x =? 48).
Proof.
  apply eq_true_iff_eq. unfold A.is_nonzero_dec, A.is_dec, A.in_range.
  rewrite N_between_iff, andb_true_iff, N_between_iff, negb_true_iff, N.eqb_neq. lia.
Qed.
Lemma nonzero_is_dec x : A.is_nonzero_dec x = true -> A.is_dec x = true.
Proof. rewrite nonzero_dec_spec. now intros [H _]%andb_true_iff. Qed.

(* D's digit table (low bits, plus 9 for letters) is A's [digit_val] on A's hex class *)
Lemma hex_digit_agree y :
  D.hex_digit y = if A.is_hex y then Some (Z.to_N (A.digit_val y)) else None.
Proof.
  unfold A.digit_val. rewrite N2Z.id. unfold D.hex_digit, A.is_hex, A.is_dec.
  change D.in_range with A.in_range. destruct (DP.land15 y) as (q & Hq & Hlt).
  destruct (in_range_spec 65 70 y).
  - destruct (in_range_spec 48 57 y); [lia|]. destruct (in_range_spec 97 102 y); [lia|].
    cbn [orb]. f_equal. lia.
  - destruct (in_range_spec 97 102 y).
    + destruct (in_range_spec 48 57 y); [lia|]. cbn [orb]. f_equal. lia.
    + destruct (in_range_spec 48 57 y); [|reflexivity]. cbn [orb]. f_equal. lia.
Qed.

Lemma digit_val_N y : Z.of_N (Z.to_N (A.digit_val y)) = A.digit_val y.
Proof. unfold A.digit_val. now rewrite N2Z.id. Qed.

Lemma dec_digit_agree y : D.dec_digit y = if A.is_dec y then Some (Z.to_N (A.digit_val y)) else None.
Proof.
  unfold A.digit_val. rewrite N2Z.id. destruct (A.is_dec y) eqn:E; [exact (proj1 (DP.dec_digit_spec y E))|].
  unfold D.dec_digit. change (D.in_range 48 57 y) with (A.is_dec y). now rewrite E.
Qed.

(* An accumulation [val] over digits and underscores, in D's style (digit table [dg], base [b]),
   computes the value A assigns to the digits without the underscores. *)
Lemma value_link (isd : N -> bool) (b : N) (dg : N -> option N) (val : N -> list N -> N) :
  (forall y, dg y = if isd y then Some (Z.to_N (A.digit_val y)) else None) -> isd 95 = false ->
  (forall acc, val acc [] = acc) ->
  (forall acc y r, val acc (y :: r) = match dg y with Some d => val (acc * b + d) r | None => val acc r end) ->
  forall ds acc, AP.digits_us isd ds = true ->
  Z.of_N (val acc ds) =
  (Z.of_N acc * Z.of_N b ^ Z.of_nat (length (AP.strip_us ds)) +
   AP.value_of_digits (Z.of_N b) (AP.strip_us ds))%Z.
Proof.
  intros Hdg H95 Hnil Hcons. induction ds as [|y ds IH]; intros acc H.
  - rewrite Hnil. cbn. lia.
  - cbn [AP.digits_us forallb] in H. apply andb_true_iff in H as [Hy Hds].
    rewrite Hcons, Hdg. cbn [AP.strip_us filter]. fold (AP.strip_us ds).
    destruct (isd y) eqn:Hd.
    + assert (Hy95 : (y =? 95) = false) by (destruct (N.eqb_spec y 95) as [->|]; congruence).
      rewrite Hy95. cbn [negb AP.value_of_digits length]. rewrite IH by assumption.
      rewrite N2Z.inj_add, N2Z.inj_mul, digit_val_N, Nat2Z.inj_succ, Z.pow_succ_r by lia. ring.
    + cbn [orb] in Hy. rewrite Hy. cbn [negb]. now apply IH.
Qed.

Lemma stops_ends tl : AP.stops tl -> DP.ends_token tl = true.
Proof. destruct tl as [|y t]; [reflexivity|]. cbn. intros H. now rewrite <- cont_agree, H. Qed.

(* a run of identifier characters: digits and underscores, then what both lexers try as a suffix *)
Lemma split_digits (isd : N -> bool) : forall w, forallb A.is_ident_cont w = true ->
  exists ds suf, w = ds ++ suf /\ AP.digits_us isd ds = true /\ forallb A.is_ident_cont suf = true /\
                 AP.ends_digits isd suf.
Proof.
  intros w H. destruct (AP.digits_split isd w) as (ds & suf & -> & Hds & Hhd).
  rewrite forallb_app in H. apply andb_true_iff in H as [_ Hs]. now exists ds, suf.
Qed.

Lemma head_not_app isd suf tail : (forall c, isd c = true -> A.is_ident_cont c = true) ->
  AP.ends_digits isd suf -> AP.stops tail -> AP.ends_digits isd (suf ++ tail).
Proof.
  intros Hc Hs Ht. destruct suf as [|y suf]; [|exact Hs]. cbn [app].
  apply (AP.stops_not_digit isd tail Hc Ht).
Qed.

Lemma suffix_shape_intro isd suf : forallb A.is_ident_cont suf = true -> AP.ends_digits isd suf ->
  suf = [] \/ AP.suffix_shape isd suf = true.
Proof.
  intros Hs Hh. destruct suf as [|y t]; [now left|right]. unfold AP.suffix_shape. rewrite Hs.
  destruct Hh as [H1 H2]. apply N.eqb_neq in H2. now rewrite H1, H2.
Qed.

Lemma len_lenN l : A.len l = D.lenN l.
Proof. reflexivity. Qed.

Lemma two128_Z : Z.of_N D.two128 = (2 ^ 128)%Z.
Proof. reflexivity. Qed.

(* results of a numeric arm, as D actions *)
Definition payload_act (p : tkind * Z * option tykw) (i e : N) : D.action :=
  let '(k, v, ty) := p in
  match k with
  | KError => D.AErr v i e
  | _ => D.ATok k v ty e
  end.

Lemma suffixed_payload M suf i e :
  D.suffixed M suf i e =
  payload_act (match A.parse_integer_suffix suf with
               | Some p => (KSuffixedInteger, Z.of_N M, Some (TyPrim p))
               | None => (KError, E141, None)
               end) i e.
Proof. unfold D.suffixed. rewrite (suffix_agree suf). destruct (D.parse_integer_suffix suf); reflexivity. Qed.

Lemma payload_act_tok k v ty i e : k <> KError -> payload_act (k, v, ty) i e = D.ATok k v ty e.
Proof. intros H. unfold payload_act. destruct k; try reflexivity. congruence. Qed.

Lemma num_payload_err nd kd v0 suf k v ty : AP.num_payload nd kd v0 suf = (k, v, ty) -> k = KError -> ty = None.
Proof.
  unfold AP.num_payload. intros H ->. destruct nd; [congruence|]. destruct (v0 <? 2 ^ 128)%Z; [|congruence].
  destruct suf; [congruence|]. destruct (A.parse_integer_suffix _); [discriminate|congruence].
Qed.

Lemma ltb_two128 M : (Z.of_N M <? 2 ^ 128)%Z = (M <? D.two128).
Proof. rewrite <- two128_Z. destruct (N.ltb_spec M D.two128); [apply Z.ltb_lt|apply Z.ltb_ge]; lia. Qed.

(* D: the three outcomes of a literal with digits *)
Lemma act_num_payload kd M suf i e : kd <> KError ->
  (if M <? D.two128
   then match suf with [] => D.ATok kd (Z.of_N M) None e | _ :: _ => D.suffixed M suf i e end
   else D.AErr E140 i e) = payload_act (AP.num_payload false kd (Z.of_N M) suf) i e.
Proof.
  intros Hk. unfold AP.num_payload. rewrite ltb_two128. destruct (M <? D.two128); [|reflexivity].
  destruct suf as [|c t]; [now rewrite payload_act_tok|]. apply suffixed_payload.
Qed.

(* what each numeric arm establishes: A's token is [n] characters long and ends at [tail],
   D's step ends at [e] before [tailD], and they carry the same payload *)
Definition num_rel (sa : A.step) (sd : D.step) (n e : N) (tail tailD : list N) (i : N) : Prop :=
  exists k v ty,
    sa = A.StTok k v ty [] n tail /\ D.srest sd = tailD /\ D.send sd = e /\
    D.act sd = payload_act (k, v, ty) i e /\ (k = KError -> ty = None).

Lemma num_rel_intro {sa sd nd kd v0 suf n' e' tail tailD i} n e :
  sa = AP.number_tok (AP.num_payload nd kd v0 suf) n' tail ->
  D.srest sd = tailD /\ D.send sd = e' /\ D.act sd = payload_act (AP.num_payload nd kd v0 suf) i e' ->
  n' = n -> e' = e -> num_rel sa sd n e tail tailD i.
Proof.
  intros -> (H1 & H2 & H3) <- <-. unfold AP.number_tok. destruct (AP.num_payload nd kd v0 suf) as [[k v] ty] eqn:E.
  exists k, v, ty. repeat split; try assumption. exact (num_payload_err _ _ _ _ _ _ _ E).
Qed.

(* D stops scanning digits at the head of the suffix or of the tail *)
Lemma digit_stops (isd : N -> bool) (dg : N -> option N) suf tail :
  (forall y, dg y = if isd y then Some (Z.to_N (A.digit_val y)) else None) ->
  (forall c, isd c = true -> A.is_ident_cont c = true) ->
  AP.ends_digits isd suf -> AP.stops tail -> DP.stops_at (DP.digit_byte dg) (suf ++ tail).
Proof.
  intros Hdg Hc Hhd Ht. pose proof (head_not_app _ _ _ Hc Hhd Ht) as Hh.
  destruct (suf ++ tail) as [|y l]; [exact I|]. destruct Hh as [H1 H2]. apply N.eqb_neq in H2.
  unfold DP.stops_at, DP.digit_byte. now rewrite Hdg, H1.
Qed.

Lemma dec_value_link x ds : A.is_dec x = true -> AP.digits_us A.is_dec ds = true ->
  AP.value_of_digits 10 (x :: AP.strip_us ds) = Z.of_N (DP.dec_value (x - 48) ds).
Proof.
  intros Hx Hds.
  rewrite (value_link A.is_dec 10 D.dec_digit DP.dec_value dec_digit_agree eq_refl
             (fun _ => eq_refl) (fun _ _ _ => eq_refl) ds _ Hds).
  cbn [AP.value_of_digits]. unfold A.digit_val at 1. now rewrite Hx.
Qed.

(* the second lexer's arms meet the first lexer's number specifications *)
Lemma D_decimal f x ds suf tail i :
  A.is_nonzero_dec x = true -> AP.digits_us A.is_dec ds = true ->
  forallb A.is_ident_cont suf = true -> AP.ends_digits A.is_dec suf -> AP.stops tail ->
  let s := D.lex_step f x (ds ++ suf ++ tail) i in
  let e2 := i + 1 + D.lenN ds + D.lenN suf in
  D.srest s = tail /\ D.send s = e2 /\
  D.act s = payload_act (AP.num_payload false KNakedDecimal (AP.value_of_digits 10 (x :: AP.strip_us ds)) suf) i e2.
Proof.
  intros Hx Hds Hsuf Hhd Ht. cbv zeta.
  rewrite (dec_value_link x ds (nonzero_is_dec x Hx) Hds), <- act_num_payload by discriminate.
  exact (DP.decimal_step_sfx f x ds suf tail i Hx Hds Hsuf
           (digit_stops _ _ _ _ dec_digit_agree AP.dec_is_cont Hhd Ht) (stops_ends _ Ht)).
Qed.

Theorem decimal_agree f x w tail tailD i :
  A.is_nonzero_dec x = true -> forallb A.is_ident_cont w = true -> AP.stops tail -> AP.stops tailD ->
  num_rel (A.lex_step x (w ++ tail)) (D.lex_step f x (w ++ tailD) i) (1 + A.len w) (i + 1 + D.lenN w) tail tailD i.
Proof.
  intros Hx Hw Ht HtD.
  destruct (split_digits A.is_dec w Hw) as (ds & suf & -> & Hds & Hsuf & Hhd).
  rewrite <- !app_assoc.
  apply (num_rel_intro _ _ (AP.lex_decimal_spec x ds suf tail Hx Hds (suffix_shape_intro _ _ Hsuf Hhd) Ht)
           (D_decimal f x ds suf tailD i Hx Hds Hsuf Hhd HtD));
    [rewrite AP.len_app; lia|rewrite DP.lenN_app; lia].
Qed.

Theorem zero_plain_agree f w tail tailD i :
  forallb A.is_ident_cont w = true -> AP.stops tail -> AP.stops tailD ->
  match w with y :: _ => y <> 120 /\ y <> 98 | [] => True end ->
  num_rel (A.lex_step 48 (w ++ tail)) (D.lex_step f 48 (w ++ tailD) i) (1 + A.len w) (i + 1 + D.lenN w) tail tailD i.
Proof.
  intros Hw Hst HstD Hhd.
  assert (Hplain : forall tl, AP.stops tl -> AP.not_radix (w ++ tl)).
  { intros tl Hs. destruct w as [|y w']; [exact (AP.stops_not_radix tl Hs)|].
    destruct Hhd. split; now apply N.eqb_neq. }
  refine (num_rel_intro _ _ (AP.lex_zero_spec w tail Hw (Hplain tail Hst) Hst) _ eq_refl eq_refl).
  destruct (DP.zero_step_sfx f w tailD i Hw (Hplain tailD HstD) (stops_ends _ HstD))
    as (H1 & H2 & H3).
  cbv zeta in H1, H2, H3. rewrite H1, H2, H3. repeat split.
  destruct w as [|c t]; [reflexivity|exact (suffixed_payload 0 (c :: t) i _)].
Qed.

Lemma hex_body_agree ds : AP.digits_us A.is_hex ds = true -> DP.is_hex_body ds = true.
Proof.
  unfold AP.digits_us, DP.is_hex_body. rewrite !forallb_forall. intros H y Hy.
  rewrite hex_digit_agree. specialize (H y Hy). now destruct (A.is_hex y).
Qed.

Lemma hex_digit_nil ds : AP.digits_us A.is_hex ds = true ->
  DP.has_hex_digit ds = negb (A.is_nil (AP.strip_us ds)).
Proof.
  induction ds as [|y ds IH]; intros H; [reflexivity|].
  cbn [AP.digits_us forallb] in H. apply andb_true_iff in H as [Hy Hds].
  cbn [DP.has_hex_digit existsb AP.strip_us filter]. fold (AP.strip_us ds). fold (DP.has_hex_digit ds).
  rewrite hex_digit_agree. destruct (A.is_hex y) eqn:E.
  - destruct (N.eqb_spec y 95) as [->|]; [discriminate|reflexivity].
  - cbn [orb] in Hy. rewrite Hy. now apply IH.
Qed.

Lemma hex_value_link ds : AP.digits_us A.is_hex ds = true ->
  AP.value_of_digits 16 (AP.strip_us ds) = Z.of_N (DP.hex_value 0 ds).
Proof.
  intros Hds.
  now rewrite (value_link A.is_hex 16 D.hex_digit DP.hex_value hex_digit_agree eq_refl
                 (fun _ => eq_refl) (fun _ _ _ => eq_refl) ds 0 Hds).
Qed.

Lemma D_hex f ds suf tail i :
  AP.digits_us A.is_hex ds = true -> forallb A.is_ident_cont suf = true ->
  AP.ends_digits A.is_hex suf -> AP.stops tail ->
  let s := D.lex_step f 48 (120 :: ds ++ suf ++ tail) i in
  let e2 := i + 2 + D.lenN ds + D.lenN suf in
  D.srest s = tail /\ D.send s = e2 /\
  D.act s = payload_act (AP.num_payload (A.is_nil (AP.strip_us ds)) KBitInteger
                           (AP.value_of_digits 16 (AP.strip_us ds)) suf) i e2.
Proof.
  intros Hds Hsuf Hhd Ht. cbv zeta.
  rewrite <- (negb_involutive (A.is_nil _)), <- (hex_digit_nil ds Hds), (hex_value_link ds Hds).
  destruct (DP.hex_step_sfx f ds suf tail i (hex_body_agree ds Hds) Hsuf
              (digit_stops _ _ _ _ hex_digit_agree AP.hex_is_cont Hhd Ht) (stops_ends _ Ht)) as (H1 & H2 & H3).
  cbv zeta in H1, H2, H3. rewrite H1, H2, H3. repeat split.
  (* without a digit, `x`, the underscores and [suf] are no type suffix: E141 on both sides, by computation *)
  destruct (DP.has_hex_digit ds); cbn [negb]; [apply act_num_payload; discriminate|reflexivity].
Qed.

Theorem hex_agree_lexeme f w tail tailD i :
  forallb A.is_ident_cont w = true -> AP.stops tail -> AP.stops tailD ->
  num_rel (A.lex_step 48 (120 :: w ++ tail)) (D.lex_step f 48 (120 :: w ++ tailD) i)
          (1 + A.len (120 :: w)) (i + 1 + D.lenN (120 :: w)) tail tailD i.
Proof.
  intros Hw Ht HtD.
  destruct (split_digits A.is_hex w Hw) as (ds & suf & -> & Hds & Hsuf & Hhd).
  rewrite <- !app_assoc.
  apply (num_rel_intro _ _
           (AP.lex_radix_spec A.is_hex 16 120 ds suf tail eq_refl AP.hex_valid AP.hex_is_cont (or_introl eq_refl)
              Hds (suffix_shape_intro _ _ Hsuf Hhd) Ht)
           (D_hex f ds suf tailD i Hds Hsuf Hhd HtD));
    [rewrite AP.len_cons, AP.len_app; lia|rewrite DP.lenN_cons, DP.lenN_app; lia].
Qed.

Lemma bin_digits_strip ds : AP.digits_us A.is_bin ds = true -> DP.bin_digits ds = A.len (AP.strip_us ds).
Proof.
  induction ds as [|y ds IH]; intros H; [reflexivity|].
  cbn [AP.digits_us forallb] in H. apply andb_true_iff in H as [Hy Hds].
  cbn [DP.bin_digits AP.strip_us filter]. fold (AP.strip_us ds). rewrite (IH Hds).
  unfold A.is_bin in Hy. destruct ((y =? 48) || (y =? 49)) eqn:E.
  - assert (H95 : (y =? 95) = false).
    { apply orb_true_iff in E as [E|E]; apply N.eqb_eq in E; subst; reflexivity. }
    rewrite H95. cbn [negb]. rewrite AP.len_cons. reflexivity.
  - cbn [orb] in Hy. rewrite Hy. cbn [negb]. lia.
Qed.

Lemma bin_value_link ds : AP.digits_us A.is_bin ds = true ->
  AP.value_of_digits 2 (AP.strip_us ds) = Z.of_N (DP.bin_value 0 ds).
Proof.
  intros Hds.
  rewrite (value_link A.is_bin 2 _ DP.bin_value (fun _ => eq_refl) eq_refl (fun _ => eq_refl)); [reflexivity| |exact Hds].
  intros acc y r. cbn [DP.bin_value]. unfold A.is_bin.
  destruct (N.eqb_spec y 48) as [->|_]; [exact (f_equal (fun a => DP.bin_value a r) (eq_sym (N.add_0_r _)))|].
  now destruct (N.eqb_spec y 49) as [->|_].
Qed.

(* the known divergence: a `0b` literal with more than 128 binary digits (leading
   zeros included) whose value still fits 128 bits.  D: E140 (digit count);
   A: the value (BitInteger / SuffixedInteger, or E141 for a bad suffix). *)
Definition known_bin_leading_zeros (lexeme : list N) : bool :=
  match lexeme with
  | 48 :: 98 :: w =>
      let body := fst (D.span_while (fun y => A.is_bin y || (y =? 95)) w) in
      (128 <? DP.bin_digits body) && (DP.bin_value 0 body <? D.two128)
  | _ => false
  end.

(* D gives up after 128 binary digits, whatever their value *)
Lemma D_bin f ds suf tail i :
  AP.digits_us A.is_bin ds = true -> forallb A.is_ident_cont suf = true ->
  AP.ends_digits A.is_bin suf -> AP.stops tail ->
  known_bin_leading_zeros (48 :: 98 :: ds ++ suf) = false ->
  let s := D.lex_step f 48 (98 :: ds ++ suf ++ tail) i in
  let e2 := i + 2 + D.lenN ds + D.lenN suf in
  D.srest s = tail /\ D.send s = e2 /\
  D.act s = payload_act (AP.num_payload (A.is_nil (AP.strip_us ds)) KBitInteger
                           (AP.value_of_digits 2 (AP.strip_us ds)) suf) i e2.
Proof.
  intros Hds Hsuf Hhd Ht Hknown. cbv zeta.
  (* the exception, in terms of ds *)
  assert (Hk : (128 <? DP.bin_digits ds) && (DP.bin_value 0 ds <? D.two128) = false).
  { unfold known_bin_leading_zeros in Hknown.
    rewrite (DP.span_while_all (fun y => A.is_bin y || (y =? 95)) ds suf) in Hknown; [exact Hknown|exact Hds|].
    destruct suf as [|y suf']; [exact I|]. destruct Hhd as [H1 H2]. apply N.eqb_neq in H2. unfold DP.stops_at. now rewrite H1, H2. }
  assert (Hnil : A.is_nil (AP.strip_us ds) = (DP.bin_digits ds =? 0)).
  { rewrite (bin_digits_strip ds Hds). destruct (AP.strip_us ds); [reflexivity|]. rewrite AP.len_cons. symmetry.
    apply N.eqb_neq. lia. }
  rewrite Hnil, (bin_value_link ds Hds).
  assert (Hstop : DP.bin_stops (suf ++ tail)).
  { pose proof (head_not_app _ _ _ AP.bin_is_cont Hhd Ht) as Hh.
    destruct (suf ++ tail) as [|y l]; [exact I|]. destruct Hh as [H1 H2].
    unfold A.is_bin in H1. apply orb_false_iff in H1 as [H48 H49]. repeat split; try assumption.
    now apply N.eqb_neq. }
  destruct (DP.bin_step_sfx f ds suf tail i Hds Hsuf Hstop (stops_ends _ Ht)) as (H1 & H2 & H3).
  cbv zeta in H1, H2, H3. rewrite H1, H2, H3. repeat split.
  (* without a digit, `b`, the underscores and [suf] are no type suffix: E141 on both sides, by computation *)
  destruct (DP.bin_digits ds =? 0); [reflexivity|].
  destruct (N.leb_spec (DP.bin_digits ds) 128) as [Hle|Hgt].
  - (* at most 128 digits: the value fits *)
    rewrite <- act_num_payload by discriminate.
    now rewrite (proj2 (N.ltb_lt _ _) (DP.bin_value_fits ds Hds Hle)).
  - (* more: outside the known class the value does not fit either *)
    apply N.ltb_lt in Hgt. rewrite Hgt in Hk. cbn [andb] in Hk. unfold AP.num_payload. now rewrite ltb_two128, Hk.
Qed.

Theorem bin_agree_lexeme f w tail tailD i :
  forallb A.is_ident_cont w = true -> AP.stops tail -> AP.stops tailD ->
  known_bin_leading_zeros (48 :: 98 :: w) = false ->
  num_rel (A.lex_step 48 (98 :: w ++ tail)) (D.lex_step f 48 (98 :: w ++ tailD) i)
          (1 + A.len (98 :: w)) (i + 1 + D.lenN (98 :: w)) tail tailD i.
Proof.
  intros Hw Ht HtD Hknown.
  destruct (split_digits A.is_bin w Hw) as (ds & suf & -> & Hds & Hsuf & Hhd).
  rewrite <- !app_assoc.
  apply (num_rel_intro _ _
           (AP.lex_radix_spec A.is_bin 2 98 ds suf tail eq_refl AP.bin_valid AP.bin_is_cont (or_intror eq_refl)
              Hds (suffix_shape_intro _ _ Hsuf Hhd) Ht)
           (D_bin f ds suf tailD i Hds Hsuf Hhd HtD Hknown));
    [rewrite AP.len_cons, AP.len_app; lia|rewrite DP.lenN_cons, DP.lenN_app; lia].
Qed.

(* a digit, then any run of [A-Za-z0-9_], then the end or a byte that cannot continue
   an identifier: outside the class [known_bin_leading_zeros] both lexers consume exactly the
   run and produce the same kind, value and suffix type, or the same error code (E140 / E141) *)
Theorem numeric_agree f d w tail tailD i :
  A.is_dec d = true -> forallb A.is_ident_cont w = true -> DP.ends_token tail = true -> DP.ends_token tailD = true ->
  known_bin_leading_zeros (d :: w) = false ->
  exists k v ty,
    A.lex_step d (w ++ tail) = A.StTok k v ty [] (1 + A.len w) tail /\
    D.srest (D.lex_step f d (w ++ tailD) i) = tailD /\
    D.send (D.lex_step f d (w ++ tailD) i) = i + 1 + D.lenN w /\
    D.act (D.lex_step f d (w ++ tailD) i) = payload_act (k, v, ty) i (i + 1 + D.lenN w) /\
    (k = KError -> ty = None).
Proof.
  intros Hd Hw Ht%DP.ends_token_spec HtD%DP.ends_token_spec Hknown.
  destruct (N.eqb_spec d 48) as [->|Hd48].
  - destruct w as [|y w']; [now apply zero_plain_agree|].
    pose proof Hw as Hw'. cbn [forallb] in Hw'. apply andb_true_iff in Hw' as [_ Hw'].
    destruct (N.eqb_spec y 120) as [->|Hx]; [now apply hex_agree_lexeme|].
    destruct (N.eqb_spec y 98) as [->|Hb]; [now apply bin_agree_lexeme|].
    now apply zero_plain_agree.
  - apply decimal_agree; auto. apply N.eqb_neq in Hd48. now rewrite nonzero_dec_spec, Hd, Hd48.
Qed.

(* a member of the class on which the two lexers disagree: `0b` followed by 129 zeros *)
Theorem numeric_agree_refuted :
  exists w, known_bin_leading_zeros (48 :: w) = true /\ forallb A.is_ident_cont w = true /\
    A.lex_step 48 w = A.StTok KBitInteger 0%Z None [] 131 [] /\
    D.act (D.lex_step 0 48 w 0) = D.AErr E140 0 131.
Proof. exists (98 :: repeat 48 129). vm_compute. repeat split. Qed.

(* the class is "more than 128 binary digits but the value fits": 127 zeros and a one
   (128 digits) is outside it, 128 zeros and a one inside, 129 ones outside (the value does
   not fit), a suffix changes nothing, and no `0x` literal is in it *)
Example known_class_boundary :
  known_bin_leading_zeros (D.bs "0b" ++ repeat 48 127 ++ D.bs "1") = false /\
  known_bin_leading_zeros (D.bs "0b" ++ repeat 48 128 ++ D.bs "1") = true /\
  known_bin_leading_zeros (D.bs "0b" ++ repeat 49 129) = false /\
  known_bin_leading_zeros (D.bs "0b" ++ repeat 48 128 ++ D.bs "1_u8") = true /\
  known_bin_leading_zeros (D.bs "0x" ++ repeat 48 200) = false.
Proof. vm_compute. repeat split. Qed.

(* characters allowed in a line: no LF (it ends the line), no CR, no quote *)
Definition okb (y : N) : bool := negb (y =? 10) && negb (y =? 13) && negb (y =? 34) && negb (y =? 39).

Definition pay_rel (pa pd : tkind * Z * option tykw) : Prop :=
  pd = pa \/ (pa = (KIdentifier, 0%Z, None) /\ pd = (KReturn, 0%Z, None)).

(* A works on the rest [r] of the line, D on the rest of the stream [r ++ St] *)
Definition step_rel (r St : list N) (i : N) (sa : A.step) (sd : D.step) : Prop :=
  match sa with
  | A.StEnd => D.act sd = D.ASkip /\ D.srest sd = St /\ D.send sd = i + 1 + D.lenN r
  | A.StSkip => D.act sd = D.ASkip /\ D.srest sd = r ++ St /\ D.send sd = i + 1
  | A.StTok k v ty bs n rest' =>
      bs = [] /\ D.srest sd = rest' ++ St /\ D.send sd = i + n /\ (k = KError -> ty = None) /\
      exists pd, pay_rel (k, v, ty) pd /\ D.act sd = payload_act pd i (i + n)
  | A.StStrErr _ _ _ _ _ _ _ => False
  end.

Lemma okb_spec y : okb y = true -> y <> 10 /\ y <> 13 /\ y <> 34 /\ y <> 39.
Proof.
  unfold okb. intros H. repeat (apply andb_true_iff in H as [H ?]).
  repeat match goal with Hn : negb _ = true |- _ => apply negb_true_iff, N.eqb_neq in Hn end. auto.
Qed.

(* [St], here and below: what follows the current line in D's byte stream *)
Lemma ends_token_stream tl St : AP.stops tl -> AP.starts_line St -> DP.ends_token (tl ++ St) = true.
Proof.
  intros Ht HS. destruct tl as [|y t]; cbn [app].
  - destruct HS as [->|(rest & ->)]; reflexivity.
  - cbn in Ht. cbn [DP.ends_token]. rewrite <- cont_agree, Ht. reflexivity.
Qed.

(* no `0b` lexeme of the known class starts at the head of (x :: r) *)
Definition no_known_bin_here (x : N) (r : list N) : Prop :=
  forall w tl, r = w ++ tl -> forallb A.is_ident_cont w = true -> AP.stops tl ->
               known_bin_leading_zeros (x :: w) = false.

(* how every token-producing arm establishes [step_rel] *)
Lemma step_rel_tok pd {r St i k v ty n rest' a R e} :
  pay_rel (k, v, ty) pd -> (k = KError -> ty = None) ->
  a = payload_act pd i e -> R = rest' ++ St -> e = i + n ->
  step_rel r St i (A.StTok k v ty [] n rest') (D.mk_step a R e).
Proof. intros Hp Hty -> -> ->. cbn. eauto 8. Qed.

Lemma slash_step_agree f r St i : forallb okb r = true -> AP.starts_line St ->
  step_rel r St i (slash_spec r) (D.lex_step f 47 (r ++ St) i).
Proof.
  intros Hr HS. unfold D.lex_step. rewrite DP.step_slash. unfold DP.slash_arm.
  assert (Hdiv : step_rel r St i (A.StTok KDivide 0%Z None [] 1 r)
                   (D.mk_step (D.ATok KDivide 0%Z None (i + 1)) (r ++ St) (i + 1))).
  { now apply (step_rel_tok (KDivide, 0%Z, None)); [left|..]. }
  destruct r as [|z r']; cbn [app slash_spec].
  - destruct HS as [->|(rest & ->)]; exact Hdiv.
  - destruct (N.eqb_spec z 47) as [->|Hz]; [|exact Hdiv].
    (* a comment: both skip the rest of the line *)
    cbn [forallb] in Hr. apply andb_true_iff in Hr as [_ Hr'].
    rewrite (DP.span_while_line r' St).
    + cbn [step_rel D.mk_step D.act D.srest D.send]. repeat split. rewrite !DP.lenN_cons. lia.
    + apply Forall_forall. intros y Hy. rewrite forallb_forall in Hr'. exact (proj1 (okb_spec y (Hr' y Hy))).
    + destruct HS as [->|(rest & ->)]; [exact I|reflexivity].
Qed.

Lemma punct_step_agree f x seconds k1 r St i :
  D.assoc_N x D.punct_table = Some (seconds, k1) -> AP.starts_line St ->
  step_rel r St i (punct_spec seconds k1 r) (D.lex_step f x (r ++ St) i).
Proof.
  intros Hp HS. unfold D.lex_step. rewrite (DP.step_punct D.dec_push f x seconds k1 (r ++ St) i Hp). unfold DP.punct_arm.
  destruct (DP.punct_kinds x seconds k1 Hp) as [Hk1 Hk2].
  assert (Hone : forall r0 : list N, step_rel r0 St i (A.StTok k1 0%Z None [] 1 r0)
                             (D.mk_step (D.ATok k1 0%Z None (i + 1)) (r0 ++ St) (i + 1))).
  { intros r0. apply (step_rel_tok (k1, 0%Z, None)); [now left|reflexivity| |reflexivity..].
    now rewrite payload_act_tok. }
  unfold punct_spec. destruct r as [|y r']; cbn [app].
  - (* at the end of the line D peeks at the newline, which is nobody's second character *)
    destruct HS as [->|(rest & ->)]; [apply (Hone [])|].
    destruct (D.assoc_N 10 seconds) as [k2|] eqn:E; [|apply (Hone [])].
    destruct (Hk2 _ _ E) as [_ Hc]. congruence.
  - destruct (D.assoc_N y seconds) as [k2|] eqn:E; [|apply (Hone (y :: r'))].
    destruct (Hk2 _ _ E) as [Hk _].
    apply (step_rel_tok (k2, 0%Z, None)); [now left|reflexivity| |reflexivity|lia].
    now rewrite payload_act_tok.
Qed.

Lemma word_step_agree x r St i :
  AP.starts_line St -> (forall post, x :: r <> w_return ++ 33 :: post) ->
  step_rel r St i (A.lex_word x r) (D.lex_ident x (r ++ St) i).
Proof.
  intros HS Hret. destruct (AP.ident_split r) as (t & r1 & -> & Ht & Hr1). unfold A.lex_word, D.lex_ident.
  rewrite (AP.take_ident_app t r1 Ht Hr1), <- app_assoc,
    (DP.span_while_sfx t (r1 ++ St) Ht (ends_token_stream _ _ Hr1 HS)).
  assert (Hend : i + 1 + D.lenN t = i + (1 + A.len t)) by (change (A.len t) with (D.lenN t); lia).
  (* an identifier for A; for D an identifier or the keyword `return` *)
  assert (Hid : forall kd, pay_rel (KIdentifier, 0%Z, None) (kd, 0%Z, None) -> kd <> KError ->
            step_rel (t ++ r1) St i (A.StTok KIdentifier 0%Z None [] (1 + A.len t) r1)
              (D.mk_step (D.ATok kd 0%Z None (i + 1 + D.lenN t)) (r1 ++ St) (i + 1 + D.lenN t))).
  { intros kd Hp Hk. apply (step_rel_tok (kd, 0%Z, None)); try assumption; [reflexivity| |reflexivity].
    now rewrite payload_act_tok. }
  rewrite classify_agree. unfold classify_spec.
  destruct (D.bytes_eqb (x :: t) w_return) eqn:Eret.
  - (* A does not know the word, and no `!` follows it *)
    apply AP.str_eqb_eq in Eret. rewrite Eret.
    change (A.classify_word w_return) with (@None (tkind * Z * option tykw)).
    specialize (Hid KReturn (or_intror (conj eq_refl eq_refl)) ltac:(discriminate)).
    destruct r1 as [|y r2]; [exact Hid|].
    destruct (N.eqb_spec y 33) as [->|_]; [|exact Hid].
    destruct (Hret r2). now rewrite <- Eret.
  - destruct (A.classify_word (x :: t)) as [[[k v] ty]|] eqn:Ecl.
    + pose proof (AP.classify_word_kind _ _ _ _ Ecl) as Hk.
      apply (step_rel_tok (k, v, ty)); [now left|congruence| |reflexivity|assumption].
      now rewrite payload_act_tok.
    + specialize (Hid KIdentifier (or_introl eq_refl) ltac:(discriminate)).
      destruct r1 as [|y r2]; cbn [app].
      * destruct HS as [->|(rest & ->)]; exact Hid.
      * destruct (y =? 33); [|exact Hid].
        apply (step_rel_tok (KBuiltin, 0%Z, None)); [now left|reflexivity..|change (A.len t) with (D.lenN t); lia].
Qed.

Lemma number_step_agree f x r St i :
  A.is_dec x = true -> AP.starts_line St -> no_known_bin_here x r ->
  step_rel r St i (A.lex_step x r) (D.lex_step f x (r ++ St) i).
Proof.
  intros Hd HS Hbin. destruct (AP.ident_split r) as (w & tl & -> & Hwb & Hst).
  destruct (numeric_agree f x w tl (tl ++ St) i Hd Hwb (stops_ends _ Hst) (ends_token_stream _ _ Hst HS)
              (Hbin w tl eq_refl Hwb Hst)) as (k & v & ty & H1 & H2 & H3 & H4 & H5).
  rewrite <- app_assoc, H1. cbn [step_rel]. rewrite H2, H3, H4.
  split; [reflexivity|]. split; [reflexivity|]. split; [change (A.len w) with (D.lenN w); lia|]. split; [exact H5|].
  exists (k, v, ty). split; [now left|]. f_equal; change (A.len w) with (D.lenN w); lia.
Qed.

Theorem step_agree f x r St i :
  okb x = true -> forallb okb r = true -> AP.starts_line St ->
  no_known_bin_here x r ->
  (forall post, x :: r <> w_return ++ 33 :: post) ->
  step_rel r St i (A.lex_step x r) (D.lex_step f x (r ++ St) i).
Proof.
  intros Hx Hr HS Hbin Hret.
  destruct (okb_spec x Hx) as (Hx10 & Hx13 & Hx34 & Hx39).
  destruct (A.is_dec x) eqn:Hd; [now apply number_step_agree|].
  destruct (N.eqb_spec x 32) as [->|H32]; [cbn; auto|].
  destruct (N.eqb_spec x 9) as [->|H9]; [cbn; auto|].
  destruct (N.eqb_spec x 47) as [->|H47]; [rewrite slash_agree; now apply slash_step_agree|].
  destruct (D.assoc_N x D.punct_table) as [[seconds k1]|] eqn:Hp.
  { rewrite (punct_agree x seconds k1 r Hp). now apply punct_step_agree. }
  unfold D.lex_step. rewrite (nonpunct_agree x r Hp H47), (DP.step_plain D.dec_push f x (r ++ St) i Hp H47 Hx10 Hx13 H32 H9).
  unfold nonpunct_spec, DP.plain_arm. change (A.is_ident_start x) with (D.is_ident_start x).
  destruct (D.is_ident_start x); [now apply word_step_agree|].
  (* neither digit, quote nor blank: E110 in both *)
  change (D.in_range 49 57 x) with (A.is_nonzero_dec x). rewrite nonzero_dec_spec, Hd.
  assert (H48 : (x =? 48) = false) by (destruct (N.eqb_spec x 48) as [->|]; [discriminate|reflexivity]).
  apply N.eqb_neq in Hx34, Hx39, H32, H9. rewrite H48, Hx34, Hx39, H32, H9. cbn [orb andb].
  now apply (step_rel_tok (KError, E110, None)); [left|..].
Qed.

(* the only kind-level difference that remains: D's Return is A's Identifier *)
Definition erase_return (t : tok) : tok :=
  match kind t with
  | KReturn => {| kind := KIdentifier; value := value t; vtype := vtype t; bytes := bytes t;
                  tstart := tstart t; tend := tend t; line := line t; lstart := lstart t |}
  | _ => t
  end.

(* no lexeme of the class [known_bin_leading_zeros] anywhere in the source *)
Definition bin_free (src : list N) : Prop :=
  forall pre x w tl, src = pre ++ x :: w ++ tl -> forallb A.is_ident_cont w = true ->
                     DP.ends_token tl = true -> known_bin_leading_zeros (x :: w) = false.

(* the divergence around `return`: D reserves the word, so `return!` is Return followed
   by `!` (or `!=`) in D but the builtin `return!` in A *)
Definition return_bang_free (src : list N) : Prop :=
  forall pre post, src <> pre ++ w_return ++ 33 :: post.

Definition avoids (src : list N) : Prop := bin_free src /\ return_bang_free src.

Lemma avoids_suffix p src : avoids (p ++ src) -> avoids src.
Proof.
  intros [Hb Hr]. split.
  - intros pre x w tl E. apply (Hb (p ++ pre)). now rewrite E, <- app_assoc.
  - intros pre post E. apply (Hr (p ++ pre) post). now rewrite E, <- app_assoc.
Qed.

Lemma erase_return_cases t :
  (kind t = KReturn /\ kind (erase_return t) = KIdentifier) \/ erase_return t = t.
Proof. unfold erase_return. destruct (kind t); (now right) || (now left). Qed.

Lemma erase_return_idem t : erase_return (erase_return t) = erase_return t.
Proof.
  destruct (erase_return_cases t) as [[_ E]|E]; [|now rewrite E].
  destruct (erase_return_cases (erase_return t)) as [[E' _]|E']; congruence.
Qed.

Lemma is_error_erase t : DP.is_error (erase_return t) = DP.is_error t.
Proof.
  unfold DP.is_error. destruct (erase_return_cases t) as [[E1 E2]|E]; [|now rewrite E].
  now rewrite E1, E2.
Qed.

Lemma count_err_erase ts : DP.count_err (map erase_return ts) = DP.count_err ts.
Proof.
  induction ts as [|t ts IH]; [reflexivity|]. cbn [map DP.count_err]. now rewrite IH, is_error_erase.
Qed.

Lemma mk_tok_payload kd vd tyd ka va tya i n ln sol :
  pay_rel (ka, va, tya) (kd, vd, tyd) ->
  erase_return (D.mk_tok kd vd tyd i (i + n) ln sol) = erase_return (A.mk ka va tya [] i (i + n) ln (i - sol)).
Proof.
  intros [H|[H1 H2]].
  - now injection H as -> -> ->.
  - injection H1 as -> -> ->. now injection H2 as -> -> ->.
Qed.

Lemma kind_error_cases k : k = KError \/ k <> KError.
Proof.
  (* through a boolean test: a discrimination per constructor is slow to check *)
  destruct (match k with KError => true | _ => false end) eqn:E.
  - left. destruct k; reflexivity || discriminate E.
  - right. intros ->. discriminate E.
Qed.

(* characters allowed in the source: everything except CR and the two quotes *)
Definition okS (y : N) : bool := negb (y =? 13) && negb (y =? 34) && negb (y =? 39).

Lemma split_line : forall src, forallb okS src = true ->
  exists l St, src = l ++ St /\ forallb okb l = true /\ AP.starts_line St /\ forallb okS (tl St) = true.
Proof.
  induction src as [|y src IH]; intros H; [exists [], []; repeat split; now left|].
  cbn [forallb] in H. apply andb_true_iff in H as [Hy Hs].
  destruct (N.eqb_spec y 10) as [->|Hne].
  - exists [], (10 :: src). repeat split; [right; eauto|exact Hs].
  - assert (Hyb : okb y = true).
    { unfold okb, okS in *. apply N.eqb_neq in Hne. rewrite Hne. exact Hy. }
    destruct (IH Hs) as (l & St & -> & Hl & HS). exists (y :: l), St. cbn [forallb app]. now rewrite Hyb, Hl.
Qed.

Lemma okb_no_nl l : forallb okb l = true -> forallb (fun c => negb (c =? 10) && negb (c =? 13)) l = true.
Proof.
  intros H. apply forallb_forall. intros y Hy. rewrite forallb_forall in H.
  destruct (okb_spec y (H y Hy)) as (H10 & H13 & _). apply N.eqb_neq in H10, H13. now rewrite H10, H13.
Qed.

Lemma lex_lines_split l St pos i : forallb okb l = true -> AP.starts_line St ->
  A.lex_lines (A.lines_of (l ++ St)) pos i =
  AP.toks (i + 1) pos 0 l ++
  match St with [] => [] | _ :: rest => A.lex_lines (A.lines_of rest) (pos + (A.len l + 1)) (i + 1) end.
Proof.
  intros Hl [->|(rest & ->)].
  - rewrite app_nil_r. destruct l as [|y l']; [reflexivity|].
    rewrite AP.no_nl_lines by (discriminate || exact (okb_no_nl _ Hl)). cbn [A.lex_lines]. now rewrite (N.add_comm 1 i).
  - rewrite (AP.lines_of_line l rest (okb_no_nl l Hl)). cbn [A.lex_lines]. now rewrite (N.add_comm 1 i).
Qed.

(* one token of D's pure token stream ([DP.scan]: the main loop without its buffers) *)
Lemma scan_push f x r pos ln sol k v ty e :
  let s := D.lex_step f x r pos in
  D.act s = payload_act (k, v, ty) pos e -> (k = KError -> ty = None) ->
  DP.scan D.dec_push (S f) (x :: r) pos ln sol =
  D.lr_cons (D.mk_tok k v ty pos e ln sol) (DP.scan D.dec_push f (D.srest s) (D.send s) ln sol).
Proof.
  cbv zeta. unfold D.lex_step. intros Ha Hty. cbn [DP.scan]. rewrite Ha.
  destruct (kind_error_cases k) as [->|Hk]; [now rewrite (Hty eq_refl)|now rewrite payload_act_tok].
Qed.

(* One iteration on a non-empty line: A consumes [used] and makes the tokens [TA] (none or one);
   D makes [TD] and goes on behind [used].  A comment consumes the whole line. *)
Lemma line_step fd x r St pos ln sol :
  forallb okb (x :: r) = true -> AP.starts_line St -> sol <= pos -> avoids (x :: r ++ St) ->
  exists used rest' TA TD,
    x :: r = used ++ rest' /\ 1 <= D.lenN used /\
    AP.toks ln pos (pos - sol) (x :: r) = TA ++ AP.toks ln (pos + D.lenN used) (pos + D.lenN used - sol) rest' /\
    map erase_return TD = map erase_return TA /\
    forall T eln esol, DP.scan D.dec_push fd (rest' ++ St) (pos + D.lenN used) ln sol = D.Done T eln esol false ->
      DP.scan D.dec_push (S fd) (x :: r ++ St) pos ln sol = D.Done (TD ++ T) eln esol false.
Proof.
  intros Hok HS Hsol [Hbin Hret].
  cbn [forallb] in Hok. apply andb_true_iff in Hok as [Hx Hr].
  assert (Hstep : step_rel r St pos (A.lex_step x r) (D.lex_step fd x (r ++ St) pos)).
  { apply step_agree; try assumption.
    - intros w tl E Hw Hst. apply (Hbin [] x w (tl ++ St)); [cbn [app]; now rewrite E, <- app_assoc|assumption|].
      now apply ends_token_stream.
    - intros post E. apply (Hret [] (post ++ St)). change (x :: r ++ St) with ((x :: r) ++ St).
      now rewrite E, <- !app_assoc. }
  pose proof (AP.lex_step_wf x r) as Hwf.
  rewrite AP.toks_cons.
  destruct (A.lex_step x r) as [| |k v ty bs m rest'|c es ee eo m1 m2 rest'] eqn:HA; cbn [step_rel] in Hstep;
    [| | |contradiction].
  - (* comment *)
    destruct Hstep as (Ha & Hsr & Hse). exists (x :: r), [], [], [].
    rewrite DP.lenN_cons. repeat split; try lia.
    + symmetry. apply app_nil_r.
    + intros T eln esol G. cbn [DP.scan app]. change (D.lex_step_with D.dec_push) with D.lex_step.
      rewrite Ha, Hsr, Hse, <- G. f_equal. lia.
  - (* blank *)
    destruct Hstep as (Ha & Hsr & Hse). exists [x], r, [], [].
    change (D.lenN [x]) with 1. repeat split; try lia.
    + cbn [app]. now replace (pos - sol + 1) with (pos + 1 - sol) by lia.
    + intros T eln esol G. cbn [DP.scan app]. change (D.lex_step_with D.dec_push) with D.lex_step.
      now rewrite Ha, Hsr, Hse.
  - (* token *)
    destruct Hstep as (-> & Hsr & Hse & Hty & [[kd vd] tyd] & Hrel & Ha).
    destruct Hwf as (used & Hused & <- & Hm & _). change (A.len used) with (D.lenN used) in *.
    pose proof (mk_tok_payload kd vd tyd k v ty pos (D.lenN used) ln sol Hrel) as Htok.
    assert (Htyd : kd = KError -> tyd = None).
    { destruct Hrel as [E|[_ E]]; injection E as -> -> ->; [assumption|reflexivity]. }
    exists used, rest', [A.mk k v ty [] pos (pos + D.lenN used) ln (pos - sol)],
           [D.mk_tok kd vd tyd pos (pos + D.lenN used) ln sol].
    repeat split; try lia.
    + exact Hused.
    + cbn [app]. now replace (pos - sol + D.lenN used) with (pos + D.lenN used - sol) by lia.
    + cbn [map]. now rewrite Htok.
    + intros T eln esol G. now rewrite (scan_push fd x (r ++ St) pos ln sol kd vd tyd _ Ha Htyd), Hsr, Hse, G.
Qed.

(* D's token stream over the rest [l] of a line and the lines [St] that follow is A's tokens for them.
   One induction over the stream: an iteration inside the line, or the newline and the next line. *)
Lemma stream_agree : forall fd l St pos ln sol,
  (length (l ++ St) < fd)%nat ->
  forallb okb l = true -> AP.starts_line St -> forallb okS (tl St) = true ->
  sol <= pos -> avoids (l ++ St) ->
  exists TD eln esol,
    DP.scan D.dec_push fd (l ++ St) pos ln sol = D.Done TD eln esol false /\
    map erase_return TD =
    map erase_return
      (AP.toks ln pos (pos - sol) l ++
       match St with [] => [] | _ :: rest => A.lex_lines (A.lines_of rest) (pos + (A.len l + 1)) ln end).
Proof.
  induction fd as [|fd IH]; intros l St pos ln sol Hfd Hok HS HokS Hsol Hav; [lia|].
  destruct l as [|x r]; [destruct HS as [->|(rest & ->)]; [exists [], ln, sol; now split|]|];
    cbn [app length tl] in Hfd, HokS, Hav |- *.
  - (* the newline, then the next line from its start *)
    destruct (split_line rest HokS) as (l' & St' & -> & Hl' & HS' & HokS').
    change (AP.toks ln pos (pos - sol) []) with (@nil tok). change (A.len [] + 1) with 1.
    rewrite (lex_lines_split l' St' (pos + 1) ln Hl' HS'). cbn [app].
    cbn [DP.scan D.lex_step_with N.eqb Pos.eqb orb D.mk_step D.act D.srest D.send].
    destruct (IH l' St' (pos + 1) (ln + 1) (pos + 1)) as (TD & eln & esol & G1 & G2);
      try assumption; try lia; [exact (avoids_suffix [10] _ Hav)|].
    rewrite N.sub_diag in G2. now exists TD, eln, esol.
  - (* an iteration inside the line *)
    destruct (line_step fd x r St pos ln sol Hok HS Hsol Hav)
      as (used & rest' & TA1 & TD1 & Hused & Hu & HA & Herase & HD).
    assert (Hlen : (S (length r) = length used + length rest')%nat) by (now rewrite <- app_length, <- Hused).
    assert (Hpos : pos + (A.len (x :: r) + 1) = pos + D.lenN used + (A.len rest' + 1))
      by (rewrite Hused, AP.len_app; change (A.len used) with (D.lenN used); lia).
    rewrite HA, Hpos, <- app_assoc.
    change (x :: r ++ St) with ((x :: r) ++ St) in Hav. rewrite Hused, <- app_assoc in Hav.
    rewrite Hused, forallb_app in Hok. apply andb_true_iff in Hok as [_ Hokr].
    destruct (IH rest' St (pos + D.lenN used) ln sol) as (TD' & eln & esol & G1 & G2); try assumption;
      [rewrite app_length in Hfd |- *; unfold D.lenN in Hu; lia|lia|exact (avoids_suffix used _ Hav)|].
    exists (TD1 ++ TD'), eln, esol. split; [exact (HD _ _ _ G1)|].
    now rewrite map_app, (map_app erase_return TA1), Herase, G2.
Qed.

(* For every non-empty source
        - without carriage returns and without quote characters (so: identifiers,
          keywords, numbers, punctuation, comments, blanks, LF, and arbitrary other
          bytes, which are E110 in both; for the two REAL lexers the source must also be
          ASCII, because A reads code points and D bytes),
        - without a `0b` literal of the class [known_bin_leading_zeros],
        - without the text `return!`,
        - small enough for D's buffers (fewer than 65535 bytes, and no more errors than
          D's error cap),
      the two lexers produce the same tokens: kind, value, value type, bytes, start, end,
      line and line offset, up to Return (D) versus Identifier (A). *)
Theorem ascii_agree_partial src :
  src <> [] -> forallb okS src = true -> bin_free src -> return_bang_free src ->
  D.lenN src + 2 <= 65536 ->
  DP.count_err (A.lex_alpha src) <= D.error_capacity (D.lenN src) ->
  map erase_return (D.lex_delta src) = map erase_return (A.lex_alpha src).
Proof.
  intros Hne Hok Hbin Hret Hlen Herr.
  assert (HA : A.lex_alpha src = A.lex_lines (A.lines_of src) 0 0).
  { unfold A.lex_alpha. destruct src; [congruence|]. cbn [A.is_nil]. apply app_nil_r. }
  rewrite HA in *.
  pose proof (DP.token_capacity_bounds (D.lenN src)) as Hc.
  destruct (split_line src Hok) as (l & St & E & Hl & HS & HokS).
  rewrite E, (lex_lines_split l St 0 0 Hl HS), <- E in Herr |- *.
  destruct (stream_agree (S (length src)) l St 0 1 0) as (TD & eln & esol & H1 & H2);
    rewrite <- ?E; try assumption; try lia; [now split|].
  rewrite <- E in H1.
  (* the tokens fit D's buffers, so its loop returns its token stream *)
  pose proof (DP.lex_loop_split D.dec_push (D.token_capacity (D.lenN src)) (D.error_capacity (D.lenN src))
                (S (length src)) src 0 1 0 ltac:(lia)) as Hs.
  rewrite H1 in Hs. cbn [DP.lr_all] in Hs. destruct Hs as (Hn & _ & Hs). specialize (Hs 0 1 0).
  rewrite DP.fill_id in Hs;
    [|lia|unfold D.MAX_NUM_PAYLOADS; lia|rewrite <- count_err_erase, H2, count_err_erase; exact Herr].
  unfold D.lex_delta, D.lex_delta_with, D.lex_result_with.
  destruct (N.eqb_spec (D.lenN src) 0) as [H0|_].
  { destruct src; [congruence|]. rewrite DP.lenN_cons in H0. lia. }
  destruct (N.ltb_spec D.MAX_SOURCE_LEN (D.lenN src)) as [Hbig|_]; [unfold D.MAX_SOURCE_LEN in Hbig; lia|].
  destruct (D.lex_loop_with D.dec_push _ _ _ _ _ _ _ _ _ _) as [|q|t a c q]; try discriminate Hs.
  injection Hs as -> _ _. exact H2.
Qed.

(* outside these hypotheses the two lexers do differ *)
Example return_bang_diverges :
  map (fun t => (kind t, tstart t, tend t)) (D.lex_delta (D.bs "return!")) = [(KReturn, 0, 6); (KExclamation, 6, 7)] /\
  map (fun t => (kind t, tstart t, tend t)) (A.lex_alpha (D.bs "return!")) = [(KBuiltin, 0, 7)].
Proof. vm_compute. split; reflexivity. Qed.
Example empty_source_diverges :
  map (fun t => (kind t, value t, line t, lstart t)) (D.lex_delta []) = [(KError, E101, 0, 0)] /\
  map (fun t => (kind t, value t, line t, lstart t)) (A.lex_alpha []) = [(KError, E101, 1, 1)].
Proof. vm_compute. split; reflexivity. Qed.
Example agree_instance :
  let src := D.bs "fn f(x: u8) -> u8 { return x + 0x1F_u8; } // c" ++ [10] ++ D.bs "  goto l # 12ab 1_000" in
  map erase_return (D.lex_delta src) = map erase_return (A.lex_alpha src) /\ length (A.lex_alpha src) = 21%nat.
Proof. vm_compute. split; reflexivity. Qed.

(* decidable sufficient conditions for [return_bang_free] and [bin_free] *)
Fixpoint is_prefix (p l : list N) : bool :=
  match p, l with
  | [], _ => true
  | a :: p', c :: l' => (a =? c) && is_prefix p' l'
  | _ :: _, [] => false
  end.
Fixpoint has_sub (p l : list N) : bool :=
  is_prefix p l || match l with [] => false | _ :: l' => has_sub p l' end.

Lemma is_prefix_app p post : is_prefix p (p ++ post) = true.
Proof. induction p as [|a p IH]; [reflexivity|]. cbn [app is_prefix]. now rewrite N.eqb_refl, IH. Qed.

Lemma has_sub_false p : forall l, has_sub p l = false -> forall pre post, l <> pre ++ p ++ post.
Proof.
  induction l as [|c l IH]; intros H pre post E.
  - destruct pre; [|discriminate]. cbn [app] in E. cbn [has_sub] in H. apply orb_false_iff in H as [H _].
    rewrite E, is_prefix_app in H. discriminate.
  - cbn [has_sub] in H. apply orb_false_iff in H as [H1 H2]. destruct pre as [|a pre].
    + cbn [app] in E. rewrite E, is_prefix_app in H1. discriminate.
    + cbn [app] in E. inversion E; subst. eapply IH; [exact H2|reflexivity].
Qed.

Lemma return_bang_free_dec src : has_sub (w_return ++ [33]) src = false -> return_bang_free src.
Proof.
  intros H pre post E. apply (has_sub_false _ _ H pre post). rewrite E, <- app_assoc. reflexivity.
Qed.

Lemma known_shape l : known_bin_leading_zeros l = true -> exists w, l = 48 :: 98 :: w.
Proof.
  unfold known_bin_leading_zeros. destruct l as [|x l]; [discriminate|].
  (* down the binary digits of 48, then of 98 *)
  destruct x as [|p]; [discriminate|].
  do 6 (try (destruct p as [p|p|]; try discriminate)).
  destruct l as [|y l]; [discriminate|]. destruct y as [|q]; [discriminate|].
  do 7 (try (destruct q as [q|q|]; try discriminate)).
  intros _. eexists; reflexivity.
Qed.

Lemma bin_free_no_0b src : has_sub [48; 98] src = false -> bin_free src.
Proof.
  intros H pre x w tl E _ _. destruct (known_bin_leading_zeros (x :: w)) eqn:K; [|reflexivity].
  apply known_shape in K as (w' & K). inversion K; subst. exfalso.
  apply (has_sub_false _ _ H pre (w' ++ tl)). reflexivity.
Qed.

Example hypotheses_hold :
  let src := D.bs "fn f(x: u8) -> u8 { return x + 0x1F_u8; } // c" ++ [10] ++ D.bs "  goto l # 12ab 1_000" in
  forallb okS src = true /\ has_sub (w_return ++ [33]) src = false /\ has_sub [48; 98] src = false /\
  D.lenN src + 2 <= 65536 /\ DP.count_err (A.lex_alpha src) <= D.error_capacity (D.lenN src).
Proof. vm_compute. repeat split; discriminate. Qed.

Print Assumptions tables_agree.
Print Assumptions classify_agree.
Print Assumptions punct_agree.
Print Assumptions nonpunct_agree.
Print Assumptions numeric_agree.
Print Assumptions numeric_agree_refuted.
Print Assumptions step_agree.
Print Assumptions ascii_agree_partial.
