(* Property: source text produced by `penne fuzz tokens` without injected
   mistakes is valid UTF-8 of at least the requested number of kilobytes and
   consists solely of valid lexemes: both lexers tokenise it without a single
   lexical error (the second generation except for the whole-source errors
   E101/E102/E103).

   Model: Model/Fuzzer.v. *)
From Coq Require Import Ascii String.
From PV Require Import Base.Common Base.IR Base.Tok Model.Fuzzer.
From PV Require Model.LexAlpha Model.LexDelta.
From PV Require Proofs.LexAlphaProofs Proofs.LexDeltaProofs.
From PV Require Import Proofs.FuzzerShapeProofs.
From PV Require Proofs.FuzzerDeltaProofs Proofs.FuzzerAlphaProofs.
Open Scope N_scope.

(* [digits] is not named below, but the spellings that FuzzerShapeProofs hands over contain it
   ([to_decimal], [to_hex], [to_binary]): transparent, conversion would unfold its fuel of 129 *)
Opaque digits.

Notation lex_delta := LexDelta.lex_delta.
(* [lex_alpha] here is the first lexer after the repair of D8, not the model's [LexAlpha.lex_alpha] *)
Notation lex_alpha := LexAlpha.lex_alpha_fixed.
Notation err_tok0 := LexDelta.err_tok0.

(* add_space_if_necessary pushes a space exactly when the last byte of the
   buffer and the first byte of the spelling could both continue an identifier *)
Theorem needs_space_exact k last cs x t : fst (emit_token k cs) = x :: t ->
  (if calls_add_space k then space_ops last else []) = if needs_space last x then [OChar 32] else [].
Proof.
  intros E. destruct (token_shape k cs) as (B & Ht & HB & Hf & _).
  rewrite Ht in E. destruct B as [|a B]; [discriminate E|].
  destruct (atom_first a (WF_head _ _ HB)) as (y & r & Es & Hy & _).
  cbn [flatc flat_map] in E. rewrite Es in E. cbn [app] in E. inversion E; subst y.
  cbn [first_wordy] in Hf. rewrite Hf in Hy. unfold needs_space, space_ops. rewrite Hy.
  destruct (calls_add_space k); destruct last as [l|]; try reflexivity.
  - rewrite andb_true_r. reflexivity.
  - now rewrite andb_false_r.
Qed.

(* one whole arm: the pushes are the optional space followed by the spelling *)
Theorem separator_rule k last cs x t : 0 < weight k ->
  fst (emit_token k cs) = x :: t ->
  ops_text (fst (push_token k last cs)) = (if needs_space last x then [32] else []) ++ x :: t.
Proof.
  intros _ E. unfold push_token. rewrite (needs_space_exact k last cs x t E).
  unfold emit_token in E. destruct (token_ops k cs) as [ops cs']. cbn [fst] in *.
  rewrite ops_text_app, E. destruct (needs_space last x); reflexivity.
Qed.

Theorem no_glue_error_alpha fuel cs cap pct : emit fuel cs cap pct <> [] ->
  forall t, In t (lex_alpha (emit fuel cs cap pct)) -> kind t <> KError.
Proof.
  intros Hne. destruct (emit_atoms fuel cs cap pct) as (A & E & HW). rewrite E in *.
  apply FuzzerAlphaProofs.alpha_no_error; [exact HW|]. intros ->. now apply Hne.
Qed.

(* why [no_glue_error_alpha] asks for a text: the empty one is the zero-byte file, an E101 token *)
Theorem empty_text_alpha : lex_alpha [] = [LexAlpha.zero_byte_tok].
Proof. reflexivity. Qed.

Theorem no_glue_error_delta fuel cs cap pct :
  let src := emit_bytes fuel cs cap pct in
  lex_delta src = [err_tok0 E101] \/ lex_delta src = [err_tok0 E102] \/ lex_delta src = [err_tok0 E103] \/
  forall t, In t (lex_delta src) -> kind t <> KError.
Proof.
  cbv zeta. unfold emit_bytes. destruct (emit_atoms fuel cs cap pct) as (A & -> & HW).
  exact (FuzzerDeltaProofs.delta_no_error A HW).
Qed.

(* on the loop itself, whatever capacities and counters it starts with ([lex_delta] fixes
   them).  The statement is about the tokens of a run that ends; that no step reports an error
   in the first place, so that the error cap has nothing to drop, is FuzzerDeltaProofs.delta_step *)
Theorem no_glue_error_delta_loop fuel cs cap pct tokcap errcap f pos ln sol ntok npay nerr :
  (length (emit_bytes fuel cs cap pct) < f)%nat ->
  LexDeltaProofs.lr_prop (fun toks _ _ => forall t, In t toks -> kind t <> KError)
    (LexDelta.lex_loop f (emit_bytes fuel cs cap pct) pos ln sol ntok npay nerr tokcap errcap).
Proof.
  unfold emit_bytes. destruct (emit_atoms fuel cs cap pct) as (A & -> & HW).
  now apply FuzzerDeltaProofs.delta_loop_no_error.
Qed.

Theorem no_glue_error_delta_small fuel cs cap pct :
  let src := emit_bytes fuel cs cap pct in
  src <> [] -> lenN src + 2 <= 65536 ->
  forall t, In t (lex_delta src) -> kind t <> KError.
Proof.
  cbv zeta. unfold emit_bytes. destruct (emit_atoms fuel cs cap pct) as (A & -> & HW). intros Hne Hlen.
  apply FuzzerDeltaProofs.delta_no_error_small; [exact HW| |exact Hlen]. intros ->. now apply Hne.
Qed.

(* an independent decoder of byte streams *)
Definition seq_len (a : N) : nat :=
  if a <? 128 then 1 else if a <? 224 then 2 else if a <? 240 then 3 else 4.

Fixpoint decode_stream (fuel : nat) (bs : list N) : option (list N) :=
  match fuel with
  | O => None
  | S f =>
      match bs with
      | [] => Some []
      | a :: _ =>
          match LexAlphaProofs.utf8_decode (firstn (seq_len a) bs) with
          | Some c => match decode_stream f (skipn (seq_len a) bs) with
                      | Some r => Some (c :: r)
                      | None => None
                      end
          | None => None
          end
      end
  end.

(* the independent decoder accepts a sequence only if it is as long as its lead byte announces *)
Lemma decode_lead bs c : LexAlphaProofs.utf8_decode bs = Some c -> exists a t, bs = a :: t /\ seq_len a = length bs.
Proof.
  destruct bs as [|a [|b1 [|b2 [|b3 [|? ?]]]]]; cbn [LexAlphaProofs.utf8_decode]; try discriminate; intros H;
    exists a; eexists; (split; [reflexivity|]); unfold seq_len; cbn [length].
  - destruct (a <? 128); [reflexivity|discriminate].
  - destruct (LexAlpha.in_range 192 223 a) eqn:E; [|discriminate]. apply LexAlphaProofs.in_range_spec in E.
    destruct (N.ltb_spec a 128); [lia|]. destruct (N.ltb_spec a 224); [reflexivity|lia].
  - destruct (LexAlpha.in_range 224 239 a) eqn:E; [|discriminate]. apply LexAlphaProofs.in_range_spec in E.
    destruct (N.ltb_spec a 128); [lia|]. destruct (N.ltb_spec a 224); [lia|]. destruct (N.ltb_spec a 240); [reflexivity|lia].
  - destruct (LexAlpha.in_range 240 247 a) eqn:E; [|discriminate]. apply LexAlphaProofs.in_range_spec in E.
    destruct (N.ltb_spec a 128); [lia|]. destruct (N.ltb_spec a 224); [lia|]. destruct (N.ltb_spec a 240); [lia|reflexivity].
Qed.

Lemma decode_step f c rest : c < 1114112 ->
  decode_stream (S f) (utf8 c ++ rest) =
  match decode_stream f rest with Some r => Some (c :: r) | None => None end.
Proof.
  intros Hlt. destruct (LexAlphaProofs.utf8_roundtrip c Hlt) as [Hdec _]. change (LexAlpha.utf8 c) with (utf8 c) in Hdec.
  destruct (decode_lead _ _ Hdec) as (a & t & E & Hlen).
  rewrite E in *. cbn [app decode_stream]. rewrite Hlen.
  change (a :: t ++ rest) with ((a :: t) ++ rest). rewrite firstn_app, firstn_all, Nat.sub_diag, app_nil_r, Hdec.
  replace (skipn (length (a :: t)) ((a :: t) ++ rest)) with rest
    by (rewrite skipn_app, skipn_all, Nat.sub_diag; reflexivity).
  reflexivity.
Qed.

Lemma decode_encode : forall s, forallb scalar s = true -> decode_stream (S (length s)) (encode s) = Some s.
Proof.
  induction s as [|c s IH]; intros Hs; [reflexivity|]. cbn [forallb] in Hs. apply andb_true_iff in Hs as [Hc Hs].
  assert (Hlt : c < 1114112) by (apply scalar_iff in Hc; lia).
  cbn [length encode flat_map]. fold (encode s). rewrite decode_step by exact Hlt. now rewrite (IH Hs).
Qed.

(* the bytes are the UTF-8 encoding of a sequence of Unicode scalar values,
   and an independent decoder gives that sequence back *)
Theorem emit_utf8 fuel cs cap pct :
  let text := emit fuel cs cap pct in
  emit_bytes fuel cs cap pct = encode text /\ forallb scalar text = true /\
  decode_stream (S (length text)) (emit_bytes fuel cs cap pct) = Some text.
Proof.
  cbv zeta. pose proof (emit_scalar fuel cs cap pct) as Hs.
  split; [reflexivity|]. split; [exact Hs|]. now apply decode_encode.
Qed.

(* the arithmetic behind `capacity = kb * 1096` and `percentage = 95` *)
Lemma kb_arithmetic kb len : 95 * (kb * 1096) <= 100 * len -> kb * 1024 <= len.
Proof. lia. Qed.

Theorem fuzz_tokens_correct cs kb : 1 <= kb -> fst (fuzz_tokens cs kb) = Finished ->
  let src := snd (fuzz_tokens cs kb) in
  exists text,
    src = encode text /\ forallb scalar text = true /\ decode_stream (S (length text)) src = Some text /\
    kb * 1024 <= lenN src /\
    (forall t, In t (lex_alpha text) -> kind t <> KError) /\
    (lex_delta src = [err_tok0 E102] \/ lex_delta src = [err_tok0 E103] \/
     forall t, In t (lex_delta src) -> kind t <> KError).
Proof.
  intros Hkb Hf. cbv zeta. pose proof (size_at_least cs kb Hf) as Hsize.
  unfold fuzz_tokens in *. cbn [fst snd] in *.
  set (fuel := S (length cs)) in *. set (cap := kb * 1096) in *.
  change (buf_bytes (fbuf (snd (emit_run fuel cs cap 95)))) with (emit_bytes fuel cs cap 95) in *.
  exists (emit fuel cs cap 95).
  destruct (emit_utf8 fuel cs cap 95) as (H1 & H2 & H3).
  assert (Hne : emit fuel cs cap 95 <> []).
  { intros E. unfold emit_bytes in Hsize. rewrite E in Hsize. cbn in Hsize. lia. }
  repeat split; try assumption.
  - now apply no_glue_error_alpha.
  - destruct (no_glue_error_delta fuel cs cap 95) as [H|[H|[H|H]]]; auto.
    exfalso. destruct (FuzzerDeltaProofs.lex_delta_global_error _ _ H) as [[_ E]|[[E _]|E]]; try discriminate E.
    rewrite E in Hsize. cbn in Hsize. lia.
Qed.

(* The unconditional statement is false for the second generation: its token
   buffer holds max(len/2, 65536) tokens (at most 2^24), the fuzzer can emit
   almost one token per byte.  When every choice is 8, each round pushes one `(`,
   after a line break if [nl_at] has been passed (one per 20 bytes at most) and
   after the 12 bytes "\n//" 8 8 8 8 8 8 8 8 "\n" if [cm_at] has been passed (once
   per 221 bytes at most): more than 0.89 tokens per byte. *)

Lemma apply_ops_fits ops : forall b, blen b + str_len (ops_text ops) <= bcap b ->
  apply_ops ops b =
  {| brev := rev_append (ops_text ops) (brev b); blen := blen b + str_len (ops_text ops); bcap := bcap b |}.
Proof.
  induction ops as [|o ops IH]; intros [r l c]; cbn [brev blen bcap ops_text flat_map]; intros H.
  - cbn. now rewrite N.add_0_r.
  - fold (ops_text ops) in *. rewrite str_len_app in *. cbn [apply_ops fold_left].
    fold (apply_ops ops (push o {| brev := r; blen := l; bcap := c |})).
    unfold push, reserve. cbn [brev blen bcap]. destruct (N.ltb_spec (c - l) (str_len (op_text o))); [lia|].
    rewrite IH by (cbn [blen bcap]; lia). cbn [brev blen bcap].
    now rewrite N.add_assoc, !rev_append_rev, rev_app_distr, app_assoc.
Qed.

Lemma repeat_split {A} (x : A) j n : (j <= n)%nat -> repeat x n = repeat x j ++ repeat x (n - j).
Proof. intros H. rewrite <- repeat_app. f_equal. lia. Qed.

(* the state of the fuzzer while the capacity has not grown and no fuel ran out; [t] is the
   text most recent first ([brev]) *)
Definition st8 t len cap nl cm :=
  {| fbuf := {| brev := t; blen := len; bcap := cap |}; nl_at := nl; cm_at := cm; foof := false |}.

Lemma newline_idle f st cs : blen (fbuf st) <= nl_at st -> newline_loop (S f) st cs = (st, cs).
Proof. intros H. cbn [newline_loop]. destruct (N.ltb_spec (nl_at st) (blen (fbuf st))); [lia|reflexivity]. Qed.

Lemma newline_fire f t len cap nl cm cs : nl < len -> len + 1 <= cap ->
  newline_loop (S (S f)) (st8 t len cap nl cm) (8 :: 8 :: 8 :: cs) = (st8 (10 :: t) (len + 1) cap (len + 1 + 18) cm, cs).
Proof.
  intros H Hc. unfold st8. cbn [newline_loop fbuf blen nl_at cm_at foof rbool rrange draw].
  rewrite (proj2 (N.ltb_lt _ _) H).
  change (8 mod 20 <? 1) with false. change (8 mod 5 <? 4) with true. change (10 + 8 mod (80 - 10)) with 18.
  cbn [app]. rewrite apply_ops_fits by exact Hc. cbn [ops_text flat_map op_text app rev_append brev blen bcap].
  change (str_len [10]) with 1. destruct (N.ltb_spec (len + 1 + 18) (len + 1)); [lia|reflexivity].
Qed.

Lemma comment_idle f st cs : blen (fbuf st) <= cm_at st -> comment_loop (S f) st cs = (st, cs).
Proof. intros H. cbn [comment_loop]. destruct (N.ltb_spec (cm_at st) (blen (fbuf st))); [lia|reflexivity]. Qed.

Definition comment8 : list N := 10 :: 47 :: 47 :: repeat 8 8 ++ [10].

Lemma comment8_text : LexDeltaProofs.solo_text 0 (encode comment8).
Proof.
  apply (LexDeltaProofs.st_blank 10); [reflexivity|].
  apply (LexDeltaProofs.st_comment (repeat 8 8) 0 []); [repeat (constructor; [discriminate|]); constructor|].
  apply (LexDeltaProofs.st_blank 10); [reflexivity|constructor].
Qed.

Lemma comment_ops8 cs :
  comment_ops (repeat 8 18 ++ cs) = (OChar 10 :: OStr [47; 47] :: map OChar (repeat 8 8 ++ [10]), cs).
Proof. vm_compute. reflexivity. Qed.

Lemma comment_fire f t len cap nl cm cs : cm < len -> len + 12 <= cap ->
  comment_loop (S (S f)) (st8 t len cap nl cm) (repeat 8 20 ++ cs) =
  (st8 (rev_append comment8 t) (len + 12) cap nl (len + 12 + 208), cs).
Proof.
  intros H Hc. unfold st8. cbn [comment_loop fbuf blen nl_at cm_at foof].
  rewrite (proj2 (N.ltb_lt _ _) H). change (repeat 8 20 ++ cs) with (repeat 8 18 ++ 8 :: 8 :: cs).
  rewrite comment_ops8. cbn [rbool rrange draw].
  change (8 mod 10 <? 9) with true. change (200 + 8 mod (500 - 200)) with 208.
  rewrite apply_ops_fits by exact Hc. cbn [brev blen bcap].
  change (ops_text (OChar 10 :: OStr [47; 47] :: map OChar (repeat 8 8 ++ [10]))) with comment8.
  change (str_len comment8) with 12. destruct (N.ltb_spec (len + 12 + 208) (len + 12)); [lia|reflexivity].
Qed.

Lemma whitespace8 last n : (2 <= n)%nat -> exists n',
  whitespace_ops last (repeat 8 n) = ([], repeat 8 n') /\ (n - 2 <= n' <= n)%nat /\
  (last <> Some 10 -> (n - 1 <= n')%nat).
Proof.
  intros Hn. destruct n as [|[|n]]; try lia. destruct last as [l|]; [|exists (S (S n)); repeat split; lia].
  cbn [repeat whitespace_ops]. destruct (N.eqb_spec l 10) as [->|Hl].
  - exists n. repeat split; try lia. congruence.
  - exists (S n). repeat split; lia.
Qed.

Lemma sample8 cs : sample TEndOfSource token_table (8 :: cs) = (TParenLeft, cs).
Proof. vm_compute. reflexivity. Qed.

(* [n] of the [n0] choices are left after [k] rounds with [nls] line breaks and
   [cms] comments: a round draws twice (white space, token), a line break three
   times and a comment twenty times, and after either the white space of the
   round draws once more *)
Definition Inv8 (n0 cap : N) (st : fstate) (n : nat) : Prop :=
  exists text k nls cms nl cm,
    st = st8 (rev text) (k + nls + 12 * cms) cap nl cm /\
    LexDeltaProofs.solo_text k (encode text) /\ lenN (encode text) = k + nls + 12 * cms /\ k + nls + 12 * cms <= cap /\
    18 + 20 * nls <= nl <= k + nls + 12 * cms + 18 /\
    208 + 221 * cms <= cm <= k + nls + 12 * cms + 208 /\
    n0 + (if hd 0 (rev text) =? 10 then 1 else 0) <= N.of_nat n + 2 * k + 4 * nls + 21 * cms.

Lemma newline_phase n0 cap f st n : Inv8 n0 cap st n -> blen (fbuf st) + 1 <= cap -> (3 <= n)%nat ->
  exists st' n', newline_loop (S (S f)) st (repeat 8 n) = (st', repeat 8 n') /\ Inv8 n0 cap st' n' /\
    blen (fbuf st') <= blen (fbuf st) + 1 /\ (n - 3 <= n' <= n)%nat.
Proof.
  intros I Hc H3. destruct (N.le_gt_cases (blen (fbuf st)) (nl_at st)) as [Hf|Hf].
  { rewrite newline_idle by exact Hf. exists st, n. split; [reflexivity|]. split; [exact I|lia]. }
  destruct I as (text & k & nls & cms & nl & cm & -> & Hpt & Hlen & Hcap & Hnl & Hcm & Hn).
  cbn [st8 fbuf blen nl_at] in *. rewrite (repeat_split 8 3 n H3). cbn [repeat app]. rewrite newline_fire by assumption.
  eexists _, _. split; [reflexivity|]. split; [|cbn [st8 fbuf blen]; lia].
  exists (text ++ [10]), k, (nls + 1), cms, (k + nls + 12 * cms + 1 + 18), cm. rewrite rev_unit, encode_app. cbn [hd].
  split; [f_equal; lia|]. split; [|split; [rewrite lenN_app, Hlen; cbn; lia|]].
  - rewrite <- (N.add_0_r k). apply LexDeltaProofs.solo_text_app; [exact Hpt|].
    apply (LexDeltaProofs.st_blank 10); [reflexivity|constructor].
  - change (10 =? 10) with true. destruct (hd 0 (rev text) =? 10); repeat split; lia.
Qed.

Lemma comment_phase n0 cap f st n : Inv8 n0 cap st n -> blen (fbuf st) + 12 <= cap -> (20 <= n)%nat ->
  exists st' n', comment_loop (S (S f)) st (repeat 8 n) = (st', repeat 8 n') /\ Inv8 n0 cap st' n' /\
    blen (fbuf st') <= blen (fbuf st) + 12 /\ (n - 20 <= n' <= n)%nat.
Proof.
  intros I Hc H3. destruct (N.le_gt_cases (blen (fbuf st)) (cm_at st)) as [Hf|Hf].
  { rewrite comment_idle by exact Hf. exists st, n. split; [reflexivity|]. split; [exact I|lia]. }
  destruct I as (text & k & nls & cms & nl & cm & -> & Hpt & Hlen & Hcap & Hnl & Hcm & Hn).
  cbn [st8 fbuf blen cm_at] in *. rewrite (repeat_split 8 20 n H3), comment_fire by assumption.
  eexists _, _. split; [reflexivity|]. split; [|cbn [st8 fbuf blen]; lia].
  exists (text ++ comment8), k, nls, (cms + 1), nl, (k + nls + 12 * cms + 12 + 208).
  rewrite rev_append_rev, rev_app_distr, encode_app.
  split; [f_equal; lia|]. split; [|split; [rewrite lenN_app, Hlen; change (lenN (encode comment8)) with 12; lia|]].
  - rewrite <- (N.add_0_r k). apply LexDeltaProofs.solo_text_app; [exact Hpt|exact comment8_text].
  - change (hd 0 (rev comment8 ++ rev text) =? 10) with true. destruct (hd 0 (rev text) =? 10); repeat split; lia.
Qed.

Lemma iteration8 n0 cap f st n : Inv8 n0 cap st n -> blen (fbuf st) + 14 <= cap -> (26 <= n)%nat ->
  exists st' n', iteration (S (S f)) st (repeat 8 n) = (st', repeat 8 n') /\ Inv8 n0 cap st' n' /\ (n' < n)%nat.
Proof.
  intros I Hc Hn. unfold iteration.
  destruct (newline_phase n0 cap f st n I) as (st1 & n1 & -> & I1 & L1 & N1); [lia..|].
  destruct (comment_phase n0 cap f st1 n1 I1) as (st2 & n2 & -> & I2 & L2 & N2); [lia..|].
  destruct I2 as (text & k & nls & cms & nl & cm & -> & Hpt & Hlen & Hcap & Hnl & Hcm & Hb).
  cbn [st8 fbuf blen nl_at cm_at foof] in *.
  destruct (whitespace8 (last_byte {| brev := rev text; blen := k + nls + 12 * cms; bcap := cap |}) n2)
    as (n3 & -> & N3 & Hws); [lia|].
  change (apply_ops [] ?b) with b. rewrite (repeat_split 8 1 n3) by lia. cbn [repeat app]. rewrite sample8.
  change (push_token TParenLeft ?l ?cs) with ([OStr [40]], cs). cbv iota beta.
  rewrite apply_ops_fits by (cbn [blen bcap]; change (str_len _) with 1; lia).
  eexists _, _. split; [reflexivity|]. split; [|lia].
  exists (text ++ [40]), (k + 1), nls, cms, nl, cm. rewrite rev_unit, encode_app.
  cbn [hd brev blen bcap ops_text flat_map op_text app rev_append].
  split; [unfold st8; do 2 f_equal; cbn; lia|]. split; [|split; [rewrite lenN_app, Hlen; cbn; lia|]].
  - apply (LexDeltaProofs.solo_text_app _ _ Hpt 1 [40]). apply (LexDeltaProofs.st_solo 40 0 []); [reflexivity|constructor].
  - change (40 =? 10) with false. destruct (N.eqb_spec (hd 0 (rev text)) 10) as [E|E]; [repeat split; lia|].
    (* no line break before: the white space took one draw at most *)
    assert (n2 - 1 <= n3)%nat; [|repeat split; lia]. apply Hws. unfold last_byte. cbn [brev].
    destruct (rev text) as [|c r]; [discriminate|]. cbn [hd] in E.
    intros H. assert (H' : (if c <? 128 then c else 128 + c mod 64) = 10) by congruence.
    destruct (c <? 128); [lia|]. revert H'. generalize (c mod 64). lia.
Qed.

(* on the constant choice 8 the text is too dense for the token buffer, for
   every size from 71 KiB on (up to the size limit of the lexer) *)
Theorem constant_choice_E103 kb n : 71 <= kb <= 1900000 -> 2200 * kb <= N.of_nat n ->
  fst (fuzz_tokens (repeat 8 n) kb) = Finished /\
  lex_delta (snd (fuzz_tokens (repeat 8 n) kb)) = [err_tok0 E103].
Proof.
  intros Hkb Hn. unfold fuzz_tokens. rewrite repeat_length. cbn [fst snd].
  set (cap := kb * 1096). set (n0 := N.of_nat n - 2).
  (* while the loop goes on, a round's worth of room and of choices is left *)
  assert (Hleft : forall st m, Inv8 n0 cap st m -> 100 * blen (fbuf st) < 95 * bcap (fbuf st) ->
            blen (fbuf st) + 14 <= cap /\ (26 <= m)%nat).
  { intros st m (text & k & nls & cms & nl & cm & -> & _ & _ & _ & Hnl & _ & Hb). cbn [st8 fbuf blen bcap]. intros H.
    destruct (hd 0 (rev text) =? 10); lia. }
  pose proof (emit_run_rule cap 95 (fun f st cs => exists m, cs = repeat 8 m /\ Inv8 n0 cap st m /\ (m + 2 <= f)%nat)
                (S n) (repeat 8 n)) as H.
  destruct (emit_run (S n) (repeat 8 n) cap 95) as [s st].
  destruct H as (f' & cs' & (m & -> & I & Hf) & Hs).
  - intros f st0 c cs Hlt (m & E & I & Hf). destruct (Hleft st0 m I Hlt) as [Hroom Hm].
    destruct m as [|m]; [lia|]. destruct f as [|f]; [lia|]. rewrite E.
    destruct (iteration8 n0 cap f st0 (S m) I Hroom Hm) as (st' & n' & -> & I' & Hlt'). exists n'. repeat split; [exact I'|lia].
  - rewrite (repeat_split 8 2 n) by lia. exists (n - 2)%nat. split; [reflexivity|]. split; [|lia].
    exists [], 0, 0, 0, 18, 208. repeat split; try (cbn; lia). constructor.
  - (* neither the choices nor the fuel run out *)
    destruct s; [|destruct Hs as [E Hlt]; destruct (Hleft st m I Hlt) as [_ Hm]; destruct m; [lia|discriminate E]
                 |destruct I as (text & k & nls & cms & nl & cm & -> & _); destruct Hs as [->|Hs]; [lia|discriminate Hs]
                 |lia].
    destruct I as (text & k & nls & cms & nl & cm & -> & Hpt & Hlen & Hcap & Hnl & Hcm & _).
    cbn [st8 fbuf blen bcap fst snd] in *. split; [reflexivity|].
    unfold buf_bytes, buf_text. cbn [brev]. rewrite <- rev_alt, rev_involutive.
    (* 20 nls <= len and 221 cms <= len: more than 0.89 len of the bytes are tokens *)
    assert (Hc : LexDelta.token_capacity (k + nls + 12 * cms) <= k + 1).
    { unfold LexDelta.token_capacity. etransitivity; [apply N.le_min_l|]. apply N.max_lub; [|lia].
      apply N.div_le_upper_bound; lia. }
    pose proof (LexDeltaProofs.lex_delta_solo LexDelta.dec_push k _ Hpt) as H.
    change (LexDelta.lenN (encode text)) with (lenN (encode text)) in H. rewrite Hlen in H.
    destruct (N.ltb_spec (LexDelta.token_capacity (k + nls + 12 * cms)) (k + 2)); [|lia].
    apply H. unfold LexDelta.MAX_SOURCE_LEN. lia.
Qed.

Definition witness_E103 : list choice := repeat 8 (N.to_nat 160000).

Theorem no_glue_error_delta_refuted :
  fst (fuzz_tokens witness_E103 72) = Finished /\
  lex_delta (snd (fuzz_tokens witness_E103 72)) = [err_tok0 E103].
Proof. apply constant_choice_E103; [lia|]. rewrite N2Nat.id. lia. Qed.

Definition tkind_of (k : token_kind) : tkind :=
  match k with
  | TEndOfSource | TError => KError
  | TParenLeft => KParenLeft | TParenRight => KParenRight | TBraceLeft => KBraceLeft
  | TBraceRight => KBraceRight | TBracketLeft => KBracketLeft | TBracketRight => KBracketRight
  | TAngleLeft => KAngleLeft | TAngleRight => KAngleRight | TPipe => KPipe | TAmpersand => KAmpersand
  | TCaret => KCaret | TExclamation => KExclamation | TPlaceholder => KPlaceholder | TPlus => KPlus
  | TMinus => KMinus | TTimes => KTimes | TDivide => KDivide | TModulo => KModulo | TColon => KColon
  | TSemicolon => KSemicolon | TDot => KDot | TComma => KComma | TAssignment => KAssignment
  | TEquals => KEquals | TDoesNotEqual => KDoesNotEqual | TIsGE => KIsGE | TIsLE => KIsLE
  | TShiftLeft => KShiftLeft | TShiftRight => KShiftRight | TArrow => KArrow
  | TPipeForType => KPipeForType | TDots => KDots
  | TFn => KFn | TVar => KVar | TConst => KConst | TIf => KIf | TGoto => KGoto | TLoop => KLoop
  | TReturn => KReturn | TElse => KElse | TCast => KCast | TAs => KAs | TImport => KImport
  | TPub => KPub | TExtern => KExtern | TStruct => KStruct
  | TWord8 => KWord8 | TWord16 => KWord16 | TWord32 => KWord32 | TWord64 => KWord64 | TWord128 => KWord128
  | TValueTypeKeyword => KType
  | TIdentifier => KIdentifier | TBuiltin => KBuiltin
  | TNakedDecimal => KNakedDecimal | TBitInteger => KBitInteger | TSuffixedInteger => KSuffixedInteger
  | TCharLiteral => KCharLiteral | TBoolLiteral => KBool | TStringLiteral => KStringLiteral
  end.

(* the kinds the second-generation lexer finds in the spelling [s] of a token of
   kind [k]: its own kind, except that the identifier `_` is the placeholder *)
Definition expected_delta (k : token_kind) (s : list N) : list tkind :=
  match k with
  | TIdentifier => if list_eqb s [95] then [KPlaceholder] else [KIdentifier]
  | TBuiltin => if list_eqb s [95; 33] then [KPlaceholder; KExclamation] else [KBuiltin]
  | _ => [tkind_of k]
  end.
(* the first generation has no keyword `return` *)
Definition expected_alpha (k : token_kind) (s : list N) : list tkind :=
  match k with
  | TReturn => [KIdentifier]
  | _ => expected_delta k s
  end.

Lemma list_eqb_refl a : list_eqb a a = true.
Proof.
  unfold list_eqb. rewrite Nat.eqb_refl. cbn [andb]. induction a as [|x a IH]; [reflexivity|].
  cbn [combine forallb fst snd]. now rewrite N.eqb_refl, IH.
Qed.
Lemma list_eqb_spec a b : reflect (a = b) (list_eqb a b).
Proof.
  destruct (list_eqb a b) eqn:E; constructor; [now apply list_eqb_eq|]. intros ->. now rewrite list_eqb_refl in E.
Qed.

Lemma number_kinds b sfx : body_value b < 2 ^ 128 -> sfx_ok sfx = true ->
  LexDelta.lenN (encode (body_text b ++ sfx_text sfx)) <= LexDelta.MAX_SOURCE_LEN -> ~ In 10 (body_text b ++ sfx_text sfx) ->
  map kind (lex_delta (encode (body_text b ++ sfx_text sfx))) = [num_kind b sfx] /\
  map kind (lex_alpha (body_text b ++ sfx_text sfx)) = [num_kind b sfx].
Proof.
  intros Hv Hs Hlen Hnl. destruct (FuzzerDeltaProofs.number_lexes b sfx Hv Hs Hlen) as (t & -> & Hk & _).
  destruct (FuzzerAlphaProofs.number_lexes b sfx Hv Hs Hnl) as (t' & -> & Hk' & _). cbn [map]. now rewrite Hk, Hk'.
Qed.

(* that the text is short enough for the second lexer and holds no line feed (the first
   lexer cuts lines) is said once, of every spelling *)
Lemma spelled_lexes k s : spelled k s -> 0 < weight k ->
  map kind (lex_delta (encode s)) = expected_delta k s /\ map kind (lex_alpha s) = expected_alpha k s.
Proof.
  intros H Hw. pose proof (proj2 (FuzzerDeltaProofs.small_source s (spelled_len k s H))) as Hlen.
  pose proof (spelled_no_nl k s H) as Hnl. revert Hlen Hnl.
  destruct H as [k' Hv|t w Hin Hpos|w Hok Hm Hl|w Hok Hm Hl|v Hv|b Hv Hb|b t Hv Ht|i0 Hc|b|items Hall Hl]; intros Hlen Hnl.
  - (* Sp_const *) destruct k'; try discriminate Hv; try (cbn in Hw; lia); vm_compute; split; reflexivity.
  - (* Sp_type *) cbn in Hin.
    repeat (destruct Hin as [Hin|Hin]; [inversion Hin; subst; first [lia|vm_compute; split; reflexivity]|]).
    contradiction.
  - (* Sp_ident *) cbn [expected_alpha expected_delta]. destruct (list_eqb_spec w [95]) as [->|Hne].
    + split; [exact (proj1 FuzzerDeltaProofs.identifier_placeholder)|exact (proj1 FuzzerAlphaProofs.identifier_placeholder)].
    + split; [now apply FuzzerDeltaProofs.identifier_lexes|now apply FuzzerAlphaProofs.identifier_lexes].
  - (* Sp_builtin *) cbn [expected_alpha expected_delta]. destruct (list_eqb_spec (w ++ [33]) [95; 33]) as [E|Hne].
    + apply (app_inj_tail w [95]) in E as [-> _]. split; [exact (proj2 FuzzerDeltaProofs.identifier_placeholder)|exact (proj2 FuzzerAlphaProofs.identifier_placeholder)].
    + assert (Hw95 : w <> [95]) by (intros ->; now apply Hne).
      split; [now apply FuzzerDeltaProofs.builtin_lexes|now apply FuzzerAlphaProofs.builtin_lexes].
  - (* Sp_dec *) rewrite <- (app_nil_r (to_decimal v)) in *. exact (number_kinds (NDec v) None Hv eq_refl Hlen Hnl).
  - (* Sp_bit *) rewrite <- (app_nil_r (body_text b)) in *. destruct b; [discriminate Hb| |]; exact (number_kinds _ None Hv eq_refl Hlen Hnl).
  - (* Sp_sfx *) exact (number_kinds b (Some t) Hv Ht Hlen Hnl).
  - (* Sp_char *) split; [now apply FuzzerDeltaProofs.char_lexes|now apply FuzzerAlphaProofs.char_lexes].
  - (* Sp_bool *) destruct b; vm_compute; split; reflexivity.
  - (* Sp_str *) split; [now apply FuzzerDeltaProofs.string_lexes|now apply FuzzerAlphaProofs.string_lexes].
Qed.

Theorem emit_token_lexes_delta k cs : 0 < weight k ->
  let s := fst (emit_token k cs) in
  map kind (lex_delta (encode s)) = expected_delta k s.
Proof. intros Hw. exact (proj1 (spelled_lexes _ _ (token_spelled k cs) Hw)). Qed.

Theorem emit_token_lexes_alpha k cs : 0 < weight k ->
  let s := fst (emit_token k cs) in
  map kind (lex_alpha s) = expected_alpha k s.
Proof. intros Hw. exact (proj2 (spelled_lexes _ _ (token_spelled k cs) Hw)). Qed.

Theorem emit_number_value cs v text : random_uint cs = (v, text) -> v < 2 ^ 128.
Proof. intros E. pose proof (random_uint_fits cs) as H. now rewrite E in H. Qed.

(* the exceptions are reachable: `random_identifier` can return a lone
   underscore (one round, no lower-case letter, no upper-case letter), which
   both lexers read as the placeholder, and `_!` is placeholder + exclamation *)
Theorem identifier_placeholder_refuted :
  exists cs, 0 < weight TIdentifier /\ fst (emit_token TIdentifier cs) = [95] /\
    map kind (lex_delta (encode (fst (emit_token TIdentifier cs)))) = [KPlaceholder] /\
    map kind (lex_alpha (fst (emit_token TIdentifier cs))) = [KPlaceholder].
Proof. exists [0; 7; 9]. vm_compute. repeat split; reflexivity. Qed.

Theorem builtin_placeholder_refuted :
  exists cs, 0 < weight TBuiltin /\ fst (emit_token TBuiltin cs) = [95; 33] /\
    map kind (lex_delta (encode (fst (emit_token TBuiltin cs)))) = [KPlaceholder; KExclamation] /\
    map kind (lex_alpha (fst (emit_token TBuiltin cs))) = [KPlaceholder; KExclamation].
Proof. exists [0; 7; 9]. vm_compute. repeat split; reflexivity. Qed.

Theorem return_alpha : forall cs,
  map kind (lex_alpha (fst (emit_token TReturn cs))) = [KIdentifier] /\
  map kind (lex_delta (encode (fst (emit_token TReturn cs)))) = [KReturn].
Proof. intros cs. vm_compute. split; reflexivity. Qed.

(* the last byte of a text, as `buffer.bytes().last()` sees it *)
Definition text_last_byte (s : list N) : option N :=
  match rev s with
  | [] => None
  | c :: _ => Some (if c <? 128 then c else 128 + c mod 64)
  end.

(* the separator add_space_if_necessary puts between the spellings [a] and [b] *)
Definition separator (a b : list N) : list N :=
  match b with
  | x :: _ => if needs_space (text_last_byte a) x then [32] else []
  | [] => []
  end.

(* any two spellings, joined by the separator rule alone (no blank, no line
   break, no comment in between), lex without error: either as the tokens of
   the first followed by the tokens of the second, or glued (`-` `>` is `->`,
   `/` `/` starts a comment, `name` `!` is a builtin, ...) *)
Theorem pairwise_no_error k1 k2 cs1 cs2 : 0 < weight k1 -> 0 < weight k2 ->
  let a := fst (emit_token k1 cs1) in
  let b := fst (emit_token k2 cs2) in
  let text := a ++ separator a b ++ b in
  (forall t, In t (lex_alpha text) -> kind t <> KError) /\
  (forall t, In t (lex_delta (encode text)) -> kind t <> KError).
Proof.
  intros Hw1 Hw2. cbv zeta.
  destruct (token_shape k1 cs1) as (B1 & E1 & HB1 & _).
  pose proof (spelled_len _ _ (token_spelled k1 cs1)) as Hl1.
  pose proof (spelled_len _ _ (token_spelled k2 cs2)) as Hl2.
  set (a := fst (emit_token k1 cs1)) in *.
  destruct (fst (emit_token k2 cs2)) as [|x t] eqn:E2; [cbn in Hl2; lia|].
  (* the second spelling is pushed onto a buffer that holds the first: [push_token_good] *)
  set (buf := {| brev := rev a; blen := str_len a; bcap := 0 |}).
  assert (Eb : buf_text buf = a) by (unfold buf_text, buf; cbn [brev]; now rewrite rev_append_rev, rev_involutive, app_nil_r).
  assert (Hg : Good 0 buf) by (split; [exists B1; now rewrite Eb|split; [now rewrite Eb|apply N.le_0_l]]).
  destruct (push_token_good 0 k2 buf cs2 Hg) as [(C & EC & HWC) _].
  destruct (apply_ops_spec (fst (push_token k2 (last_byte buf) cs2)) buf) as (Et & _).
  rewrite Et, Eb, (separator_rule k2 (last_byte buf) cs2 x t Hw2 E2) in EC.
  change (if needs_space (last_byte buf) x then [32] else []) with (separator a (x :: t)) in EC.
  assert (HneC : C <> []) by (intros ->; destruct a; [cbn in Hl1; lia|discriminate EC]).
  rewrite EC. split.
  - apply FuzzerAlphaProofs.alpha_no_error; assumption.
  - apply FuzzerDeltaProofs.delta_no_error_small; [exact HWC|exact HneC|].
    unfold FuzzerDeltaProofs.flatb. rewrite <- EC. pose proof (encode_len (a ++ separator a (x :: t) ++ x :: t)) as Hb.
    rewrite !app_length in Hb. assert (length (separator a (x :: t)) <= 1)%nat by (unfold separator; destruct (needs_space _ _); cbn; lia).
    unfold LexDelta.lenN. lia.
Qed.

Definition tkind_eq_dec (a b : tkind) : {a = b} + {a <> b}.
Proof. decide equality. Defined.
Definition same_kinds (a b : list tkind) : bool := if list_eq_dec tkind_eq_dec a b then true else false.
Definition const_kinds : list token_kind :=
  filter (fun k => negb (variable_kind k) && negb (weight k =? 0)) all_kinds.
Definition glued (lexk : list N -> list tkind) (p : token_kind * token_kind) : bool :=
  let a := const_text (fst p) in
  let b := const_text (snd p) in
  negb (same_kinds (lexk (a ++ separator a b ++ b)) (lexk a ++ lexk b)).

(* [filter (glued lexk)] over all pairs, with each spelling taken and lexed on
   its own once per kind and not once per pair *)
Definition glued_pairs (lexk : list N -> list tkind) (ks : list token_kind) : list (token_kind * token_kind) :=
  let t := map (fun k => (k, const_text k, lexk (const_text k))) ks in
  flat_map (fun '(k1, a, la) =>
    flat_map (fun '(k2, b, lb) =>
      if negb (same_kinds (lexk (a ++ separator a b ++ b)) (la ++ lb)) then [(k1, k2)] else []) t) t.

Lemma filter_list_prod {A B} (f : A * B -> bool) l1 l2 :
  filter f (list_prod l1 l2) = flat_map (fun x => flat_map (fun y => if f (x, y) then [(x, y)] else []) l2) l1.
Proof.
  induction l1 as [|x l1 IH]; [reflexivity|]. cbn [list_prod flat_map]. rewrite filter_app, IH. f_equal. clear IH.
  induction l2 as [|y l2 IH2]; [reflexivity|]. cbn [map filter flat_map]. rewrite IH2. now destruct (f (x, y)).
Qed.

Lemma filter_glued lexk ks : filter (glued lexk) (list_prod ks ks) = glued_pairs lexk ks.
Proof.
  unfold glued_pairs. rewrite filter_list_prod, (flat_map_concat_map _ (map _ ks)), map_map, <- flat_map_concat_map.
  apply flat_map_ext. intros k1. rewrite (flat_map_concat_map _ (map _ ks)), map_map, <- flat_map_concat_map. reflexivity.
Qed.

(* the pairs of constant spellings (punctuation, keywords) that the second
   generation does NOT read as the tokens of the first followed by the tokens of
   the second; the first generation has `return` `!` and `return` `!=` in
   addition (no keyword `return`, hence a builtin); a finite table, evaluated *)
Example glue_pairs_delta :
  map (fun p => (const_text (fst p), const_text (snd p)))
      (filter (glued (fun s => map kind (lex_delta s))) (list_prod const_kinds const_kinds)) =
  map (fun p => (str (fst p), str (snd p)))
      [ ("<", "<"); ("<", "="); ("<", "=="); ("<", "<="); ("<", "<<");
        (">", ">"); (">", "="); (">", "=="); (">", ">="); (">", ">>");
        ("|", ":"); ("!", "="); ("!", "=="); ("-", ">"); ("-", ">="); ("-", ">>");
        ("/", "/"); (".", "."); (".", ".."); ("=", "="); ("=", "==") ]%string.
Proof. rewrite filter_glued. vm_compute. reflexivity. Qed.

Example glue_pairs_alpha :
  map (fun p => (const_text (fst p), const_text (snd p)))
      (filter (glued (fun s => map kind (lex_alpha s))) (list_prod const_kinds const_kinds)) =
  map (fun p => (str (fst p), str (snd p)))
      [ ("<", "<"); ("<", "="); ("<", "=="); ("<", "<="); ("<", "<<");
        (">", ">"); (">", "="); (">", "=="); (">", ">="); (">", ">>");
        ("|", ":"); ("!", "="); ("!", "=="); ("-", ">"); ("-", ">="); ("-", ">>");
        ("/", "/"); (".", "."); (".", ".."); ("=", "="); ("=", "==");
        ("return", "!"); ("return", "!=") ]%string.
Proof. rewrite filter_glued. vm_compute. reflexivity. Qed.

Lemma pick_weighted_reach {A} (d : A) : forall pre a w post, 0 < w ->
  pick_weighted d (pre ++ (a, w) :: post) (total_weight pre) = a.
Proof.
  intros pre. induction pre as [|[a0 w0] pre IH]; intros a w post Hw.
  - cbn. destruct (N.ltb_spec 0 w); [reflexivity|lia].
  - rewrite total_weight_cons. cbn [app pick_weighted].
    destruct (N.ltb_spec (w0 + total_weight pre) w0) as [H|H]; [lia|].
    replace (w0 + total_weight pre - w0) with (total_weight pre) by lia.
    apply IH. exact Hw.
Qed.

Lemma total_weight_app {A} (a b : list (A * N)) : total_weight (a ++ b) = total_weight a + total_weight b.
Proof. induction a as [|[x w] a IH]; [reflexivity|]. cbn [app total_weight fold_right snd] in *. fold (total_weight (a ++ b)). fold (total_weight a). lia. Qed.

Lemma sample_reach {A} (d : A) pre a w post : 0 < w ->
  fst (sample d (pre ++ (a, w) :: post) [total_weight pre]) = a.
Proof.
  intros Hw. unfold sample, draw. cbn [fst]. rewrite N.mod_small.
  - now apply pick_weighted_reach.
  - rewrite total_weight_app. cbn [total_weight fold_right snd]. lia.
Qed.

Theorem token_reachable k : 0 < weight k -> exists c, fst (sample TEndOfSource token_table [c]) = k.
Proof.
  intros Hw. destruct (in_split k all_kinds (all_kinds_complete k)) as (l1 & l2 & E).
  unfold token_table. rewrite E, map_app. cbn [map]. eexists. now apply sample_reach.
Qed.

Theorem token_unreachable cs : 0 < weight (fst (sample TEndOfSource token_table cs)).
Proof.
  destruct (sample_pos TEndOfSource token_table cs ltac:(reflexivity)) as (w & Hin & Hw).
  apply (in_map_iff (fun k => (k, weight k)) all_kinds) in Hin as (k & [= -> <-] & _). exact Hw.
Qed.

Fixpoint lcg (n : nat) (s : N) : list N :=
  match n with
  | O => []
  | S n' =>
      let s' := (s * 6364136223846793005 + 1442695040888963407) mod 18446744073709551616 in
      (s' / 65536) :: lcg n' s'
  end.

(* the same with bit operations in place of the division and the remainder by
   powers of two: the form the two runs below evaluate *)
Fixpoint lcg_bits (n : nat) (s : N) : list N :=
  match n with
  | O => []
  | S n' =>
      let s' := N.land (s * 6364136223846793005 + 1442695040888963407) (N.ones 64) in
      N.shiftr s' 16 :: lcg_bits n' s'
  end.

Lemma lcg_bits_eq n : forall s, lcg n s = lcg_bits n s.
Proof.
  induction n as [|n IH]; intros s; [reflexivity|]. cbn [lcg lcg_bits]. rewrite IH, N.land_ones, N.shiftr_div_pow2.
  reflexivity.
Qed.

Definition count_errors (l : list tok) : N :=
  N.of_nat (length (filter (fun t => match kind t with KError => true | _ => false end) l)).

(* one concrete run, evaluated; the capacity doubled on the way (a push overflowed the 1096
   bytes before 95% were reached) *)
Example run_lcg :
  let r := emit_run 4000 (lcg 3000 7) 1096 95 in
  let text := buf_text (fbuf (snd r)) in
  let src := encode text in
  fst r = Finished /\ lenN text = 2034 /\ lenN src = 2085 /\ bcap (fbuf (snd r)) = 2192 /\
  count_errors (lex_delta src) = 0 /\ count_errors (lex_alpha text) = 0 /\
  N.of_nat (length (lex_delta src)) = 432 /\ N.of_nat (length (lex_alpha text)) = 432.
Proof. rewrite lcg_bits_eq. vm_compute. repeat split; reflexivity. Qed.

(* do_fuzzing with kb = 1 and another seed *)
Example run_fuzz_tokens :
  let r := fuzz_tokens (lcg 2500 2024) 1 in
  fst r = Finished /\ 1024 <= lenN (snd r) /\ count_errors (lex_delta (snd r)) = 0.
Proof. rewrite lcg_bits_eq. vm_compute. repeat split; try reflexivity; discriminate. Qed.

Print Assumptions needs_space_exact.
Print Assumptions no_glue_error_alpha.
Print Assumptions no_glue_error_delta.
Print Assumptions no_glue_error_delta_loop.
Print Assumptions no_glue_error_delta_small.
Print Assumptions no_glue_error_delta_refuted.
Print Assumptions emit_token_lexes_delta.
Print Assumptions emit_token_lexes_alpha.
Print Assumptions pairwise_no_error.
Print Assumptions emit_utf8.
Print Assumptions size_at_least.
Print Assumptions fuzz_tokens_correct.
Print Assumptions token_reachable.
Print Assumptions fuzz_tokens_fuel.
Print Assumptions fuzz_tokens_status.
Print Assumptions token_spelled.
Print Assumptions emit_atoms.
