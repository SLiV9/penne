(* The first-generation lexer (Model/LexAlpha.v, lex_alpha_fixed) on the text of
   the token fuzzer (Model/Fuzzer.v): every well-formed atom sequence
   (FuzzerShapeProofs.WF) is tokenised without a single lexical error.

   The lexer works line by line.  On a line without line-break atoms one step
   consumes whole atoms ([alpha_step], [alpha_line]); str::lines cuts an atom
   sequence into such lines ([alpha_lines]), where a comment that ends in a
   carriage return loses it to the line terminator.  Which characters items
   and atoms consist of is said in FuzzerShapeProofs. *)
From Coq Require Import Ascii String.
From PV Require Import Base.Common Base.IR Base.Tok.
From PV Require Import Model.Fuzzer Proofs.FuzzerShapeProofs.
From PV Require Import Model.LexAlpha Proofs.LexAlphaProofs.
From PV Require Model.LexDelta Proofs.LexDeltaProofs Proofs.LexAgreeProofs.
Open Scope N_scope.

(* [digits] is used through its lemmas only: transparent, conversion would unfold its fuel of 129 *)
Opaque digits.

Lemma dec_digit_char d : d < 10 -> digit_val (dec_char d) = Z.of_N d /\ is_dec (dec_char d) = true.
Proof.
  intros H. assert (E : is_dec (dec_char d) = true) by now apply N_between_iff, dec_char_range.
  split; [|exact E]. unfold digit_val. rewrite E. f_equal. unfold dec_char. lia.
Qed.

Lemma is_hex_range h : 48 <= h <= 57 \/ 97 <= h <= 102 \/ 65 <= h <= 70 -> is_hex h = true.
Proof.
  intros H. unfold is_hex, is_dec, in_range. rewrite !orb_true_iff, !N_between_iff. tauto.
Qed.

(* [digit_val] is [hex_digit_val] as an integer, by conversion *)
Lemma hex_digit_char u d : d < 16 -> digit_val (hex_char u d) = Z.of_N d /\ is_hex (hex_char u d) = true.
Proof.
  intros H. split; [exact (f_equal Z.of_N (hex_digit_val_char u d H))|].
  apply is_hex_range. pose proof (hex_char_range u d H). destruct u; lia.
Qed.

Lemma bin_digit_char d : d < 2 -> digit_val (dec_char d) = Z.of_N d /\ is_bin (dec_char d) = true.
Proof. intros H. assert (Hc : d = 0 \/ d = 1) by lia. destruct Hc as [->| ->]; split; reflexivity. Qed.

Lemma sfx_in_table t : sfx_ok (Some t) = true -> exists p, In (vt_display t, p) suffix_table.
Proof.
  destruct t; try discriminate; intros _; eexists; unfold suffix_table; cbn [In];
    repeat (first [left; reflexivity|right]).
Qed.

(* the suffix the fuzzer writes is none or one of the table: it may follow the digits of every
   base, and the payload of a value that fits is the value *)
Lemma sfx_spec b sfx : body_value b < 2 ^ 128 -> sfx_ok sfx = true ->
  (sfx_text sfx = [] \/
   suffix_shape is_dec (sfx_text sfx) = true /\ suffix_shape is_hex (sfx_text sfx) = true /\
   suffix_shape is_bin (sfx_text sfx) = true /\ not_radix (sfx_text sfx)) /\
  exists ty, num_payload false (num_kind b None) (Z.of_N (body_value b)) (sfx_text sfx) =
             (num_kind b sfx, Z.of_N (body_value b), ty).
Proof.
  intros Hv Hs. unfold num_payload.
  replace (Z.of_N (body_value b) <? 2 ^ 128)%Z with true by (symmetry; apply Z.ltb_lt; change (2 ^ 128)%Z with (Z.of_N (2 ^ 128)); lia).
  destruct sfx as [t|]; cbn [sfx_text]; [|split; [now left|eauto]].
  destruct (sfx_in_table t Hs) as [p Hp]. destruct (suffix_table_shape _ p Hp) as (Hpp & Hh & Hd & Hb & Hn).
  split; [right; auto|]. rewrite Hpp. destruct (vt_display t); [discriminate Hd|eauto].
Qed.

Lemma num_step b sfx tail :
  body_value b < 2 ^ 128 -> sfx_ok sfx = true -> stops tail ->
  exists x r0, body_text b ++ sfx_text sfx = x :: r0 /\
  exists ty n, lex_step x (r0 ++ tail) = StTok (num_kind b sfx) (Z.of_N (body_value b)) ty [] n tail.
Proof.
  intros Hv Hs Ht. destruct (sfx_spec b sfx Hv Hs) as (Hshape & ty & Hpay).
  destruct b as [v|u v|v]; cbn [body_text body_value num_kind] in *.
  - (* decimal *)
    destruct (digits_spec 10 v ltac:(lia) Hv) as (Hval & Hall & d & ds & E & Hd1).
    unfold to_decimal. rewrite E in Hall, Hval |- *. cbn [map app].
    eexists _, _. split; [reflexivity|]. rewrite <- app_assoc.
    destruct (N.eq_dec v 0) as [->|Hv0].
    + rewrite digits_zero in E by lia. injection E as <- <-. cbn [map app].
      change (lex_step (dec_char 0) ?r) with (lex_zero r). change (Z.of_N 0) with 0%Z in *. rewrite lex_zero_spec, Hpay; [cbn; eauto| | |exact Ht].
      * destruct Hshape as [->|(H & _)]; [reflexivity|]. now apply andb_true_iff in H.
      * destruct Hshape as [->|(_ & _ & _ & H)]; [now apply stops_not_radix|]. destruct (sfx_text sfx); [now apply stops_not_radix|exact H].
    + destruct (digit_chars is_dec dec_char 10 10 ds eq_refl eq_refl (Forall_inv_tail Hall) dec_digit_char) as (Hus & Hstrip & _).
      destruct (digit_chars is_dec dec_char 10 10 (d :: ds) eq_refl eq_refl Hall dec_digit_char) as (_ & _ & Hvalue).
      rewrite Hval in Hvalue. cbn [map] in Hvalue. rewrite <- Hstrip in Hvalue.
      rewrite lex_decimal_spec, Hvalue, Hpay; [cbn; eauto| |exact Hus|tauto|exact Ht].
      pose proof (Forall_inv Hall) as Hd. cbv beta in Hd. specialize (Hd1 ltac:(lia)). apply N_between_iff. unfold dec_char. lia.
  - (* hexadecimal *)
    destruct (digits_spec 16 v ltac:(lia) Hv) as (Hval & Hall & d & ds & E & _).
    eexists _, _. split; [reflexivity|]. cbn [app]. rewrite <- app_assoc. unfold to_hex.
    destruct (digit_chars is_hex (hex_char u) 16 16 _ eq_refl eq_refl Hall (hex_digit_char u)) as (Hus & Hstrip & Hvalue).
    rewrite Hval, <- Hstrip in Hvalue.
    change (lex_step 48 (120 :: ?r)) with (lex_radix is_hex 16 120 r).
    rewrite (lex_radix_spec is_hex 16 120 _ _ tail eq_refl hex_valid hex_is_cont (or_introl eq_refl) Hus), Hvalue, Hstrip, E;
      [cbn [map is_nil]; rewrite Hpay; cbn; eauto|tauto|exact Ht].
  - (* binary *)
    destruct (digits_spec 2 v ltac:(lia) Hv) as (Hval & Hall & d & ds & E & _).
    eexists _, _. split; [reflexivity|]. cbn [app]. rewrite <- app_assoc. unfold to_binary.
    destruct (digit_chars is_bin dec_char 2 2 _ eq_refl eq_refl Hall bin_digit_char) as (Hus & Hstrip & Hvalue).
    rewrite Hval, <- Hstrip in Hvalue.
    change (lex_step 48 (98 :: ?r)) with (lex_radix is_bin 2 98 r).
    rewrite (lex_radix_spec is_bin 2 98 _ _ tail eq_refl bin_valid bin_is_cont (or_intror eq_refl) Hus), Hvalue, Hstrip, E;
      [cbn [map is_nil]; rewrite Hpay; cbn; eauto|tauto|exact Ht].
Qed.

Lemma hexval_value ds : value_of_digits 16 ds = Z.of_N (hexval ds).
Proof. apply (value_of_digits_horner 16). now rewrite map_map. Qed.

Lemma fitem_item_ok q i0 : (q = 39 \/ q = 34) -> fitem_ok i0 = true -> item_ok q i0 = true.
Proof.
  intros Hq Hok. apply fitem_ok_inv in Hok. destruct i0 as [c|c b|h1 h2|ds]; cbn [item_ok].
  - assert (Hc : c <> 92 /\ c <> q /\ (c = 32 \/ 33 <= c <= 126 \/ 127 < c)) by (destruct Hq; subst q; lia).
    destruct Hc as (H92 & Hcq & Hc). apply N.eqb_neq in H92, Hcq. rewrite H92, Hcq. cbn [negb andb].
    destruct Hc as [->|[Hc|Hc]]; [reflexivity| |].
    + apply N_between_iff in Hc. change (is_ascii_graphic c) with ((33 <=? c) && (c <=? 126)). now rewrite Hc, orb_true_r.
    + apply N.leb_gt in Hc. unfold is_ascii. rewrite Hc. apply orb_true_r.
  - cbn in Hok. repeat (destruct Hok as [Hok|Hok]; [inversion Hok; reflexivity|]). contradiction.
  - destruct Hok as [H1 H2]. apply is_hex_upper_iff in H1, H2. rewrite !is_hex_range by lia. reflexivity.
  - destruct Hok as (Hall & Hlen & Hsc). apply andb_true_iff. split; [apply andb_true_iff; split|].
    + apply forallb_forall. intros x Hx. rewrite forallb_forall in Hall. specialize (Hall x Hx).
      apply is_hex_lower_iff in Hall. apply is_hex_range. lia.
    + destruct ds; [rewrite lenN_nil in Hlen; lia|reflexivity].
    + rewrite hexval_value. apply scalar_iff in Hsc. unfold is_scalar. apply orb_true_iff.
      destruct Hsc; [left; apply Z.ltb_lt; lia|right; apply andb_true_iff; split; [apply Z.leb_le|apply Z.ltb_lt]; lia].
Qed.

Lemma char_step i0 tail : citem_ok i0 = true ->
  exists v n, lex_step 39 (render i0 ++ 39 :: tail) = StTok KCharLiteral v None [] n tail.
Proof.
  intros Hc. unfold citem_ok in Hc. apply andb_true_iff in Hc as [Hok Hshape].
  pose proof (escape_decode_char [i0] tail) as H. unfold LexAlphaProofs.renders, decodes in H.
  cbn [flat_map forallb] in H. rewrite !app_nil_r in H.
  rewrite H by (rewrite (fitem_item_ok 39 i0 (or_introl eq_refl) Hok); reflexivity).
  destruct i0 as [c|c b|h1 h2|ds]; cbn [decode].
  - apply N.ltb_lt in Hshape. rewrite utf8_ascii by (apply N.leb_le; lia). eauto.
  - eauto.
  - eauto.
  - discriminate.
Qed.

Lemma string_step items tail : forallb fitem_ok items = true ->
  exists bs n, lex_step 34 (renders items ++ 34 :: tail) = StTok KStringLiteral 0%Z None bs n tail.
Proof.
  intros Hall. rewrite escape_decode; [eauto|].
  apply forallb_forall. intros i0 Hi. rewrite forallb_forall in Hall. apply fitem_item_ok; [now right|auto].
Qed.

Lemma lex_step_ident x rest : is_ident_start x = true -> lex_step x rest = lex_word x rest.
Proof.
  intros Hx.
  assert (Hne : forall c, is_ident_start c = false -> (x =? c) = false).
  { intros c Hc. apply N.eqb_neq. intros ->. congruence. }
  unfold lex_step. rewrite !Hne by reflexivity. now rewrite Hx.
Qed.

Lemma lex_step_word x w tail : atom_ok (AWord (x :: w)) = true -> stops tail ->
  lex_step x (w ++ tail) =
  let n := 1 + len w in
  match classify_word (x :: w) with
  | Some (k, v, ty) => StTok k v ty [] n tail
  | None =>
      match tail with
      | y :: r' => if y =? 33 then StTok KBuiltin 0%Z None [] (n + 1) r' else StTok KIdentifier 0%Z None [] n tail
      | [] => StTok KIdentifier 0%Z None [] n tail
      end
  end.
Proof.
  cbn [atom_ok forallb]. intros Hok Ht. apply andb_true_iff in Hok as [Hx Hw]. apply andb_true_iff in Hw as [_ Hw].
  rewrite lex_step_ident by exact Hx. unfold lex_word. now rewrite take_ident_app.
Qed.

(* The punctuation of the fuzzer is the second lexer's table of punctuation, whose entries
   are also what the first lexer does (LexAgreeProofs.punct_agree): every character but the
   slash is a key, and the second characters of its entry are such characters again. *)
Lemma punct_entry c : is_punct c = true -> c <> 47 ->
  exists seconds k1, LexDelta.assoc_N c LexDelta.punct_table = Some (seconds, k1) /\
    forall y k2, LexDelta.assoc_N y seconds = Some k2 -> is_punct y = true /\ y <> 47.
Proof.
  intros Hp H47.
  assert (Hall : forallb (fun c => (c =? 47) || match LexDelta.assoc_N c LexDelta.punct_table with
                                               | Some (seconds, _) => forallb (fun p => is_punct (fst p) && negb (fst p =? 47)) seconds
                                               | None => false
                                               end) punct_chars = true) by reflexivity.
  rewrite forallb_forall in Hall. specialize (Hall c (punct_cases c Hp)).
  apply N.eqb_neq in H47. rewrite H47 in Hall. cbn [orb] in Hall.
  destruct (LexDelta.assoc_N c LexDelta.punct_table) as [[seconds k1]|]; [|discriminate]. exists seconds, k1.
  split; [reflexivity|]. intros y k2 Hy%LexDeltaProofs.assoc_N_In.
  rewrite forallb_forall in Hall. apply Hall, andb_true_iff in Hy as [H1 H2%negb_true_iff%N.eqb_neq]. now split.
Qed.

Lemma flatc_head a A : atom_ok a = true ->
  exists x t, spell a = x :: t /\ is_ident_cont x = wordy a /\ flatc (a :: A) = x :: t ++ flatc A.
Proof.
  intros Hok. destruct (atom_first a Hok) as (x & t & E & Hw & _). exists x, t.
  repeat split; try assumption. cbn [flatc flat_map]. now rewrite E.
Qed.

Lemma stops_flatc A : WF A -> first_wordy A = false -> stops (flatc A).
Proof.
  intros HW Hf. destruct A as [|a A]; [exact I|].
  destruct (flatc_head a A (WF_head _ _ HW)) as (x & t & _ & Hw & ->).
  cbn [stops first_wordy] in *. now rewrite Hw.
Qed.

Lemma first_punct a A x t : WF (a :: A) -> flatc (a :: A) = x :: t -> is_punct x = true -> x <> 47 ->
  a = APunct x /\ t = flatc A.
Proof.
  intros HW E Hp H47. pose proof (WF_head _ _ HW) as Hok.
  destruct (flatc_head a A Hok) as (x' & t' & Es & _ & Eh). rewrite Eh in E. inversion E; subst x' t.
  destruct (spell_punct a x t' Hok Es Hp H47) as [-> ->]. split; reflexivity.
Qed.

(* what the step at the first character of an atom does, [r] being the rest of that atom
   followed by [flatc A]: it drops the rest of the line (a comment starts), skips a blank, or
   yields a token that is no error and leaves [flatc A'].  [A'] is [A], or the tail of [A] when
   the token took the punctuation atom at its head with it: hence the bound on the length, on
   which [alpha_line] does its induction *)
Inductive step_good (A : list atom) (r : list N) : step -> Prop :=
| SG_end : step_good A r StEnd
| SG_skip : r = flatc A -> step_good A r StSkip
| SG_tok k v ty bs n A' : k <> KError -> (length A' <= length A)%nat -> WF A' -> noNL A' = true ->
    step_good A r (StTok k v ty bs n (flatc A')).

Theorem alpha_step a A x r : WF (a :: A) -> noNL (a :: A) = true -> flatc (a :: A) = x :: r ->
  step_good A r (lex_step x r).
Proof.
  intros HW Hnl E. pose proof (WF_head _ _ HW) as Hok. pose proof (WF_tail _ _ HW) as HWt.
  cbn [noNL forallb] in Hnl. apply andb_true_iff in Hnl as [Hna HnlA]. fold (noNL A) in HnlA.
  cbn [flatc flat_map] in E. fold (flatc A) in E.
  assert (Hstops : wordy a = true -> stops (flatc A)).
  { intros Hw. apply stops_flatc; [exact HWt|]. exact (WF_next_not_wordy _ _ HW Hw). }
  assert (Hsame : forall k v ty bs n rest, rest = flatc A -> k <> KError -> step_good A r (StTok k v ty bs n rest)).
  { intros k v ty bs n rest -> Hk. apply SG_tok; [assumption|lia|exact HWt|exact HnlA]. }
  (* the token also takes the punctuation character [z] that starts the next atom *)
  assert (Hnext : forall k v ty bs n z r', k <> KError -> flatc A = z :: r' -> is_punct z = true -> z <> 47 ->
            step_good A r (StTok k v ty bs n r')).
  { intros k v ty bs n z r' Hk EA Hz Hz47. destruct A as [|a2 A2]; [discriminate EA|].
    destruct (first_punct a2 A2 z r' HWt EA Hz Hz47) as [-> ->].
    apply SG_tok; [exact Hk|cbn [length]; lia|exact (WF_tail _ _ HWt)|].
    cbn [noNL forallb] in HnlA. apply andb_true_iff in HnlA. tauto. }
  destruct a as [c|cr|c|w|b sfx|i0|items|body]; cbn [atom_ok spell nl_atom negb wordy] in *; try discriminate.
  - (* blank *)
    inversion E; subst x r. rewrite blank_step by exact (ws_cases c Hok). now apply SG_skip.
  - (* punctuation *)
    inversion E; subst x r. destruct (N.eq_dec c 47) as [->|H47].
    + (* the slash: a comment if the next atom starts with another *)
      rewrite LexAgreeProofs.slash_agree. unfold LexAgreeProofs.slash_spec.
      destruct (flatc A) as [|y r'] eqn:EA; [now apply Hsame|]. destruct (y =? 47); [apply SG_end|now apply Hsame].
    + destruct (punct_entry c Hok H47) as (seconds & k1 & Ha & Hsec).
      rewrite (LexAgreeProofs.punct_agree c seconds k1 _ Ha). unfold LexAgreeProofs.punct_spec.
      destruct (LexDeltaProofs.punct_kinds c seconds k1 Ha) as [Hk1 Hk2].
      destruct (flatc A) as [|y r'] eqn:EA; [now apply Hsame|].
      destruct (LexDelta.assoc_N y seconds) as [k2|] eqn:Hy; [|now apply Hsame].
      destruct (Hsec _ _ Hy) as [Hyp Hy47]. exact (Hnext _ _ _ _ _ y r' (proj1 (Hk2 _ _ Hy)) eq_refl Hyp Hy47).
  - (* word *)
    destruct w as [|x0 w]; [discriminate|]. cbn [app] in E. inversion E; subst x r. clear E.
    rewrite (lex_step_word x0 w (flatc A) Hok (Hstops eq_refl)). cbv zeta.
    destruct (classify_word (x0 :: w)) as [[[k v] ty]|] eqn:Ec.
    + apply Hsame; [reflexivity|]. eapply classify_word_kind; eassumption.
    + destruct (flatc A) as [|y r'] eqn:EA; [now apply Hsame|].
      destruct (N.eqb_spec y 33) as [->|Hy]; [|now apply Hsame].
      apply (Hnext _ _ _ _ _ 33 r'); [discriminate|reflexivity|reflexivity|discriminate].
  - (* number *)
    apply andb_true_iff in Hok as [Hv Hsfx]. apply N.ltb_lt in Hv.
    destruct (num_step b sfx (flatc A) Hv Hsfx (Hstops eq_refl)) as (x1 & r1 & Et & ty & n & Hs).
    rewrite Et in E. cbn [app] in E. inversion E; subst x r. rewrite Hs.
    apply Hsame; [reflexivity|]. destruct sfx; [discriminate|destruct b; discriminate].
  - (* char literal *)
    cbn [app] in E. rewrite <- app_assoc in E. cbn [app] in E. inversion E; subst x r. clear E.
    destruct (char_step i0 (flatc A) Hok) as (v & n & ->). now apply Hsame.
  - (* string literal *)
    cbn [app] in E. rewrite <- app_assoc in E. cbn [app] in E. inversion E; subst x r. clear E.
    destruct (string_step items (flatc A) Hok) as (bs & n & ->). now apply Hsame.
  - (* comment *)
    cbn [app] in E. inversion E; subst x r. apply SG_end.
Qed.

Definition pay_ok (p : payl) : Prop := let '(k, _, _, _) := p in k <> KError.

Theorem alpha_line A : WF A -> noNL A = true -> Forall pay_ok (pays_of (flatc A)).
Proof.
  induction A as [A IH] using (induction_ltof1 _ (@length atom)). unfold ltof in IH. intros HW Hnl.
  destruct A as [|a A]; [constructor|]. cbn [length] in IH.
  destruct (flatc_head a A (WF_head _ _ HW)) as (x & t & _ & _ & E).
  rewrite E, pays_of_cons.
  pose proof (alpha_step a A x _ HW Hnl E) as Hg.
  inversion Hg as [Hs|Er Hs|k v ty bs m A' Hk Hlen HW' Hnl' Hs]; rewrite <- Hs in *.
  - constructor.
  - rewrite Er. apply IH; [lia|exact (WF_tail _ _ HW)|].
    cbn [noNL forallb] in Hnl. apply andb_true_iff in Hnl. tauto.
  - cbn [step_payload rest_of app]. constructor; [exact Hk|]. apply IH; [lia|exact HW'|exact Hnl'].
Qed.

Definition LineOK (l : list N) : Prop := exists seg, l = flatc seg /\ WF seg /\ noNL seg = true.

Lemma strip_cr_flatc seg : WF seg -> noNL seg = true -> LineOK (strip_cr (flatc seg)).
Proof.
  intros HW Hnl. destruct seg as [|a seg0] using rev_ind; [exists []; repeat split; reflexivity|]. clear IHseg0.
  destruct (WF_app_inv _ _ HW) as [HW0 HWa]. pose proof (WF_head _ _ HWa) as Hok.
  unfold noNL in Hnl. rewrite forallb_app in Hnl. apply andb_true_iff in Hnl as [Hnl0 Hnla].
  cbn [forallb] in Hnla. rewrite andb_true_r in Hnla. apply negb_true_iff in Hnla.
  destruct (atom_first a Hok) as (x & t & Es & _).
  assert (Hlast : exists s c, spell a = s ++ [c]).
  { rewrite Es. destruct (exists_last (l := x :: t) ltac:(discriminate)) as (s & c & ->). eauto. }
  destruct Hlast as (s & c & Esc).
  rewrite flatc_app. cbn [flatc flat_map]. rewrite app_nil_r, Esc, app_assoc, strip_cr_snoc.
  destruct (N.eqb_spec c 13) as [->|Hc].
  - destruct (atom_ctl a Hok Hnla 13) as [_ Hcm]; [rewrite Esc; apply in_app_iff; right; now left|].
    destruct (Hcm eq_refl) as (body & ->). cbn [spell] in Esc.
    assert (Hb : exists body', body = body' ++ [13] /\ s = 47 :: 47 :: body').
    { destruct body as [|b0 body] using rev_ind.
      - exfalso. change [47; 47] with ([47] ++ [47]) in Esc. apply app_inj_tail in Esc as [_ Esc]. discriminate.
      - exists body. change (47 :: 47 :: body ++ [b0]) with ((47 :: 47 :: body) ++ [b0]) in Esc.
        apply app_inj_tail in Esc as [<- <-]. split; reflexivity. }
    destruct Hb as (body' & -> & ->).
    exists (seg0 ++ [AComment body']). split; [|split].
    + rewrite flatc_app. cbn [flatc flat_map spell]. now rewrite app_nil_r.
    + apply WF_app; [exact HW0| |apply andb_false_r]. apply WF_single. cbn [atom_ok] in *.
      rewrite forallb_app in Hok. apply andb_true_iff in Hok. tauto.
    + unfold noNL. rewrite forallb_app, Hnl0. reflexivity.
  - exists (seg0 ++ [a]). split; [|split].
    + rewrite flatc_app. cbn [flatc flat_map]. now rewrite app_nil_r, Esc, app_assoc.
    + exact HW.
    + unfold noNL. rewrite forallb_app, Hnl0. cbn [forallb]. now rewrite Hnla.
Qed.

Lemma split_nl A : noNL A = true \/
  exists seg cr rest, A = seg ++ ANl cr :: rest /\ noNL seg = true.
Proof.
  induction A as [|a A IH]; [now left|].
  destruct (nl_atom a) eqn:Ha.
  - right. destruct a; try discriminate. exists [], cr, A. split; reflexivity.
  - destruct IH as [IH|(seg & cr & rest & -> & Hs)].
    + left. cbn [noNL forallb]. rewrite Ha. exact IH.
    + right. exists (a :: seg), cr, rest. split; [reflexivity|]. cbn [noNL forallb]. rewrite Ha. exact Hs.
Qed.

(* by induction on the length: what follows a line break is a suffix, not the tail *)
Theorem alpha_lines A : WF A -> Forall LineOK (lines_of (flatc A)).
Proof.
  induction A as [A IH] using (induction_ltof1 _ (@length atom)). unfold ltof in IH. intros HW.
  destruct (split_nl A) as [Hnl|(seg & cr & rest & -> & Hs)].
  - destruct A as [|a A]; [constructor|].
    rewrite lines_of_no_nl.
    + constructor; [|constructor]. exists (a :: A). auto.
    + now apply flatc_no_nl.
    + destruct (flatc_head a A (WF_head _ _ HW)) as (x & t & _ & _ & ->). discriminate.
  - destruct (WF_app_inv _ _ HW) as [HWs HWr]. pose proof (WF_tail _ _ HWr) as HWrest.
    rewrite app_length in IH. cbn [length] in IH.
    rewrite flatc_app. cbn [flatc flat_map]. fold (flatc rest).
    pose proof (flatc_no_nl seg HWs Hs) as Hno.
    destruct cr; cbn [spell app].
    + change (flatc seg ++ 13 :: 10 :: flatc rest) with (flatc seg ++ [13] ++ 10 :: flatc rest).
      rewrite app_assoc, lines_of_app_nl.
      * rewrite strip_cr_snoc. cbn. constructor; [exists seg; auto|]. apply IH; [lia|exact HWrest].
      * intros H. apply in_app_iff in H as [H|[H|[]]]; [now apply Hno|discriminate].
    + rewrite lines_of_app_nl by exact Hno.
      constructor; [now apply strip_cr_flatc|]. apply IH; [lia|exact HWrest].
Qed.

Theorem alpha_no_error A : WF A -> A <> [] -> forall t, In t (lex_alpha_fixed (flatc A)) -> kind t <> KError.
Proof.
  intros HW Hne t Hin.
  apply (in_map pay) in Hin. rewrite lex_alpha_fixed_lines in Hin.
  assert (Hnil : is_nil (flatc A) = false).
  { destruct A as [|a A]; [congruence|]. now destruct (flatc_head a A (WF_head _ _ HW)) as (x & r & _ & _ & ->). }
  rewrite Hnil, app_nil_r in Hin. apply in_flat_map in Hin as (l & Hl & Hp).
  pose proof (alpha_lines A HW) as Hlines. rewrite Forall_forall in Hlines.
  destruct (Hlines l Hl) as (seg & -> & HWs & Hnl).
  pose proof (alpha_line seg HWs Hnl) as Hpay. rewrite Forall_forall in Hpay.
  exact (Hpay _ Hp).
Qed.

Lemma single_kind x r k v ty bs n : ~ In 10 (x :: r) -> lex_step x r = StTok k v ty bs n [] ->
  map kind (lex_alpha_fixed (x :: r)) = [k].
Proof. intros Hnl Hs. now rewrite (proj2 (lex_alpha_one_token x r k v ty bs n Hnl Hs)). Qed.

Lemma assoc_notin {A} (k : list N) (t : list (list N * A)) : ~ In k (map fst t) -> assoc k t = None.
Proof.
  intros H. destruct (assoc k t) eqn:E; [|reflexivity]. exfalso. exact (H (in_map fst _ _ (assoc_In _ _ _ E))).
Qed.

Lemma keywords_unmarked :
  forallb (fun w => negb (has_marker w) || list_eqb w [95])
          (map fst keyword_table ++ map fst bool_table ++ map fst type_table) = true.
Proof. vm_compute. reflexivity. Qed.

(* an identifier of the fuzzer is no key of the tables: no key but [_] carries a marker *)
Lemma classify_none w : has_marker w = true -> w <> [95] -> classify_word w = None.
Proof.
  intros Hm Hne. pose proof keywords_unmarked as Hnot. rewrite forallb_forall in Hnot. specialize (Hnot w).
  rewrite Hm, !in_app_iff in Hnot. unfold classify_word. rewrite !assoc_notin; [reflexivity|..];
    intros Hin; apply Hne, list_eqb_eq, Hnot; tauto.
Qed.

Theorem identifier_lexes w : atom_ok (AWord w) = true -> has_marker w = true -> w <> [95] -> ~ In 10 w ->
  map kind (lex_alpha_fixed w) = [KIdentifier].
Proof.
  intros Hok Hm Hne Hnl. destruct w as [|x t]; [discriminate|].
  pose proof (lex_step_word x t [] Hok I) as Hstep. rewrite app_nil_r, (classify_none _ Hm Hne) in Hstep.
  exact (single_kind x t _ _ _ _ _ Hnl Hstep).
Qed.

Theorem builtin_lexes w : atom_ok (AWord w) = true -> has_marker w = true -> w <> [95] -> ~ In 10 (w ++ [33]) ->
  map kind (lex_alpha_fixed (w ++ [33])) = [KBuiltin].
Proof.
  intros Hok Hm Hne Hnl. destruct w as [|x t]; [discriminate|]. cbn [app] in *.
  eapply single_kind; [exact Hnl|].
  rewrite (lex_step_word x t [33] Hok eq_refl), (classify_none _ Hm Hne). reflexivity.
Qed.

Theorem identifier_placeholder : map kind (lex_alpha_fixed [95]) = [KPlaceholder] /\
  map kind (lex_alpha_fixed [95; 33]) = [KPlaceholder; KExclamation].
Proof. vm_compute. split; reflexivity. Qed.

Theorem number_lexes b sfx : body_value b < 2 ^ 128 -> sfx_ok sfx = true -> ~ In 10 (body_text b ++ sfx_text sfx) ->
  exists t, lex_alpha_fixed (body_text b ++ sfx_text sfx) = [t] /\ kind t = num_kind b sfx /\
            value t = Z.of_N (body_value b).
Proof.
  intros Hv Hs. destruct (num_step b sfx [] Hv Hs I) as (x & r0 & -> & ty & n & Hstep). intros Hnl.
  rewrite app_nil_r in Hstep.
  rewrite (proj2 (lex_alpha_one_token x r0 _ _ ty [] n Hnl Hstep)). eexists. repeat split.
Qed.

Theorem char_lexes i0 : citem_ok i0 = true -> ~ In 10 (39 :: render i0 ++ [39]) ->
  map kind (lex_alpha_fixed (39 :: render i0 ++ [39])) = [KCharLiteral].
Proof. intros Hok Hnl. destruct (char_step i0 [] Hok) as (v & n & Hstep). exact (single_kind _ _ _ _ _ _ _ Hnl Hstep). Qed.

Theorem string_lexes items : forallb fitem_ok items = true -> ~ In 10 (34 :: renders items ++ [34]) ->
  map kind (lex_alpha_fixed (34 :: renders items ++ [34])) = [KStringLiteral].
Proof. intros Hall Hnl. destruct (string_step items [] Hall) as (bs & n & Hstep). exact (single_kind _ _ _ _ _ _ _ Hnl Hstep). Qed.
