(* Shape of the text produced by Model/Fuzzer.v, independent of any lexer.

   The text is a sequence of ATOMS (blank, line break, punctuation character,
   word, number, char literal, string literal, comment).  [emit_atoms] shows
   that whatever the choices, the buffer is the concatenation of the spellings
   of well-formed atoms ([atom_ok]) in which no two WORDY atoms (word, number)
   are adjacent ([adj_ok]).  FuzzerDeltaProofs.v and FuzzerAlphaProofs.v show
   that each lexer tokenises every such sequence without an error;
   FuzzerProofs.v states the property.

   The way there: every kind of token has a spelling rule ([spelled],
   [token_spelled]), every rule yields a short atom sequence ([spelled_shape]),
   and the loops keep the buffer [Good]. *)
From Coq Require Import Ascii String.
From PV Require Import Base.Common Base.IR Base.Tok Model.Fuzzer.
From PV Require Proofs.LexAlphaProofs.
Open Scope N_scope.

(* the items of a quoted literal and their spelling, as the first lexer's proofs have them *)
Notation sitem := LexAlphaProofs.sitem.
Notation IChar := LexAlphaProofs.IChar.
Notation ISimple := LexAlphaProofs.ISimple.
Notation IHex := LexAlphaProofs.IHex.
Notation IUni := LexAlphaProofs.IUni.
Notation render := LexAlphaProofs.render.
Notation renders := LexAlphaProofs.renders.

Definition lenN (l : list N) : N := N.of_nat (length l).
Lemma lenN_nil : lenN [] = 0.
Proof. reflexivity. Qed.
Lemma lenN_cons y l : lenN (y :: l) = 1 + lenN l.
Proof. unfold lenN. cbn [length]. lia. Qed.
Lemma lenN_app l1 l2 : lenN (l1 ++ l2) = lenN l1 + lenN l2.
Proof. unfold lenN. rewrite app_length. lia. Qed.

Lemma rrange_bounds lo hi cs : lo < hi -> lo <= fst (rrange lo hi cs) < hi.
Proof.
  intros H. unfold rrange. destruct (draw cs) as [c r]. cbn [fst].
  assert (Hm : c mod (hi - lo) < hi - lo) by (apply N.mod_lt; lia).
  set (m := c mod (hi - lo)) in *. clearbody m. lia.
Qed.

Lemma rbool_tl a b cs : snd (rbool a b cs) = tl cs.
Proof. unfold rbool. now destruct cs. Qed.
Lemma rrange_tl a b cs : snd (rrange a b cs) = tl cs.
Proof. unfold rrange. now destruct cs. Qed.
Lemma random_scalar_tl cs : snd (random_scalar cs) = tl cs.
Proof. unfold random_scalar. now destruct cs. Qed.
Lemma sample_tl {A} (d : A) t cs : snd (sample d t cs) = tl cs.
Proof. unfold sample. now destruct cs. Qed.

Lemma total_weight_cons {A} (a : A) w t : total_weight ((a, w) :: t) = w + total_weight t.
Proof. reflexivity. Qed.

Lemma pick_weighted_pos {A} (d : A) t : forall r, r < total_weight t ->
  exists w, In (pick_weighted d t r, w) t /\ 0 < w.
Proof.
  induction t as [|[a w] t IH]; intros r Hr.
  - cbn in Hr. lia.
  - rewrite total_weight_cons in Hr. cbn [pick_weighted].
    destruct (N.ltb_spec r w) as [Hlt|Hge].
    + exists w. split; [now left|lia].
    + destruct (IH (r - w) ltac:(lia)) as (w' & Hin & Hw). exists w'. split; [now right|exact Hw].
Qed.

Lemma sample_pos {A} (d : A) t cs : 0 < total_weight t ->
  exists w, In (fst (sample d t cs), w) t /\ 0 < w.
Proof.
  intros Ht. unfold sample. destruct (draw cs) as [c r]. cbn [fst].
  apply pick_weighted_pos. apply N.mod_lt. lia.
Qed.

(* the value of a digit list, most significant digit first, as the first lexer's proofs have it *)
Notation horner := LexAlphaProofs.horner.
Notation horner_app := LexAlphaProofs.horner_app.

Lemma digits_rev_S f b v :
  digits_rev (S f) b v = if v <? b then [v] else v mod b :: digits_rev f b (v / b).
Proof. reflexivity. Qed.

Lemma digits_rev_spec b : 2 <= b -> forall f v, v < 2 ^ N.of_nat f ->
  horner b (rev (digits_rev (S f) b v)) 0 = v /\
  Forall (fun d => d < b) (digits_rev (S f) b v) /\
  digits_rev (S f) b v <> [] /\
  (1 <= v -> 1 <= last (digits_rev (S f) b v) 0).
Proof.
  intros Hb. assert (Hb0 : b <> 0) by lia. induction f as [|f IH]; intros v Hv.
  - cbn in Hv. assert (v = 0) by lia. subst v. rewrite digits_rev_S.
    destruct (N.ltb_spec 0 b) as [_|Hc]; [|lia]. cbn.
    repeat split; [repeat constructor; lia|discriminate|lia].
  - rewrite digits_rev_S. destruct (N.ltb_spec v b) as [Hlt|Hge].
    + cbn. repeat split; [repeat constructor; assumption|discriminate|auto].
    + assert (Hdiv : v / b < 2 ^ N.of_nat f).
      { rewrite Nat2N.inj_succ, N.pow_succ_r' in Hv. apply N.div_lt_upper_bound; [exact Hb0|]. nia. }
      assert (Hq : 1 <= v / b) by (apply N.div_le_lower_bound; [exact Hb0|lia]).
      destruct (IH (v / b) Hdiv) as (H1 & H2 & H3 & H4).
      cbn [rev]. rewrite horner_app, H1. cbn [horner fold_left].
      repeat split.
      * rewrite N.mul_comm. symmetry. apply N.div_mod, Hb0.
      * constructor; [apply N.mod_lt, Hb0|assumption].
      * discriminate.
      * intros _. destruct (digits_rev (S f) b (v / b)) as [|d l] eqn:E; [congruence|].
        cbn [last]. cbn [last] in H4. apply H4. exact Hq.
Qed.

Lemma digits_spec b v : 2 <= b -> v < 2 ^ 128 ->
  horner b (digits b v) 0 = v /\ Forall (fun d => d < b) (digits b v) /\
  exists d ds, digits b v = d :: ds /\ (1 <= v -> 1 <= d).
Proof.
  intros Hb Hv. unfold digits.
  assert (Hf : v < 2 ^ N.of_nat 128) by exact Hv.
  destruct (digits_rev_spec b Hb 128 v Hf) as (H1 & H2 & H3 & H4).
  revert H1 H2 H3 H4. generalize (digits_rev 129 b v). intros l H1 H2 H3 H4.
  split; [exact H1|]. split; [apply Forall_rev; exact H2|].
  destruct l as [|d l _] using rev_ind; [congruence|].
  rewrite rev_app_distr. exists d, (rev l). split; [reflexivity|].
  intros H. specialize (H4 H). now rewrite last_last in H4.
Qed.

Lemma digits_rev_length b : 2 <= b -> forall f n v, v < b ^ N.of_nat (S n) ->
  (length (digits_rev f b v) <= S n)%nat.
Proof.
  intros Hb. induction f as [|f IH]; intros n v Hv; [cbn; lia|]. rewrite digits_rev_S.
  destruct (N.ltb_spec v b) as [Hlt|Hge]; cbn [length]; [lia|].
  destruct n as [|n].
  - change (N.of_nat 1) with 1 in Hv. rewrite N.pow_1_r in Hv. lia.
  - assert (Hdiv : v / b < b ^ N.of_nat (S n)).
    { rewrite (Nat2N.inj_succ (S n)), N.pow_succ_r' in Hv. apply N.div_lt_upper_bound; [lia|]. exact Hv. }
    specialize (IH n (v / b) Hdiv). lia.
Qed.

Lemma digits_length b v n : 2 <= b -> v < b ^ N.of_nat (S n) -> (length (digits b v) <= S n)%nat.
Proof. intros Hb Hv. unfold digits. rewrite rev_length. now apply digits_rev_length. Qed.

Lemma digits_zero b : 2 <= b -> digits b 0 = [0].
Proof. intros Hb. unfold digits. rewrite digits_rev_S. destruct (N.ltb_spec 0 b); [reflexivity|lia]. Qed.

Lemma digits_length_fuel b v : (length (digits b v) <= 129)%nat.
Proof.
  unfold digits. rewrite rev_length. generalize 129%nat. intros f. revert v.
  induction f as [|f IH]; intros v; [cbn; lia|]. rewrite digits_rev_S.
  destruct (v <? b); cbn [length]; [lia|]. specialize (IH (v / b)). lia.
Qed.

(* [digits] runs on a fuel of 129.  Nothing below unfolds it, and conversion is
   to compare what stands around it before it looks inside. *)
Local Strategy 1 [digits].

Definition scalar (c : N) : bool := (c <? 55296) || ((57344 <=? c) && (c <? 1114112)).
Definition is_word_start (c : N) : bool := in_range 97 122 c || in_range 65 90 c || (c =? 95).
Definition is_hex_upper (c : N) : bool := in_range 48 57 c || in_range 65 70 c.
Definition is_hex_lower (c : N) : bool := in_range 48 57 c || in_range 97 102 c.
Definition hex_digit_val (c : N) : N :=
  if in_range 48 57 c then c - 48 else if in_range 97 102 c then c - 87 else c - 55.
Definition hexval (ds : list N) : N := horner 16 (map hex_digit_val ds) 0.

(* the characters that are tokens by themselves *)
Definition punct_chars : list N := str "(){}[]<>|&^!+-*/%:;.,=".
Definition is_punct (c : N) : bool := existsb (N.eqb c) punct_chars.

(* the escapes escape_default produces *)
Definition simple_escapes : list (N * N) := [(116, 9); (114, 13); (110, 10); (39, 39); (34, 34); (92, 92)].

(* items of quoted literals as the fuzzer writes them *)
Definition fitem_ok (i : sitem) : bool :=
  match i with
  | IChar c =>
      (in_range 32 126 c && negb (c =? 92) && negb (c =? 39) && negb (c =? 34))
      || ((128 <=? c) && scalar c)
  | ISimple c b => existsb (fun p => (fst p =? c) && (snd p =? b)) simple_escapes
  | IHex h1 h2 => is_hex_upper h1 && is_hex_upper h2
  | IUni ds => forallb is_hex_lower ds && (1 <=? lenN ds) && (lenN ds <=? 6) && scalar (hexval ds)
  end.
(* the single item of a char literal: one byte *)
Definition citem_ok (i : sitem) : bool :=
  fitem_ok i && match i with IChar c => c <? 128 | IUni _ => false | _ => true end.

Inductive numbody := NDec (v : N) | NHex (upper : bool) (v : N) | NBin (v : N).
Definition body_text (b : numbody) : list N :=
  match b with
  | NDec v => to_decimal v
  | NHex u v => 48 :: 120 :: to_hex u v
  | NBin v => 48 :: 98 :: to_binary v
  end.
Definition body_value (b : numbody) : N := match b with NDec v | NHex _ v | NBin v => v end.
Definition sfx_text (sfx : option value_type) : list N :=
  match sfx with Some t => vt_display t | None => [] end.
(* a suffix is one of the integer types: those of positive weight in [int_type_table] *)
Definition sfx_ok (sfx : option value_type) : bool :=
  match sfx with Some (VNoKeyword | VVoid | VChar8 | VBool) => false | _ => true end.

(* the token kind a number is expected to lex to *)
Definition num_kind (b : numbody) (sfx : option value_type) : tkind :=
  match sfx with
  | Some _ => KSuffixedInteger
  | None => match b with NDec _ => KNakedDecimal | _ => KBitInteger end
  end.

Inductive atom :=
| AWs (c : N)                                   (* space or tab *)
| ANl (cr : bool)                               (* LF or CR LF *)
| APunct (c : N)
| AWord (w : list N)                            (* [a-zA-Z_][a-zA-Z0-9_]* *)
| ANum (b : numbody) (sfx : option value_type)
| AChar (i : sitem)
| AStr (items : list sitem)
| AComment (body : list N).                     (* two slashes and the body *)

Definition spell (a : atom) : list N :=
  match a with
  | AWs c => [c]
  | ANl cr => if cr then [13; 10] else [10]
  | APunct c => [c]
  | AWord w => w
  | ANum b sfx => body_text b ++ sfx_text sfx
  | AChar i => 39 :: render i ++ [39]
  | AStr items => 34 :: renders items ++ [34]
  | AComment body => 47 :: 47 :: body
  end.
Definition flatc (l : list atom) : list N := flat_map spell l.

Definition atom_ok (a : atom) : bool :=
  match a with
  | AWs c => (c =? 32) || (c =? 9)
  | ANl _ => true
  | APunct c => is_punct c
  | AWord w => match w with x :: _ => is_word_start x | [] => false end && forallb is_ident_cont w
  | ANum b sfx => (body_value b <? 2 ^ 128) && sfx_ok sfx
  | AChar i => citem_ok i
  | AStr items => forallb fitem_ok items
  | AComment body => forallb (fun c => negb (c =? 10) && scalar c) body
  end.

Definition wordy (a : atom) : bool := match a with AWord _ | ANum _ _ => true | _ => false end.
Definition first_wordy (l : list atom) : bool := match l with a :: _ => wordy a | [] => false end.
Fixpoint last_wordy (l : list atom) : bool :=
  match l with
  | [] => false
  | [a] => wordy a
  | _ :: t => last_wordy t
  end.
Fixpoint adj_ok (l : list atom) : bool :=
  match l with
  | [] => true
  | a :: t => negb (wordy a && first_wordy t) && adj_ok t
  end.

Definition WF (l : list atom) : Prop := forallb atom_ok l = true /\ adj_ok l = true.

Lemma flatc_app l1 l2 : flatc (l1 ++ l2) = flatc l1 ++ flatc l2.
Proof. unfold flatc. apply flat_map_app. Qed.

Lemma last_wordy_app l a : last_wordy (l ++ [a]) = wordy a.
Proof.
  induction l as [|b l IH]; [reflexivity|]. cbn [app last_wordy].
  destruct (l ++ [a]) as [|c t] eqn:E; [destruct l; discriminate|]. exact IH.
Qed.

Lemma last_wordy_app2 l1 l2 : l2 <> [] -> last_wordy (l1 ++ l2) = last_wordy l2.
Proof.
  intros Hne. destruct l2 as [|a l2] using rev_ind; [congruence|].
  rewrite app_assoc, !last_wordy_app. reflexivity.
Qed.

Lemma adj_ok_app l1 l2 :
  adj_ok (l1 ++ l2) = adj_ok l1 && adj_ok l2 && negb (last_wordy l1 && first_wordy l2).
Proof.
  induction l1 as [|a l1 IH]; [cbn; now rewrite andb_true_r|].
  cbn [app adj_ok]. rewrite IH. destruct l1 as [|b l1]; cbn [app first_wordy last_wordy]; [|now rewrite !andb_assoc].
  rewrite andb_false_r. cbn [adj_ok andb negb]. rewrite andb_true_r. apply andb_comm.
Qed.

Lemma WF_app l1 l2 : WF l1 -> WF l2 -> last_wordy l1 && first_wordy l2 = false -> WF (l1 ++ l2).
Proof.
  intros [A1 B1] [A2 B2] Hj. split; [now rewrite forallb_app, A1, A2|now rewrite adj_ok_app, B1, B2, Hj].
Qed.

Lemma WF_app_inv l1 l2 : WF (l1 ++ l2) -> WF l1 /\ WF l2.
Proof.
  intros [A B]. rewrite forallb_app in A. rewrite adj_ok_app in B.
  apply andb_true_iff in A as [A1 A2]. apply andb_true_iff in B as [[B1 B2]%andb_true_iff _].
  split; split; assumption.
Qed.

Lemma WF_tail a l : WF (a :: l) -> WF l.
Proof. intros [A B]. cbn [forallb adj_ok] in *. apply andb_true_iff in A, B. split; tauto. Qed.

Lemma WF_head a l : WF (a :: l) -> atom_ok a = true.
Proof. intros [A _]. cbn [forallb] in A. apply andb_true_iff in A. tauto. Qed.

Lemma WF_nil : WF [].
Proof. split; reflexivity. Qed.

Lemma WF_next_not_wordy a A : WF (a :: A) -> wordy a = true -> first_wordy A = false.
Proof.
  intros [_ Hadj] Hw. cbn [adj_ok] in Hadj. apply andb_true_iff in Hadj as [H _].
  rewrite Hw in H. cbn [andb] in H. now apply negb_true_iff in H.
Qed.

(* The character classes as ranges, built with [apply] from the two lemmas
   below: rewriting under [<->] is slow to check. *)
Lemma orb_iff (a b : bool) (P Q : Prop) : (a = true <-> P) -> (b = true <-> Q) -> (a || b = true <-> P \/ Q).
Proof. destruct a, b; cbn; intuition discriminate. Qed.
Lemma andb_iff (a b : bool) (P Q : Prop) : (a = true <-> P) -> (b = true <-> Q) -> (a && b = true <-> P /\ Q).
Proof. destruct a, b; cbn; intuition discriminate. Qed.

Lemma is_ident_cont_iff c : is_ident_cont c = true <->
  ((97 <= c <= 122 \/ 65 <= c <= 90) \/ 48 <= c <= 57) \/ c = 95.
Proof. unfold is_ident_cont. repeat apply orb_iff; try apply N_between_iff. apply N.eqb_eq. Qed.

Lemma is_word_start_iff c : is_word_start c = true <-> (97 <= c <= 122 \/ 65 <= c <= 90) \/ c = 95.
Proof. unfold is_word_start. repeat apply orb_iff; try apply N_between_iff. apply N.eqb_eq. Qed.

Lemma is_hex_upper_iff c : is_hex_upper c = true <-> 48 <= c <= 57 \/ 65 <= c <= 70.
Proof. apply orb_iff; apply N_between_iff. Qed.

Lemma is_hex_lower_iff c : is_hex_lower c = true <-> 48 <= c <= 57 \/ 97 <= c <= 102.
Proof. apply orb_iff; apply N_between_iff. Qed.

Lemma scalar_iff c : scalar c = true <-> c < 55296 \/ 57344 <= c < 1114112.
Proof. apply orb_iff; [apply N.ltb_lt|apply andb_iff; [apply N.leb_le|apply N.ltb_lt]]. Qed.

Lemma is_ident_cont_ascii c : is_ident_cont c = true -> c < 128.
Proof. rewrite is_ident_cont_iff. lia. Qed.

Lemma word_start_cont c : is_word_start c = true -> is_ident_cont c = true.
Proof. rewrite is_word_start_iff, is_ident_cont_iff. lia. Qed.

Lemma dec_char_range d : d < 10 -> 48 <= dec_char d <= 57.
Proof. unfold dec_char. lia. Qed.

Lemma hex_char_range u d : d < 16 ->
  48 <= hex_char u d <= 57 \/ if u then 65 <= hex_char u d <= 70 else 97 <= hex_char u d <= 102.
Proof. intros H. unfold hex_char. destruct (N.ltb_spec d 10), u; lia. Qed.

Lemma hex_char_cont u d : d < 16 -> is_ident_cont (hex_char u d) = true.
Proof. intros H. apply is_ident_cont_iff. pose proof (hex_char_range u d H). destruct u; lia. Qed.

Lemma digits_chars_cont (f : N -> N) b v : 2 <= b -> v < 2 ^ 128 ->
  (forall d, d < b -> is_ident_cont (f d) = true) -> forallb is_ident_cont (map f (digits b v)) = true.
Proof.
  intros Hb Hv Hf. destruct (digits_spec b v Hb Hv) as (_ & Hall & _).
  apply forallb_forall. intros c Hc. apply in_map_iff in Hc as (d & <- & Hd).
  rewrite Forall_forall in Hall. apply Hf, Hall, Hd.
Qed.

Lemma dec_char_cont d : d < 10 -> is_ident_cont (dec_char d) = true.
Proof. intros H. apply is_ident_cont_iff. pose proof (dec_char_range d H). lia. Qed.

Lemma vt_display_cont t : forallb is_ident_cont (vt_display t) = true.
Proof. destruct t; reflexivity. Qed.

Lemma body_text_cont b : body_value b < 2 ^ 128 -> forallb is_ident_cont (body_text b) = true.
Proof.
  intros Hv. destruct b as [v|u v|v]; cbn [body_text body_value] in *.
  - apply digits_chars_cont; [lia|exact Hv|]. apply dec_char_cont.
  - cbn [forallb]. change (is_ident_cont 48) with true. change (is_ident_cont 120) with true. cbn [andb].
    apply digits_chars_cont; [lia|exact Hv|]. apply hex_char_cont.
  - cbn [forallb]. change (is_ident_cont 48) with true. change (is_ident_cont 98) with true. cbn [andb].
    apply digits_chars_cont; [lia|exact Hv|]. intros d Hd. apply dec_char_cont. lia.
Qed.

Lemma body_text_head b : body_value b < 2 ^ 128 -> exists x r, body_text b = x :: r /\ in_range 48 57 x = true.
Proof.
  intros Hv. destruct b as [v|u v|v]; cbn [body_text body_value] in *.
  - destruct (digits_spec 10 v ltac:(lia) Hv) as (_ & Hall & d & ds & E & _).
    unfold to_decimal. rewrite E. cbn [map]. eexists _, _. split; [reflexivity|].
    rewrite E in Hall. inversion Hall; subst. now apply N_between_iff, dec_char_range.
  - eexists _, _. split; reflexivity.
  - eexists _, _. split; reflexivity.
Qed.

Lemma wordy_spell_cont a : atom_ok a = true -> wordy a = true -> forallb is_ident_cont (spell a) = true.
Proof.
  destruct a as [c|cr|c|w|b sfx|i|items|body]; try discriminate; intros Hok _; cbn [atom_ok spell] in *.
  - now apply andb_true_iff in Hok.
  - apply andb_true_iff in Hok as [H1%N.ltb_lt _].
    rewrite forallb_app, body_text_cont by exact H1. destruct sfx as [t|]; [apply vt_display_cont|reflexivity].
Qed.

Lemma punct_cases c : is_punct c = true -> In c punct_chars.
Proof. exact (proj1 (mem_name_In c punct_chars)). Qed.

(* a punctuation character is ASCII and starts no word, blank, line break or quoted literal *)
Lemma punct_char c : is_punct c = true ->
  is_ident_cont c = false /\ c < 128 /\ c <> 32 /\ c <> 9 /\ c <> 10 /\ c <> 13 /\ c <> 39 /\ c <> 34.
Proof.
  intros Hin%punct_cases.
  assert (Hall : forallb (fun y => negb (is_ident_cont y) && (y <? 128) && negb (existsb (N.eqb y) [32; 9; 10; 13; 39; 34]))
                   punct_chars = true) by reflexivity.
  rewrite forallb_forall in Hall.
  apply Hall in Hin. apply andb_true_iff in Hin as [[H1%negb_true_iff H2%N.ltb_lt]%andb_true_iff H3%negb_true_iff].
  repeat split; try assumption; intros ->; discriminate H3.
Qed.

Lemma ws_cases c : (c =? 32) || (c =? 9) = true -> c = 32 \/ c = 9.
Proof. apply orb_iff; apply N.eqb_eq. Qed.

Lemma atom_first a : atom_ok a = true -> exists x r, spell a = x :: r /\ is_ident_cont x = wordy a /\ x < 128.
Proof.
  destruct a as [c|cr|c|w|b sfx|i|items|body]; intros Hok; cbn [atom_ok spell wordy] in *.
  - eexists _, _. split; [reflexivity|]. destruct (ws_cases c Hok) as [->| ->]; split; reflexivity.
  - destruct cr; eexists _, _; repeat split.
  - eexists _, _. split; [reflexivity|]. split; now apply punct_char.
  - destruct w as [|x r]; [discriminate|]. apply andb_true_iff in Hok as [H1%word_start_cont _].
    eexists _, _. split; [reflexivity|]. split; [exact H1|now apply is_ident_cont_ascii].
  - apply andb_true_iff in Hok as [H1 _]. apply N.ltb_lt in H1.
    destruct (body_text_head b H1) as (x & r & E & Hx). rewrite E. cbn [app].
    eexists _, _. split; [reflexivity|]. apply N_between_iff in Hx. split; [apply is_ident_cont_iff|]; lia.
  - eexists _, _. repeat split.
  - eexists _, _. repeat split.
  - eexists _, _. repeat split.
Qed.

Lemma spell_punct a x t : atom_ok a = true -> spell a = x :: t -> is_punct x = true -> x <> 47 ->
  a = APunct x /\ t = [].
Proof.
  intros Hok Es Hp H47. destruct (punct_char x Hp) as (Hc & _ & H32 & H9 & H10 & H13 & H39 & H34).
  destruct (atom_first a Hok) as (x' & t' & Es' & Hw & _). rewrite Es in Es'. inversion Es'; subst x' t'. rewrite Hc in Hw.
  destruct a as [c|cr|c|w|b sfx|i0|items|body]; cbn [spell atom_ok wordy] in *; try discriminate Hw;
    try (inversion Es; congruence).
  - inversion Es; subst. destruct (ws_cases x Hok); congruence.
  - destruct cr; inversion Es; congruence.
  - inversion Es. auto.
Qed.

Lemma fitem_ok_inv i : fitem_ok i = true ->
  match i with
  | IChar c => (32 <= c <= 126 /\ c <> 92 /\ c <> 39 /\ c <> 34) \/ (128 <= c /\ scalar c = true)
  | ISimple c b => In (c, b) simple_escapes
  | IHex h1 h2 => is_hex_upper h1 = true /\ is_hex_upper h2 = true
  | IUni ds => forallb is_hex_lower ds = true /\ 1 <= lenN ds <= 6 /\ scalar (hexval ds) = true
  end.
Proof.
  destruct i as [c|c b|h1 h2|ds]; cbn [fitem_ok]; intros H.
  - apply orb_true_iff in H as [H|H]; [left|right; apply andb_true_iff in H as [H ?]; apply N.leb_le in H; auto].
    apply andb_true_iff in H as [H H34]. apply andb_true_iff in H as [H H39]. apply andb_true_iff in H as [H H92].
    apply N_between_iff in H. apply negb_true_iff, N.eqb_neq in H34, H39, H92. auto.
  - apply existsb_exists in H as ([c' b'] & Hin & H). cbn [fst snd] in H.
    apply andb_true_iff in H as [Hc Hb]. apply N.eqb_eq in Hc, Hb. now subst.
  - now apply andb_true_iff.
  - apply andb_true_iff in H as [H Hsc]. apply andb_true_iff in H as [H H6]. apply andb_true_iff in H as [H H1].
    apply N.leb_le in H1, H6. auto.
Qed.

Lemma ascii_scalar c : c < 128 -> scalar c = true.
Proof. intros H. apply scalar_iff. lia. Qed.

Lemma render_chars i : fitem_ok i = true ->
  Forall (fun z => scalar z = true /\ z <> 10 /\ z <> 13 /\ (128 <= z -> i = IChar z)) (render i).
Proof.
  intros Hok. apply fitem_ok_inv in Hok.
  (* except for a character standing for itself, everything written is printable ASCII *)
  assert (Hasc : forall z, 32 <= z < 128 -> scalar z = true /\ z <> 10 /\ z <> 13 /\ (128 <= z -> i = IChar z)).
  { intros z Hz. split; [apply ascii_scalar|]; lia. }
  assert (Hesc : forallb (fun p => in_range 32 127 (fst p)) simple_escapes = true) by reflexivity.
  destruct i as [c|c b|h1 h2|ds]; cbn [render].
  - constructor; [|constructor]. destruct Hok as [?|[? Hs]]; [apply Hasc; lia|]. repeat split; [exact Hs|lia|lia].
  - rewrite forallb_forall in Hesc. apply Hesc, N_between_iff in Hok. cbn [fst] in Hok.
    repeat (constructor; [apply Hasc; lia|]). constructor.
  - destruct Hok as [H1%is_hex_upper_iff H2%is_hex_upper_iff]. repeat (constructor; [apply Hasc; lia|]). constructor.
  - destruct Hok as (Hall & _). repeat (constructor; [apply Hasc; lia|]).
    apply Forall_app. split; [|repeat constructor; apply Hasc; lia].
    apply Forall_forall. intros z Hz. rewrite forallb_forall in Hall. apply Hall, is_hex_lower_iff in Hz. apply Hasc; lia.
Qed.

Definition nl_atom (a : atom) : bool := match a with ANl _ => true | _ => false end.
Definition noNL (A : list atom) : bool := forallb (fun a => negb (nl_atom a)) A.

(* The characters of an atom are scalar values.  A line feed occurs in line-break
   atoms only; a carriage return elsewhere only in a comment. *)
Lemma atom_chars a : atom_ok a = true -> forall z, In z (spell a) ->
  scalar z = true /\ (nl_atom a = false -> z <> 10 /\ (z = 13 -> exists body, a = AComment body)).
Proof.
  intros Hok z Hz.
  assert (Hplain : scalar z = true /\ z <> 10 /\ z <> 13 ->
            scalar z = true /\ (nl_atom a = false -> z <> 10 /\ (z = 13 -> exists body, a = AComment body))) by tauto.
  assert (Hasc : forall y, z = y -> y < 128 -> y <> 10 -> y <> 13 -> scalar z = true /\ z <> 10 /\ z <> 13).
  { intros y -> Hy H10 H13. split; [now apply ascii_scalar|auto]. }
  assert (Hcont : forall l, forallb is_ident_cont l = true -> In z l -> scalar z = true /\ z <> 10 /\ z <> 13).
  { intros l Hl Hin. rewrite forallb_forall in Hl. specialize (Hl z Hin).
    apply (Hasc z eq_refl); [now apply is_ident_cont_ascii|intros ->; discriminate|intros ->; discriminate]. }
  assert (Hitem : forall i0, fitem_ok i0 = true -> In z (render i0) -> scalar z = true /\ z <> 10 /\ z <> 13).
  { intros i0 Hi Hin. pose proof (render_chars i0 Hi) as H. rewrite Forall_forall in H. destruct (H z Hin) as (? & ? & ? & _). auto. }
  destruct a as [c|cr|c|w|b sfx|i0|items|body]; cbn [spell atom_ok nl_atom] in *.
  - destruct Hz as [<-|[]]. apply Hplain. destruct (ws_cases c Hok) as [->| ->]; (apply (Hasc _ eq_refl); [reflexivity|discriminate|discriminate]).
  - split; [|discriminate]. destruct cr; [destruct Hz as [<-|Hz]; [reflexivity|]|]; destruct Hz as [<-|[]]; reflexivity.
  - destruct Hz as [<-|[]]. apply Hplain. destruct (punct_char c Hok) as (_ & H128 & _ & _ & H10 & H13 & _).
    now apply (Hasc c).
  - apply andb_true_iff in Hok as [_ Hall]. exact (Hplain (Hcont w Hall Hz)).
  - exact (Hplain (Hcont _ (wordy_spell_cont (ANum b sfx) Hok eq_refl) Hz)).
  - unfold citem_ok in Hok. apply andb_true_iff in Hok as [Hok _]. apply Hplain.
    destruct Hz as [<-|Hz]; [apply (Hasc 39 eq_refl); [reflexivity|discriminate|discriminate]|].
    apply in_app_iff in Hz as [Hz|[<-|[]]]; [exact (Hitem i0 Hok Hz)|apply (Hasc 39 eq_refl); [reflexivity|discriminate|discriminate]].
  - apply Hplain. destruct Hz as [<-|Hz]; [apply (Hasc 34 eq_refl); [reflexivity|discriminate|discriminate]|].
    apply in_app_iff in Hz as [Hz|[<-|[]]]; [|apply (Hasc 34 eq_refl); [reflexivity|discriminate|discriminate]].
    unfold renders in Hz. apply in_flat_map in Hz as (i0 & Hi & Hz).
    rewrite forallb_forall in Hok. exact (Hitem i0 (Hok i0 Hi) Hz).
  - destruct Hz as [<-|[<-|Hz]]; [split; [reflexivity|intros _; split; [discriminate|eauto]]..|].
    rewrite forallb_forall in Hok. specialize (Hok z Hz). apply andb_true_iff in Hok as [H10 Hs].
    split; [exact Hs|]. intros _. split; [now apply negb_true_iff, N.eqb_neq in H10|eauto].
Qed.

Lemma atom_ctl a : atom_ok a = true -> nl_atom a = false -> forall z, In z (spell a) ->
  z <> 10 /\ (z = 13 -> exists body, a = AComment body).
Proof. intros Hok Hna z Hz. exact (proj2 (atom_chars a Hok z Hz) Hna). Qed.

Lemma flatc_no_nl A : WF A -> noNL A = true -> ~ In 10 (flatc A).
Proof.
  intros [Hok _] Hnl Hin. unfold flatc in Hin. apply in_flat_map in Hin as (a & Ha & Hz).
  unfold noNL in Hnl. rewrite forallb_forall in Hok, Hnl. specialize (Hnl a Ha). apply negb_true_iff in Hnl.
  destruct (atom_ctl a (Hok a Ha) Hnl 10 Hz) as [H _]. congruence.
Qed.

Lemma ops_text_app a b : ops_text (a ++ b) = ops_text a ++ ops_text b.
Proof. unfold ops_text. apply flat_map_app. Qed.
Lemma ops_text_chars l : ops_text (map OChar l) = l.
Proof. induction l as [|c l IH]; [reflexivity|]. cbn. f_equal. exact IH. Qed.
Lemma ops_text_repeat c n : ops_text (repeat (OChar c) n) = repeat c n.
Proof. induction n as [|n IH]; [reflexivity|]. cbn. f_equal. exact IH. Qed.
Lemma ops_text_single s : ops_text [OStr s] = s.
Proof. unfold ops_text. cbn [flat_map op_text]. apply app_nil_r. Qed.

Definition item_of_escape (c : N) : sitem :=
  if c =? 9 then ISimple 116 9
  else if c =? 13 then ISimple 114 13
  else if c =? 10 then ISimple 110 10
  else if c =? 39 then ISimple 39 39
  else if c =? 34 then ISimple 34 34
  else if c =? 92 then ISimple 92 92
  else if in_range 32 126 c then IChar c
  else IUni (to_hex false c).

Lemma escape_default_render c : escape_default c = render (item_of_escape c).
Proof.
  unfold escape_default, item_of_escape.
  repeat match goal with |- context [if ?b then _ else _] => destruct b; [reflexivity|] end.
  reflexivity.
Qed.

Lemma hex_digit_val_char u d : d < 16 -> hex_digit_val (hex_char u d) = d.
Proof.
  intros H.
  assert (Hall : forallb (fun d => hex_digit_val (hex_char u d) =? d) (map N.of_nat (seq 0 16)) = true)
    by (destruct u; reflexivity).
  rewrite forallb_forall in Hall. apply N.eqb_eq, Hall, in_map_iff.
  exists (N.to_nat d). split; [apply N2Nat.id|apply in_seq; lia].
Qed.

Lemma hexval_to_hex u c : c < 2 ^ 128 -> hexval (to_hex u c) = c.
Proof.
  intros Hc. destruct (digits_spec 16 c ltac:(lia) Hc) as (H1 & Hall & _).
  unfold hexval, to_hex. rewrite map_map, (map_ext_in _ (fun d => d)), map_id; [exact H1|].
  intros d Hd. rewrite Forall_forall in Hall. apply hex_digit_val_char, Hall, Hd.
Qed.

Lemma scalar_fits c : scalar c = true -> c < 2 ^ 128 /\ c < 16 ^ N.of_nat 6.
Proof. intros H%scalar_iff. split; [|change (16 ^ N.of_nat 6) with 16777216]; lia. Qed.

Lemma item_of_escape_ok c : scalar c = true -> fitem_ok (item_of_escape c) = true.
Proof.
  intros Hs. unfold item_of_escape.
  destruct (c =? 9); [reflexivity|]. destruct (c =? 13); [reflexivity|]. destruct (c =? 10); [reflexivity|].
  destruct (c =? 39) eqn:E39; [reflexivity|]. destruct (c =? 34) eqn:E34; [reflexivity|].
  destruct (c =? 92) eqn:E92; [reflexivity|]. destruct (in_range 32 126 c) eqn:Hr; cbn [fitem_ok].
  - now rewrite Hr, E92, E39, E34.
  - destruct (scalar_fits c Hs) as [Hf H6].
    destruct (digits_spec 16 c ltac:(lia) Hf) as (_ & Hall & d & ds & E & _).
    rewrite hexval_to_hex, Hs by exact Hf. rewrite andb_true_r.
    apply andb_true_iff. split; [apply andb_true_iff; split|].
    + unfold to_hex. apply forallb_forall. intros x Hx. apply in_map_iff in Hx as (y & <- & Hy).
      rewrite Forall_forall in Hall. apply is_hex_lower_iff, (hex_char_range false y (Hall y Hy)).
    + unfold to_hex, lenN. rewrite map_length, E. cbn [length]. apply N.leb_le. lia.
    + unfold to_hex, lenN. rewrite map_length. pose proof (digits_length 16 c 5 ltac:(lia) H6). apply N.leb_le. lia.
Qed.

Lemma hex_escape_render v : v < 256 ->
  hex_escape v = render (IHex (hex_char true (v / 16)) (hex_char true (v mod 16))) /\
  fitem_ok (IHex (hex_char true (v / 16)) (hex_char true (v mod 16))) = true.
Proof.
  intros Hv. split; [reflexivity|]. cbn [fitem_ok].
  assert (H1 : v / 16 < 16) by (apply N.div_lt_upper_bound; lia).
  assert (H2 : v mod 16 < 16) by (apply N.mod_lt; lia).
  apply andb_true_iff. split; apply is_hex_upper_iff; [exact (hex_char_range true _ H1)|exact (hex_char_range true _ H2)].
Qed.

(* a property of every alternative of positive weight, checked along the table *)
Lemma sample_forallb {A} (P : A -> bool) d t cs : 0 < total_weight t ->
  forallb (fun p => (snd p =? 0) || P (fst p)) t = true -> P (fst (sample d t cs)) = true.
Proof.
  intros Ht Hall. destruct (sample_pos d t cs Ht) as (w & Hin & Hw). rewrite forallb_forall in Hall.
  apply Hall, orb_true_iff in Hin as [H%N.eqb_eq|H]; [cbn [snd] in H; lia|exact H].
Qed.

Lemma random_scalar_ok cs : scalar (fst (random_scalar cs)) = true.
Proof.
  unfold random_scalar. destruct (draw cs) as [c r]. cbn [fst].
  assert (Hm : c mod 1112064 < 1112064) by (apply N.mod_lt; lia).
  set (v := c mod 1112064) in *. clearbody v. apply scalar_iff.
  destruct (N.ltb_spec v 55296); lia.
Qed.

Lemma random_char_ok cs : scalar (fst (random_char cs)) = true.
Proof.
  unfold random_char. destruct (rbool 1 20 cs) as [uni cs1]. destruct uni.
  - apply random_scalar_ok.
  - now apply (sample_forallb scalar).
Qed.

Lemma string_body_shape : forall n cs, exists items,
  ops_text (fst (string_body_ops n cs)) = renders items /\ forallb fitem_ok items = true /\
  (length items <= n)%nat.
Proof.
  induction n as [|n IH]; intros cs; [exists []; repeat split; reflexivity|].
  cbn [string_body_ops]. destruct (rbool 1 100 cs) as [hex cs1].
  assert (Hpiece : forall piece cs2, (exists i, ops_text piece = render i /\ fitem_ok i = true) ->
    exists items, ops_text (fst (let '(rest, cs3) := string_body_ops n cs2 in (piece ++ rest, cs3))) =
                  renders items /\ forallb fitem_ok items = true /\ (length items <= S n)%nat).
  { intros piece cs2 (i & Hi & Hok). destruct (IH cs2) as (items & Ht & Hall & Hlen).
    destruct (string_body_ops n cs2) as [rest cs3]. cbn [fst] in *.
    exists (i :: items). rewrite ops_text_app, Hi, Ht. split; [reflexivity|]. cbn [forallb length].
    rewrite Hok, Hall. split; [reflexivity|lia]. }
  destruct hex.
  - pose proof (rrange_bounds 0 256 cs1 ltac:(lia)) as Hv. destruct (rrange 0 256 cs1) as [v r]. cbn [fst] in Hv.
    apply Hpiece. destruct (hex_escape_render v ltac:(lia)) as [E Hok].
    eexists. split; [|exact Hok]. unfold ops_text. cbn [flat_map op_text]. rewrite app_nil_r. exact E.
  - pose proof (random_char_ok cs1) as Hs. destruct (random_char cs1) as [c r]. cbn [fst] in Hs.
    assert (Hesc : exists i, ops_text (map OChar (escape_default c)) = render i /\ fitem_ok i = true).
    { exists (item_of_escape c). rewrite ops_text_chars. split; [apply escape_default_render|now apply item_of_escape_ok]. }
    destruct (N.ltb_spec c 128) as [Ha|Hna]; [now apply Hpiece|].
    destruct (rbool 1 2 r) as [raw r']. destruct raw; [|now apply Hpiece].
    apply Hpiece. exists (IChar c). split; [reflexivity|]. cbn [fitem_ok]. rewrite Hs, andb_true_r.
    apply orb_true_iff. right. now apply N.leb_le.
Qed.

Lemma comment_chars_shape : forall n cs,
  forallb (fun c => negb (c =? 10) && scalar c) (ops_text (fst (comment_chars n cs))) = true.
Proof.
  induction n as [|n IH]; intros cs; [reflexivity|]. cbn [comment_chars].
  pose proof (random_char_ok cs) as Hs. destruct (random_char cs) as [c cs1]. cbn [fst] in Hs.
  specialize (IH cs1). destruct (comment_chars n cs1) as [rest cs2]. cbn [fst] in *.
  rewrite ops_text_app, forallb_app, IH, andb_true_r.
  destruct (c =? 10) eqn:Hc; [reflexivity|]. cbn. now rewrite Hs, Hc.
Qed.

(* [w] contains an upper-case letter or an underscore, which no keyword does: what
   [ident_loop_shape] shows of every identifier (the lone underscore is the
   exception among the words of the language) *)
Definition has_marker (w : list N) : bool := existsb (fun c => in_range 65 90 c || (c =? 95)) w.

(* every round of the loop writes an optional character (a digit, not in the
   first round, or a lower-case letter) and then an upper-case letter or an
   underscore *)
Lemma ident_loop_shape : forall n first cs,
  forallb is_ident_cont (fst (ident_loop n first cs)) = true /\
  (length (fst (ident_loop n first cs)) <= 2 * n)%nat /\
  (n <> O -> has_marker (fst (ident_loop n first cs)) = true /\
             (first = true -> match fst (ident_loop n first cs) with
                              | x :: _ => is_word_start x = true
                              | [] => False
                              end)).
Proof.
  induction n as [|n IH]; intros first cs; [repeat split; [cbn; lia|congruence|congruence]|].
  cbn [ident_loop].
  set (D := if first then (false, cs) else rbool 1 10 cs). destruct D as [dig cs1] eqn:ED.
  assert (Hfd : first = true -> dig = false) by (intros ->; subst D; now inversion ED).
  set (P := if dig then let '(d, r) := rrange 48 58 cs1 in ([d], r)
            else let '(low, r) := rbool 7 10 cs1 in
                 if low then let '(l, r') := rrange 97 123 r in ([l], r') else ([], r)).
  assert (HP : forallb is_ident_cont (fst P) = true /\ (length (fst P) <= 1)%nat /\
               (dig = false -> match fst P with x :: _ => is_word_start x = true | [] => True end)).
  { subst P. destruct dig.
    - pose proof (rrange_bounds 48 58 cs1 ltac:(lia)) as Hb. destruct (rrange 48 58 cs1) as [d r].
      cbn [fst forallb length] in *. rewrite andb_true_r.
      repeat split; [apply is_ident_cont_iff; lia|lia|discriminate].
    - destruct (rbool 7 10 cs1) as [low r]. destruct low; [|repeat split; cbn; lia].
      pose proof (rrange_bounds 97 123 r ltac:(lia)) as Hb. destruct (rrange 97 123 r) as [l r'].
      cbn [fst forallb length] in *. rewrite andb_true_r.
      repeat split; [apply is_ident_cont_iff; lia|lia|intros _; apply is_word_start_iff; lia]. }
  destruct P as [pre cs2]. cbn [fst] in HP. destruct HP as (HP1 & HP2 & HP3).
  destruct (rbool 9 10 cs2) as [up cs3].
  set (Q := if up then let '(u, r) := rrange 65 91 cs3 in ([u], r) else ([95], cs3)).
  assert (HQ : exists y, fst Q = [y] /\ (65 <= y <= 90 \/ y = 95)).
  { subst Q. destruct up; [|exists 95; split; [reflexivity|now right]].
    pose proof (rrange_bounds 65 91 cs3 ltac:(lia)) as Hb. destruct (rrange 65 91 cs3) as [u r].
    cbn [fst] in *. exists u. split; [reflexivity|lia]. }
  destruct Q as [post cs4]. cbn [fst] in HQ. destruct HQ as (y & -> & Hy).
  assert (Hs : is_word_start y = true) by (apply is_word_start_iff; lia).
  destruct (IH false cs4) as (IH1 & IH2 & _). destruct (ident_loop n false cs4) as [rest cs5]. cbn [fst] in *.
  split; [|split; [|intros _; split]].
  - rewrite forallb_app, HP1. cbn [app forallb]. now rewrite IH1, (word_start_cont y Hs).
  - rewrite !app_length. cbn [length]. lia.
  - unfold has_marker. rewrite existsb_app. cbn [app existsb].
    replace (in_range 65 90 y || (y =? 95)) with true; [now rewrite orb_true_r|].
    symmetry. apply (orb_iff _ _ _ _ (N_between_iff 65 90 y) (N.eqb_eq y 95)). exact Hy.
  - intros Hf. specialize (HP3 (Hfd Hf)). destruct pre as [|x pre]; [exact Hs|exact HP3].
Qed.

Lemma random_identifier_shape cs :
  atom_ok (AWord (fst (random_identifier cs))) = true /\
  has_marker (fst (random_identifier cs)) = true /\ (length (fst (random_identifier cs)) <= 38)%nat.
Proof.
  unfold random_identifier. pose proof (rrange_bounds 1 20 cs ltac:(lia)) as Hb.
  destruct (rrange 1 20 cs) as [n cs1]. cbn [fst] in Hb.
  destruct (ident_loop_shape (N.to_nat n) true cs1) as (H1 & H2 & H3).
  destruct (H3 ltac:(lia)) as [Hm Hf]. specialize (Hf eq_refl). cbn [atom_ok]. rewrite H1.
  split; [|split; [exact Hm|lia]].
  destruct (fst (ident_loop (N.to_nat n) true cs1)); [contradiction|]. now rewrite Hf.
Qed.

Lemma random_uint_fits cs : fst (random_uint cs) < 2 ^ 128.
Proof.
  assert (HU : U128_MAX + 1 = 2 ^ 128) by reflexivity.
  assert (H19 : 10 ^ 19 < 2 ^ 128) by reflexivity.
  set (M := 2 ^ 128) in *. clearbody M.
  unfold random_uint. destruct (rbool 1 5 cs) as [zero cs1]. destruct zero; [cbn [fst]; lia|].
  destruct (rbool 1 20 cs1) as [big cs2]. destruct big.
  { pose proof (rrange_bounds 1 (U128_MAX + 1) cs2 ltac:(lia)) as H. lia. }
  destruct (rbool 1 4 cs2) as [medium cs3]. destruct medium.
  - pose proof (rrange_bounds 3 20 cs3 ltac:(lia)) as Hd. destruct (rrange 3 20 cs3) as [nd cs4]. cbn [fst] in Hd.
    assert (Hp : 10 ^ nd <= 10 ^ 19) by (apply N.pow_le_mono_r; lia).
    assert (H1 : 1 < 10 ^ nd).
    { apply N.lt_le_trans with (10 ^ 3); [reflexivity|]. apply N.pow_le_mono_r; lia. }
    pose proof (rrange_bounds 1 (10 ^ nd) cs4 H1) as H. lia.
  - pose proof (rrange_bounds 1 1000 cs3 ltac:(lia)) as H. lia.
Qed.

Lemma bit_integer_text_shape v cs : exists b,
  fst (bit_integer_text v cs) = body_text b /\ body_value b = v /\ num_kind b None = KBitInteger.
Proof.
  unfold bit_integer_text. destruct (rbool 1 2 cs) as [hex cs1]. destruct hex.
  - destruct (rbool 1 2 cs1) as [up cs2]. exists (NHex up v). repeat split.
  - exists (NBin v). repeat split.
Qed.

Lemma suffixed_integer_text_shape v cs : exists b,
  fst (suffixed_integer_text v cs) = body_text b /\ body_value b = v.
Proof.
  unfold suffixed_integer_text. destruct (rbool 3 4 cs) as [dec cs1]. destruct dec.
  - exists (NDec v). split; reflexivity.
  - destruct (bit_integer_text_shape v cs1) as (b & H1 & H2 & _). now exists b.
Qed.

Definition variable_kind (k : token_kind) : bool :=
  match k with
  | TValueTypeKeyword | TIdentifier | TBuiltin | TNakedDecimal | TBitInteger | TSuffixedInteger
  | TCharLiteral | TBoolLiteral | TStringLiteral => true
  | _ => false
  end.
Definition const_text (k : token_kind) : list N :=
  match k with TBraceLeft => [123] | TBraceRight => [125] | _ => display k end.

Inductive spelled : token_kind -> list N -> Prop :=
| Sp_const k : variable_kind k = false -> spelled k (const_text k)
| Sp_type t w : In (t, w) value_type_table -> 0 < w -> spelled TValueTypeKeyword (vt_display t)
| Sp_ident w : atom_ok (AWord w) = true -> has_marker w = true -> (length w <= 38)%nat -> spelled TIdentifier w
| Sp_builtin w : atom_ok (AWord w) = true -> has_marker w = true -> (length w <= 38)%nat ->
    spelled TBuiltin (w ++ [33])
| Sp_dec v : v < 2 ^ 128 -> spelled TNakedDecimal (to_decimal v)
| Sp_bit b : body_value b < 2 ^ 128 -> num_kind b None = KBitInteger -> spelled TBitInteger (body_text b)
| Sp_sfx b t : body_value b < 2 ^ 128 -> sfx_ok (Some t) = true ->
    spelled TSuffixedInteger (body_text b ++ vt_display t)
| Sp_char i : citem_ok i = true -> spelled TCharLiteral (39 :: render i ++ [39])
| Sp_bool (b : bool) : spelled TBoolLiteral (if b then str "true" else str "false")
| Sp_str items : forallb fitem_ok items = true -> (length items <= 99)%nat ->
    spelled TStringLiteral (34 :: renders items ++ [34]).

(* the arms of `match base_token` that draw nothing push one constant *)
Lemma const_token_ops k cs : variable_kind k = false ->
  exists o, token_ops k cs = ([o], cs) /\ op_text o = const_text k.
Proof. destruct k; try discriminate; intros _; eexists; split; reflexivity. Qed.

Lemma emit_token_text k cs : fst (emit_token k cs) = ops_text (fst (token_ops k cs)).
Proof. unfold emit_token. now destruct (token_ops k cs). Qed.

Theorem token_spelled k cs : spelled k (fst (emit_token k cs)).
Proof.
  rewrite emit_token_text.
  destruct (variable_kind k) eqn:Hvar.
  2:{ destruct (const_token_ops k cs Hvar) as (o & -> & Ho). cbn [fst ops_text flat_map].
      rewrite app_nil_r, Ho. now apply Sp_const. }
  destruct k; try discriminate; clear Hvar; cbn [token_ops].
  - rewrite let_pair. cbn [fst]. rewrite ops_text_single.
    destruct (sample_pos VNoKeyword value_type_table cs ltac:(reflexivity)) as (w & Hin & Hpos).
    eapply Sp_type; eassumption.
  - rewrite let_pair. cbn [fst]. rewrite ops_text_single. apply Sp_ident; apply random_identifier_shape.
  - rewrite let_pair. cbn [fst]. change (ops_text [OStr ?w; OChar 33]) with (w ++ [33]).
    apply Sp_builtin; apply random_identifier_shape.
  - rewrite let_pair. cbn [fst]. rewrite ops_text_single. apply Sp_dec, random_uint_fits.
  - rewrite !let_pair. cbn [fst]. rewrite ops_text_single.
    destruct (bit_integer_text_shape (fst (random_uint cs)) (snd (random_uint cs))) as (b & -> & Hv & Hbit).
    apply Sp_bit; [rewrite Hv; apply random_uint_fits|exact Hbit].
  - rewrite !let_pair. cbn [fst]. change (ops_text [OStr ?a; OStr ?b]) with (a ++ b ++ []). rewrite app_nil_r.
    destruct (suffixed_integer_text_shape (fst (random_uint cs)) (snd (random_uint cs))) as (b & -> & Hv).
    apply Sp_sfx; [rewrite Hv; apply random_uint_fits|].
    now apply (sample_forallb (fun t => sfx_ok (Some t))).
  - unfold char_literal_ops. rewrite let_pair. destruct (fst (rbool 1 20 cs)); rewrite let_pair; cbn [fst].
    + destruct (hex_escape_render (fst (rrange 0 256 (snd (rbool 1 20 cs))))) as [E Hok].
      { apply rrange_bounds. lia. }
      change (ops_text [OChar 39; OStr ?h; OChar 39]) with (39 :: h ++ [39]).
      rewrite E. apply Sp_char. unfold citem_ok. now rewrite Hok.
    + change (OChar 39 :: map OChar ?e ++ [OChar 39]) with (map OChar [39] ++ map OChar e ++ map OChar [39]).
      rewrite <- !map_app, ops_text_chars, escape_default_render. apply Sp_char.
      apply (sample_forallb (fun a => citem_ok (item_of_escape a))); [reflexivity|vm_compute; reflexivity].
  - rewrite let_pair. cbn [fst]. rewrite ops_text_single. apply Sp_bool.
  - unfold string_literal_ops. rewrite !let_pair. cbn [fst].
    destruct (string_body_shape (N.to_nat (fst (rrange 0 100 cs))) (snd (rrange 0 100 cs))) as (items & Ht & Hall & Hlen).
    change (OChar 34 :: ?body ++ [OChar 34]) with ([OChar 34] ++ body ++ [OChar 34]).
    rewrite !ops_text_app, Ht. apply Sp_str; [exact Hall|].
    pose proof (rrange_bounds 0 100 cs ltac:(lia)). lia.
Qed.

Lemma render_len i0 : fitem_ok i0 = true -> (length (render i0) <= 10)%nat.
Proof.
  destruct i0 as [c|c b|h1 h2|ds]; cbn [fitem_ok render length]; try lia.
  intros [[_ H%N.leb_le]%andb_true_iff _]%andb_true_iff. rewrite app_length. cbn [length].
  unfold lenN in H. lia.
Qed.

Lemma renders_len items : forallb fitem_ok items = true -> (length (renders items) <= 10 * length items)%nat.
Proof.
  induction items as [|i0 items IH]; intros H; [cbn; lia|]. cbn [forallb] in H. apply andb_true_iff in H as [Hi H].
  unfold renders in *. cbn [flat_map length]. rewrite app_length.
  pose proof (render_len i0 Hi). specialize (IH H). lia.
Qed.

Lemma body_text_len b : (length (body_text b) <= 131)%nat.
Proof.
  destruct b as [v|u v|v]; cbn [body_text length]; unfold to_decimal, to_hex, to_binary; rewrite map_length.
  - pose proof (digits_length_fuel 10 v). lia.
  - pose proof (digits_length_fuel 16 v). lia.
  - pose proof (digits_length_fuel 2 v). lia.
Qed.

Lemma const_text_len k : (1 <= length (const_text k) <= 16)%nat.
Proof.
  enough ((1 <=? length (const_text k)) && (length (const_text k) <=? 16) = true)%nat
    as [H1%Nat.leb_le H2%Nat.leb_le]%andb_true_iff by now split.
  now destruct k.
Qed.
Lemma vt_display_len t : (1 <= length (vt_display t) <= 9)%nat.
Proof. destruct t; cbn; lia. Qed.

Lemma spelled_len k s : spelled k s -> (1 <= length s <= 1000)%nat.
Proof.
  (* written as a product, the bound is a small term for [lia] *)
  change 1000%nat with (10 * 100)%nat.
  intros H. destruct H as [k Hv|t w Hin Hw|w Hok Hm Hl|w Hok Hm Hl|v Hv|b Hv Hb|b t Hv Ht|i0 Hc|b|items Hall Hl].
  - pose proof (const_text_len k). lia.
  - pose proof (vt_display_len t). lia.
  - split; [|lia]. cbn [atom_ok] in Hok. destruct w; [discriminate|cbn; lia].
  - rewrite app_length. cbn [length]. lia.
  - pose proof (body_text_len (NDec v)) as Hlen. cbn [body_text] in Hlen.
    destruct (body_text_head (NDec v) Hv) as (x & r & E & _). cbn [body_text] in E. rewrite E in *. cbn [length] in *. lia.
  - pose proof (body_text_len b). destruct (body_text_head b Hv) as (x & r & E & _). rewrite E in *. cbn [length] in *. lia.
  - rewrite app_length. pose proof (body_text_len b). pose proof (vt_display_len t). lia.
  - unfold citem_ok in Hc. apply andb_true_iff in Hc as [Hc _]. pose proof (render_len i0 Hc).
    cbn [length]. rewrite app_length. cbn [length]. lia.
  - destruct b; cbv [str list_ascii_of_string map length]; lia.
  - pose proof (renders_len items Hall). cbn [length]. rewrite app_length. cbn [length]. lia.
Qed.

(* the atoms of a constant spelling: one word, or its characters as punctuation *)
Definition const_atoms (s : list N) : list atom :=
  match s with
  | x :: _ => if is_ident_cont x then [AWord s] else map APunct s
  | [] => []
  end.

(* [text] is spelled by the well-formed [B] without a line break, and [B] starts with a
   wordy atom exactly when the arm of [k] calls add_space_if_necessary *)
Definition shape_ok (k : token_kind) (text : list N) (B : list atom) : Prop :=
  text = flatc B /\ WF B /\ first_wordy B = calls_add_space k /\ noNL B = true.

Lemma WF_single a : atom_ok a = true -> WF [a].
Proof. intros H. split; cbn [forallb adj_ok first_wordy]; [now rewrite H|now rewrite andb_false_r]. Qed.

(* equality of texts as a boolean, for the evaluated checks *)
Definition list_eqb (a b : list N) : bool := (length a =? length b)%nat && forallb (fun p => fst p =? snd p) (combine a b).
Lemma list_eqb_eq a : forall b, list_eqb a b = true -> a = b.
Proof.
  unfold list_eqb. induction a as [|x a IH]; intros [|y b] H; try reflexivity; try discriminate.
  cbn [length combine forallb fst snd] in H. apply andb_true_iff in H as [H1 [->%N.eqb_eq H3]%andb_true_iff].
  f_equal. apply IH. now rewrite H3, andb_true_r.
Qed.

(* the discriminant of a kind: its position in [all_kinds] *)
Definition kind_index (k : token_kind) : nat :=
  match k with
  | TEndOfSource => 0 | TParenLeft => 1 | TParenRight => 2 | TBraceLeft => 3 | TBraceRight => 4
  | TBracketLeft => 5 | TBracketRight => 6 | TAngleLeft => 7 | TAngleRight => 8 | TPipe => 9
  | TAmpersand => 10 | TCaret => 11 | TExclamation => 12 | TPlaceholder => 13 | TPlus => 14 | TMinus => 15
  | TTimes => 16 | TDivide => 17 | TModulo => 18 | TColon => 19 | TSemicolon => 20 | TDot => 21
  | TComma => 22 | TAssignment => 23 | TEquals => 24 | TDoesNotEqual => 25 | TIsGE => 26 | TIsLE => 27
  | TShiftLeft => 28 | TShiftRight => 29 | TArrow => 30 | TPipeForType => 31 | TDots => 32 | TFn => 33
  | TVar => 34 | TConst => 35 | TIf => 36 | TGoto => 37 | TLoop => 38 | TReturn => 39 | TElse => 40
  | TCast => 41 | TAs => 42 | TImport => 43 | TPub => 44 | TExtern => 45 | TStruct => 46 | TWord8 => 47
  | TWord16 => 48 | TWord32 => 49 | TWord64 => 50 | TWord128 => 51 | TValueTypeKeyword => 52
  | TIdentifier => 53 | TBuiltin => 54 | TNakedDecimal => 55 | TBitInteger => 56 | TSuffixedInteger => 57
  | TCharLiteral => 58 | TBoolLiteral => 59 | TStringLiteral => 60 | TError => 61
  end.

Lemma all_kinds_complete k : In k all_kinds.
Proof. apply (nth_error_In all_kinds (kind_index k)). now destruct k. Qed.

(* [const_atoms] does for the constant spelling of [k] what [shape_ok] asks; kinds with a
   spelling rule of their own are passed *)
Definition const_check (k : token_kind) : bool :=
  variable_kind k ||
  let B := const_atoms (const_text k) in
  list_eqb (const_text k) (flatc B) && forallb atom_ok B && adj_ok B &&
  Bool.eqb (first_wordy B) (calls_add_space k) && noNL B.

Lemma const_kinds_checked : forallb const_check all_kinds = true.
Proof. vm_compute. reflexivity. Qed.

Lemma shape_single k text a : text = spell a -> atom_ok a = true -> wordy a = calls_add_space k ->
  nl_atom a = false -> shape_ok k text [a].
Proof.
  intros Ht Hok Hw Hn. split; [|split; [now apply WF_single|split; [exact Hw|]]]; [|cbn; now rewrite Hn].
  unfold flatc. cbn [flat_map]. now rewrite app_nil_r.
Qed.

Lemma spelled_shape k s : spelled k s -> exists B, shape_ok k s B.
Proof.
  intros H. destruct H as [k Hv|t w Hin Hpos|w Hok Hm Hl|w Hok Hm Hl|v Hv|b Hv Hb|b t Hv Ht|i Hc|b|items Hall Hl].
  - pose proof const_kinds_checked as Hc. rewrite forallb_forall in Hc.
    specialize (Hc k (all_kinds_complete k)). unfold const_check in Hc. rewrite Hv in Hc. cbn [orb] in Hc.
    exists (const_atoms (const_text k)).
    apply andb_true_iff in Hc as [[[[H1 H3]%andb_true_iff H4]%andb_true_iff H5]%andb_true_iff H6].
    split; [now apply list_eqb_eq|]. split; [split; assumption|split; [now apply eqb_prop|exact H6]].
  - exists [AWord (vt_display t)]. apply shape_single; [reflexivity| |reflexivity|reflexivity]. now destruct t.
  - exists [AWord w]. now apply shape_single.
  - exists [AWord w; APunct 33]. split; [|split; [split|split; reflexivity]].
    + unfold flatc. cbn [flat_map spell]. now rewrite app_nil_r.
    + cbn [forallb]. now rewrite Hok.
    + reflexivity.
  - exists [ANum (NDec v) None]. apply N.ltb_lt in Hv.
    apply shape_single; [symmetry; apply app_nil_r|cbn [atom_ok body_value]; now rewrite Hv|reflexivity|reflexivity].
  - exists [ANum b None]. apply N.ltb_lt in Hv.
    apply shape_single; [symmetry; apply app_nil_r|cbn [atom_ok]; now rewrite Hv|reflexivity|reflexivity].
  - exists [ANum b (Some t)]. apply N.ltb_lt in Hv.
    apply shape_single; [reflexivity|cbn [atom_ok]; now rewrite Hv, Ht|reflexivity|reflexivity].
  - exists [AChar i]. now apply shape_single.
  - exists [AWord (if b then str "true" else str "false")]. apply shape_single; destruct b; reflexivity.
  - exists [AStr items]. now apply shape_single.
Qed.

Lemma spelled_no_nl k s : spelled k s -> ~ In 10 s.
Proof. intros H. destruct (spelled_shape k s H) as (B & -> & HW & _ & Hnl). now apply flatc_no_nl. Qed.

Theorem token_shape k cs : exists B, shape_ok k (fst (emit_token k cs)) B.
Proof. apply spelled_shape, token_spelled. Qed.

Lemma encode_cons c s : encode (c :: s) = utf8 c ++ encode s.
Proof. reflexivity. Qed.

Lemma encode_app a b : encode (a ++ b) = encode a ++ encode b.
Proof. unfold encode. apply flat_map_app. Qed.

Lemma utf8_low c : c < 128 -> utf8 c = [c].
Proof. intros H. unfold utf8. destruct (N.ltb_spec c 128); [reflexivity|lia]. Qed.

Lemma encode_cons_low c l : c < 128 -> encode (c :: l) = c :: encode l.
Proof. intros H. cbn [encode flat_map]. now rewrite utf8_low. Qed.

Lemma encode_ascii l : Forall (fun c => c < 128) l -> encode l = l.
Proof. induction 1 as [|c l Hc _ IH]; [reflexivity|]. now rewrite encode_cons_low, IH. Qed.

Lemma cont_ascii l : forallb is_ident_cont l = true -> Forall (fun c => c < 128) l.
Proof.
  intros H. apply Forall_forall. intros c Hc. rewrite forallb_forall in H.
  apply is_ident_cont_ascii. apply H, Hc.
Qed.

Lemma utf8_high c : 128 <= c -> Forall (fun b => 128 <= b) (utf8 c).
Proof.
  intros Hc. unfold utf8. destruct (N.ltb_spec c 128); [lia|].
  assert (Hk : forall k x, 128 <= k -> 128 <= k + x) by (intros; lia).
  destruct (c <? 2048); [|destruct (c <? 65536)]; repeat (constructor; [apply Hk; lia|]); constructor.
Qed.

Lemma encode_nonl l : Forall (fun y => y <> 10) l -> Forall (fun y => y <> 10) (encode l).
Proof.
  induction 1 as [|c l Hc _ IH]; [constructor|]. cbn [encode flat_map]. apply Forall_app. split; [|exact IH].
  destruct (N.lt_ge_cases c 128) as [H|H]; [rewrite utf8_low by exact H; repeat constructor; exact Hc|].
  eapply Forall_impl; [|exact (utf8_high c H)]. cbn. lia.
Qed.

Lemma encode_render i : fitem_ok i = true -> (forall c, i = IChar c -> c < 128) -> encode (render i) = render i.
Proof.
  intros Hok Hc. apply encode_ascii, Forall_forall. intros z Hz.
  pose proof (render_chars i Hok) as H. rewrite Forall_forall in H. destruct (H z Hz) as (_ & _ & _ & Hi).
  destruct (N.lt_ge_cases z 128) as [Hlt|Hge]; [exact Hlt|exact (Hc z (Hi Hge))].
Qed.

Lemma encode_len s : (length s <= length (encode s) <= 4 * length s)%nat.
Proof.
  induction s as [|c s IH]; [cbn; lia|]. rewrite encode_cons, app_length. cbn [length].
  assert (1 <= length (utf8 c) <= 4)%nat by (unfold utf8; repeat destruct (_ <? _); cbn [length]; lia). lia.
Qed.

Lemma str_len_cons c s : str_len (c :: s) = utf8_len c + str_len s.
Proof. reflexivity. Qed.

Lemma utf8_len_length c : utf8_len c = lenN (utf8 c).
Proof. unfold utf8_len, utf8. repeat destruct (_ <? _); reflexivity. Qed.

Lemma str_len_encode s : str_len s = lenN (encode s).
Proof.
  induction s as [|c s IH]; [reflexivity|].
  now rewrite str_len_cons, encode_cons, lenN_app, IH, utf8_len_length.
Qed.

Lemma str_len_app a b : str_len (a ++ b) = str_len a + str_len b.
Proof. now rewrite !str_len_encode, encode_app, lenN_app. Qed.

Lemma buf_text_rev b : buf_text b = rev (brev b).
Proof. unfold buf_text. symmetry. apply rev_alt. Qed.

Lemma buf_text_push o b : buf_text (push o b) = buf_text b ++ op_text o.
Proof. rewrite !buf_text_rev. unfold push. cbn [brev]. rewrite rev_append_rev, rev_app_distr, rev_involutive. reflexivity. Qed.

Lemma apply_ops_spec ops : forall b,
  buf_text (apply_ops ops b) = buf_text b ++ ops_text ops /\
  blen (apply_ops ops b) = blen b + str_len (ops_text ops) /\
  bcap b <= bcap (apply_ops ops b).
Proof.
  induction ops as [|o ops IH]; intros b.
  - cbn. rewrite app_nil_r. repeat split; lia.
  - change (apply_ops (o :: ops) b) with (apply_ops ops (push o b)).
    destruct (IH (push o b)) as (H1 & H2 & H3). rewrite H1, H2, buf_text_push.
    change (ops_text (o :: ops)) with (op_text o ++ ops_text ops). rewrite str_len_app, <- app_assoc.
    repeat split; [unfold push; cbn [blen]; lia|].
    eapply N.le_trans; [|exact H3]. unfold push, reserve. cbn [bcap].
    destruct (_ <? _); lia.
Qed.

Lemma last_byte_snoc b t c : buf_text b = t ++ [c] -> c < 128 -> last_byte b = Some c.
Proof.
  rewrite buf_text_rev. unfold last_byte. intros H Hc. apply (f_equal (@rev N)) in H.
  rewrite rev_involutive, rev_app_distr in H. cbn in H. rewrite H.
  destruct (N.ltb_spec c 128); [reflexivity|lia].
Qed.

Lemma last_byte_wordy b A : buf_text b = flatc A -> WF A -> last_wordy A = true ->
  exists l, last_byte b = Some l /\ is_ident_cont l = true.
Proof.
  intros Ht [Hok _] Hl. destruct A as [|a A] using rev_ind; [discriminate|]. clear IHA.
  rewrite last_wordy_app in Hl. rewrite forallb_app in Hok. apply andb_true_iff in Hok as [_ Ha].
  cbn [forallb] in Ha. rewrite andb_true_r in Ha.
  pose proof (wordy_spell_cont a Ha Hl) as Hall. destruct (atom_first a Ha) as (x & r & Hne & _).
  rewrite flatc_app in Ht. cbn [flatc flat_map] in Ht. rewrite app_nil_r in Ht.
  destruct (spell a) as [|c s] using rev_ind; [discriminate Hne|]. clear IHs.
  rewrite forallb_app in Hall. apply andb_true_iff in Hall as [_ Hc]. cbn in Hc. rewrite andb_true_r in Hc.
  exists c. split; [|exact Hc]. eapply last_byte_snoc; [rewrite Ht, app_assoc; reflexivity|].
  now apply is_ident_cont_ascii.
Qed.

(* the buffer is a well-formed atom sequence, its length is accounted for in
   bytes, and its capacity never shrinks below [cap0] *)
Definition Good (cap0 : N) (b : buf) : Prop :=
  (exists A, buf_text b = flatc A /\ WF A) /\ blen b = str_len (buf_text b) /\ cap0 <= bcap b.

Lemma Good_empty cap : Good cap (empty_buf cap).
Proof. split; [exists []; split; [reflexivity|apply WF_nil]|split; [reflexivity|cbn; lia]]. Qed.

Lemma Good_apply cap0 b ops C : Good cap0 b -> ops_text ops = flatc C -> WF C ->
  (first_wordy C = true -> match last_byte b with Some l => is_ident_cont l = false | None => True end) ->
  Good cap0 (apply_ops ops b).
Proof.
  intros ((A & Ht & HA) & Hlen & Hcap) Hops HC Hj.
  destruct (apply_ops_spec ops b) as (H1 & H2 & H3). split; [|split].
  - exists (A ++ C). rewrite H1, Ht, Hops, flatc_app. split; [reflexivity|].
    apply WF_app; [exact HA|exact HC|].
    destruct (first_wordy C) eqn:Hf; [|apply andb_false_r]. rewrite andb_true_r.
    destruct (last_wordy A) eqn:Hl; [|reflexivity].
    destruct (last_byte_wordy b A Ht HA Hl) as (l & Hb & Hi). specialize (Hj eq_refl).
    rewrite Hb in Hj. congruence.
  - rewrite H1, H2, str_len_app, Hlen. reflexivity.
  - lia.
Qed.

(* atoms that are not wordy can be appended anywhere *)
Definition calm (C : list atom) : bool := forallb (fun a => atom_ok a && negb (wordy a)) C.

Lemma calm_WF C : calm C = true -> WF C /\ first_wordy C = false.
Proof.
  unfold calm. induction C as [|a C IH]; intros H; [split; [apply WF_nil|reflexivity]|].
  cbn [forallb] in H. apply andb_true_iff in H as [[Ha Hw%negb_true_iff]%andb_true_iff HC].
  destruct (IH HC) as [[H1 H2] H3].
  split; [split|exact Hw]; cbn [forallb adj_ok]; [now rewrite Ha, H1|now rewrite Hw, H2].
Qed.

Lemma Good_apply_calm cap0 b ops C : Good cap0 b -> ops_text ops = flatc C -> calm C = true ->
  Good cap0 (apply_ops ops b).
Proof.
  intros Hg Hops Hc. destruct (calm_WF C Hc) as [HW Hf].
  eapply Good_apply; [exact Hg|exact Hops|exact HW|]. rewrite Hf. discriminate.
Qed.

Lemma whitespace_shape last cs : exists C, ops_text (fst (whitespace_ops last cs)) = flatc C /\ calm C = true.
Proof.
  assert (Hrep : forall c n, (c = 32 \/ c = 9) ->
            ops_text (repeat (OChar c) n) = flatc (repeat (AWs c) n) /\ calm (repeat (AWs c) n) = true).
  { intros c n Hc. induction n as [|n [IH1 IH2]]; [split; reflexivity|].
    cbn [repeat]. split; [cbn; f_equal; exact IH1|]. unfold calm in *. cbn [forallb]. rewrite IH2.
    destruct Hc as [->| ->]; reflexivity. }
  unfold whitespace_ops. destruct last as [l|]; [|exists []; split; reflexivity].
  destruct (l =? 10).
  - destruct (rrange 0 4 cs) as [nt cs1]. destruct (rbool 1 5 cs1) as [tabs cs2]. destruct tabs; cbn [fst].
    + exists (repeat (AWs 9) (N.to_nat nt)). apply Hrep. now right.
    + exists (repeat (AWs 32) (N.to_nat (4 * nt))). apply Hrep. now left.
  - destruct (rbool 1 5 cs) as [sp cs1]. destruct sp; cbn [fst].
    + exists [AWs 32]. split; reflexivity.
    + exists []. split; reflexivity.
Qed.

Lemma comment_shape cs : exists C, ops_text (fst (comment_ops cs)) = flatc C /\ calm C = true.
Proof.
  unfold comment_ops. destruct (rbool 4 5 cs) as [nl cs1]. destruct (rrange 0 160 cs1) as [n cs2].
  pose proof (comment_chars_shape (N.to_nat n) cs2) as Hb.
  destruct (comment_chars (N.to_nat n) cs2) as [body cs3]. cbn [fst] in *.
  exists ((if nl then [ANl false] else []) ++ [AComment (ops_text body); ANl false]). split.
  - rewrite ops_text_app, flatc_app. f_equal; [destruct nl; reflexivity|].
    change (OStr [47; 47] :: body ++ [OChar 10]) with ([OStr [47; 47]] ++ body ++ [OChar 10]).
    rewrite !ops_text_app. unfold ops_text, flatc. cbn [flat_map op_text spell app]. reflexivity.
  - unfold calm. rewrite forallb_app. cbn [forallb atom_ok wordy negb andb]. rewrite Hb. destruct nl; reflexivity.
Qed.

Lemma push_token_good cap0 k b cs : Good cap0 b ->
  Good cap0 (apply_ops (fst (push_token k (last_byte b) cs)) b).
Proof.
  intros Hg. unfold push_token.
  destruct (token_shape k cs) as (B & Ht & HB & Hf & _). unfold emit_token in Ht.
  destruct (token_ops k cs) as [ops cs']. cbn [fst] in *.
  destruct (calls_add_space k) eqn:Hc.
  - unfold space_ops. destruct (last_byte b) as [l|] eqn:Hl.
    + destruct (is_ident_cont l) eqn:Hi.
      * apply (Good_apply cap0 b _ ([AWs 32] ++ B)); [exact Hg| | |discriminate].
        -- rewrite ops_text_app, flatc_app, Ht. reflexivity.
        -- apply WF_app; [apply WF_single; reflexivity|exact HB|reflexivity].
      * apply (Good_apply cap0 b _ B); [exact Hg|exact Ht|exact HB|]. rewrite Hl. intros _. exact Hi.
    + apply (Good_apply cap0 b _ B); [exact Hg|exact Ht|exact HB|]. rewrite Hl. auto.
  - apply (Good_apply cap0 b _ B); [exact Hg|exact Ht|exact HB|]. rewrite Hf. discriminate.
Qed.

Lemma newline_loop_good cap0 : forall fuel st cs, Good cap0 (fbuf st) ->
  Good cap0 (fbuf (fst (newline_loop fuel st cs))).
Proof.
  induction fuel as [|f IH]; intros st cs Hg; [exact Hg|]. cbn [newline_loop].
  destruct (nl_at st <? blen (fbuf st)); [|exact Hg].
  destruct (rbool 1 20 cs) as [cr cs1].
  assert (Hb : Good cap0 (apply_ops ((if cr then [OChar 13] else []) ++ [OChar 10]) (fbuf st))).
  { apply (Good_apply_calm cap0 _ _ [ANl cr]); [exact Hg| |reflexivity]. destruct cr; reflexivity. }
  destruct (rbool 4 5 cs1) as [upd cs2]. destruct upd.
  - destruct (rrange 10 80 cs2) as [r cs3]. apply IH. exact Hb.
  - apply IH. exact Hb.
Qed.

Lemma comment_loop_good cap0 : forall fuel st cs, Good cap0 (fbuf st) ->
  Good cap0 (fbuf (fst (comment_loop fuel st cs))).
Proof.
  induction fuel as [|f IH]; intros st cs Hg; [exact Hg|]. cbn [comment_loop].
  destruct (cm_at st <? blen (fbuf st)); [|exact Hg].
  destruct (comment_shape cs) as (C & Ht & Hc). destruct (comment_ops cs) as [ops cs1]. cbn [fst] in *.
  assert (Hb : Good cap0 (apply_ops ops (fbuf st))) by (eapply Good_apply_calm; eassumption).
  destruct (rbool 9 10 cs1) as [upd cs2]. destruct upd.
  - destruct (rrange 200 500 cs2) as [r cs3]. apply IH. exact Hb.
  - apply IH. exact Hb.
Qed.

Lemma iteration_good cap0 fuel st cs : Good cap0 (fbuf st) -> Good cap0 (fbuf (fst (iteration fuel st cs))).
Proof.
  intros Hg. unfold iteration.
  pose proof (newline_loop_good cap0 fuel st cs Hg) as H1.
  destruct (newline_loop fuel st cs) as [st1 cs1]. cbn [fst] in H1.
  pose proof (comment_loop_good cap0 fuel st1 cs1 H1) as H2.
  destruct (comment_loop fuel st1 cs1) as [st2 cs2]. cbn [fst] in H2.
  destruct (whitespace_shape (last_byte (fbuf st2)) cs2) as (C & Ht & Hc).
  destruct (whitespace_ops (last_byte (fbuf st2)) cs2) as [ws cs3]. cbn [fst] in *.
  assert (H3 : Good cap0 (apply_ops ws (fbuf st2))) by (eapply Good_apply_calm; eassumption).
  destruct (sample TEndOfSource token_table cs3) as [k cs4].
  pose proof (push_token_good cap0 k _ cs4 H3) as H4.
  destruct (push_token k (last_byte (apply_ops ws (fbuf st2))) cs4) as [ops cs5]. cbn [fst] in *.
  exact H4.
Qed.

(* The induction over [emit_loop], carried to [emit_run].  A property [Inv] of the fuel, the
   state and the choices still to come that every round keeps holds at the exit as well, and
   the status tells which exit was taken ([OutOfFuel] also stands for an inner loop that ran
   out, [AssertFailed] leaves the initial state). *)
Lemma emit_run_rule cap pct (Inv : nat -> fstate -> list choice -> Prop) fuel cs :
  (forall f st c cs, 100 * blen (fbuf st) < pct * bcap (fbuf st) -> Inv (S f) st (c :: cs) ->
     Inv f (fst (iteration (S f) st (c :: cs))) (snd (iteration (S f) st (c :: cs)))) ->
  Inv fuel {| fbuf := empty_buf cap; nl_at := fst (rrange 10 80 cs); cm_at := fst (rrange 200 500 (tl cs)); foof := false |}
      (tl (tl cs)) ->
  let '(s, st') := emit_run fuel cs cap pct in
  exists f' cs', Inv f' st' cs' /\
    match s with
    | Finished => pct * bcap (fbuf st') <= 100 * blen (fbuf st')
    | OutOfChoices => cs' = [] /\ 100 * blen (fbuf st') < pct * bcap (fbuf st')
    | OutOfFuel => f' = O \/ foof st' = true
    | AssertFailed => 100 <= pct
    end.
Proof.
  intros Hround. unfold emit_run.
  pose proof (rrange_tl 10 80 cs) as E1. destruct (rrange 10 80 cs) as [n1 cs1]. cbn [snd] in E1. subst cs1.
  pose proof (rrange_tl 200 500 (tl cs)) as E2. destruct (rrange 200 500 (tl cs)) as [n2 cs2]. cbn [fst snd] in *. subst cs2.
  generalize (tl (tl cs)). intros cs0.
  generalize {| fbuf := empty_buf cap; nl_at := n1; cm_at := n2; foof := false |}. intros st0 H0.
  destruct (N.ltb_spec pct 100) as [_|Hge]; [|now exists fuel, cs0].
  enough (H : let '(s, st') := emit_loop fuel pct st0 cs0 in
              exists f' cs', Inv f' st' cs' /\
                match s with
                | Finished => pct * bcap (fbuf st') <= 100 * blen (fbuf st')
                | OutOfChoices => cs' = [] /\ 100 * blen (fbuf st') < pct * bcap (fbuf st')
                | OutOfFuel => f' = O
                | AssertFailed => False
                end).
  { destruct (emit_loop fuel pct st0 cs0) as [s st]. destruct H as (f' & cs' & HI & Hs). exists f', cs'.
    split; [exact HI|]. destruct (foof st); [now right|]. destruct s; tauto. }
  revert st0 cs0 H0. induction fuel as [|f IH]; intros st cs0 HI; [now exists O, cs0|]. cbn [emit_loop].
  destruct (N.ltb_spec (100 * blen (fbuf st)) (pct * bcap (fbuf st))) as [Hlt|Hge]; [|now exists (S f), cs0].
  destruct cs0 as [|c cs0]; [now exists (S f), []|].
  specialize (Hround f st c cs0 Hlt HI). destruct (iteration (S f) st (c :: cs0)) as [st' cs']. exact (IH st' cs' Hround).
Qed.

Lemma emit_run_good fuel cs cap pct : Good cap (fbuf (snd (emit_run fuel cs cap pct))) /\
  (fst (emit_run fuel cs cap pct) = Finished ->
   let b := fbuf (snd (emit_run fuel cs cap pct)) in pct * bcap b <= 100 * blen b).
Proof.
  pose proof (emit_run_rule cap pct (fun _ st _ => Good cap (fbuf st)) fuel cs
                (fun f st c cs _ => iteration_good cap (S f) st (c :: cs)) (Good_empty cap)) as H.
  destruct (emit_run fuel cs cap pct) as [s st]. destruct H as (f' & cs' & H1 & H2). cbn [fst snd].
  split; [exact H1|]. intros E. now rewrite E in H2.
Qed.

Theorem emit_atoms fuel cs cap pct : exists A, emit fuel cs cap pct = flatc A /\ WF A.
Proof. destruct (emit_run_good fuel cs cap pct) as [[H _] _]. exact H. Qed.

(* the loop only stops once `100 * len >= percentage * capacity`, and the
   capacity never shrinks below the requested one *)
Theorem loop_exit_condition fuel cs cap pct :
  fst (emit_run fuel cs cap pct) = Finished ->
  pct * cap <= 100 * lenN (emit_bytes fuel cs cap pct).
Proof.
  intros Hf. destruct (emit_run_good fuel cs cap pct) as [(_ & Hlen & Hcap) H]. specialize (H Hf). cbv zeta in H.
  unfold emit_bytes, emit. rewrite <- str_len_encode, <- Hlen. nia.
Qed.

(* src/main.rs: capacity = kb * 1096, percentage 95: at least kb KiB *)
Theorem size_at_least cs kb :
  fst (fuzz_tokens cs kb) = Finished -> kb * 1024 <= lenN (snd (fuzz_tokens cs kb)).
Proof.
  unfold fuzz_tokens. cbn [fst snd]. intros Hf.
  pose proof (loop_exit_condition _ _ _ _ Hf) as H. unfold emit_bytes, emit in H. unfold buf_bytes. lia.
Qed.

Theorem emit_scalar fuel cs cap pct : forallb scalar (emit fuel cs cap pct) = true.
Proof.
  destruct (emit_atoms fuel cs cap pct) as (A & -> & [Hok _]). apply forallb_forall. intros z Hz.
  apply in_flat_map in Hz as (a & Ha & Hz). rewrite forallb_forall in Hok. exact (proj1 (atom_chars a (Hok a Ha) z Hz)).
Qed.

(* [f] hands back no more choices than it was given; so does every function of
   the model.  The bound is stated against a third list, so that the facts chain
   by [apply]; [keeps_le] is the form in which [auto] gets from a bound to [keeps]. *)
Definition keeps {A} (f : list choice -> A * list choice) : Prop :=
  forall cs (l : list choice), (length cs <= length l)%nat -> (length (snd (f cs)) <= length l)%nat.

Lemma keeps_le {A} (f : list choice -> A * list choice) cs (l : list choice) :
  keeps f -> (length cs <= length l)%nat -> (length (snd (f cs)) <= length l)%nat.
Proof. intros K. apply K. Qed.

Lemma tl_keeps {A} (cs l : list A) : (length cs <= length l)%nat -> (length (tl cs) <= length l)%nat.
Proof. destruct cs; cbn [tl length]; lia. Qed.

Lemma rbool_keeps a b : keeps (rbool a b).
Proof. intros cs l. rewrite rbool_tl. apply tl_keeps. Qed.
Lemma rrange_keeps a b : keeps (rrange a b).
Proof. intros cs l. rewrite rrange_tl. apply tl_keeps. Qed.
Lemma random_scalar_keeps : keeps random_scalar.
Proof. intros cs l. rewrite random_scalar_tl. apply tl_keeps. Qed.
Lemma sample_keeps {A} (d : A) t : keeps (sample d t).
Proof. intros cs l. rewrite sample_tl. apply tl_keeps. Qed.

Create HintDb keeps discriminated.
#[local] Hint Resolve keeps_le rbool_keeps rrange_keeps random_scalar_keeps sample_keeps : keeps.

(* A walk through the body of a function.  At a [let '(x, cs') := p] the bound of
   what [p] hands back is recorded and [p] named; where [p] itself branches, its
   bound comes from a walk of its own, so that the rest of the body is not walked
   once per branch of [p].  At an [if] the walk splits. *)
Ltac draw_step l :=
  match goal with
  | |- context [match ?p with (_, _) => _ end] =>
      let L := fresh "L" in
      assert (L : (length (snd p) <= length l)%nat) by (auto with keeps || draws l);
      destruct p as [? ?]; cbn [snd] in L
  | |- context [if ?b then _ else _] => destruct b; cbn beta iota
  end
with draws l := repeat draw_step l; cbn [snd]; auto with keeps.

Lemma random_uint_keeps : keeps random_uint.
Proof. intros cs l H. unfold random_uint. draws l. Qed.
Lemma random_char_keeps : keeps random_char.
Proof. intros cs l H. unfold random_char. draws l. Qed.
#[local] Hint Resolve random_uint_keeps random_char_keeps : keeps.

Lemma ident_loop_keeps n : forall first, keeps (ident_loop n first).
Proof. induction n as [|n IH]; intros first cs l H; [exact H|]. cbn [ident_loop]. draws l. Qed.
#[local] Hint Resolve ident_loop_keeps : keeps.

Lemma random_identifier_keeps : keeps random_identifier.
Proof. intros cs l H. unfold random_identifier. draws l. Qed.

Lemma string_body_keeps n : keeps (string_body_ops n).
Proof. induction n as [|n IH]; intros cs l H; [exact H|]. cbn [string_body_ops]. draws l. Qed.

Lemma comment_chars_keeps n : keeps (comment_chars n).
Proof. induction n as [|n IH]; intros cs l H; [exact H|]. cbn [comment_chars]. draws l. Qed.
#[local] Hint Resolve comment_chars_keeps : keeps.

Lemma comment_ops_len cs : (length (snd (comment_ops cs)) <= length cs)%nat.
Proof. unfold comment_ops. pose proof (le_n (length cs)). draws cs. Qed.

Lemma whitespace_ops_keeps last : keeps (whitespace_ops last).
Proof. intros cs l H. unfold whitespace_ops. destruct last as [x|]; [|exact H]. draws l. Qed.

#[local] Hint Resolve random_identifier_keeps string_body_keeps : keeps.

Lemma token_ops_keeps k : keeps (token_ops k).
Proof.
  intros cs l H. destruct (variable_kind k) eqn:Hv; [|destruct (const_token_ops k cs Hv) as (o & -> & _); exact H].
  destruct k; try discriminate Hv; clear Hv; cbn [token_ops];
    unfold suffixed_integer_text, bit_integer_text, char_literal_ops, string_literal_ops; draws l.
Qed.

Lemma push_token_keeps k last : keeps (push_token k last).
Proof. intros cs l H. unfold push_token. rewrite let_pair. now apply token_ops_keeps. Qed.

(* the inner loops: two units of fuel more than there are choices are enough *)
Lemma newline_loop_fuel : forall fuel st cs, (length cs + 2 <= fuel)%nat ->
  foof (fst (newline_loop fuel st cs)) = foof st /\
  (length (snd (newline_loop fuel st cs)) <= length cs)%nat.
Proof.
  induction fuel as [|f IH]; intros st cs Hf; [lia|]. cbn [newline_loop].
  destruct (nl_at st <? blen (fbuf st)); [|cbn; split; [reflexivity|lia]].
  destruct cs as [|c cs].
  - (* no choices left: every draw is 0, the loop updates its mark and exits *)
    cbn [rbool rrange draw]. change (0 mod 5 <? 4) with true. cbn iota.
    destruct f as [|f]; [lia|]. cbn [newline_loop nl_at fbuf blen].
    set (b := apply_ops _ (fbuf st)). change (10 + 0 mod (80 - 10)) with 10.
    destruct (N.ltb_spec (blen b + 10) (blen b)) as [Hc|_]; [lia|].
    cbn. split; [reflexivity|lia].
  - (* the first draw takes [c] *)
    pose proof (rbool_tl 1 20 (c :: cs)) as E. destruct (rbool 1 20 (c :: cs)) as [cr cs1]. cbn [snd tl] in E. subst cs1.
    pose proof (le_n (length cs)) as L0. cbn [length] in *. set (b := apply_ops _ (fbuf st)).
    repeat draw_step cs;
      (match goal with |- context [newline_loop f ?s ?c] => destruct (IH s c ltac:(lia)) as [H1 H2] end;
       rewrite H1; cbn [foof]; split; [reflexivity|lia]).
Qed.

Lemma comment_loop_fuel : forall fuel st cs, (length cs + 2 <= fuel)%nat ->
  foof (fst (comment_loop fuel st cs)) = foof st /\
  (length (snd (comment_loop fuel st cs)) <= length cs)%nat.
Proof.
  induction fuel as [|f IH]; intros st cs Hf; [lia|]. cbn [comment_loop].
  destruct (cm_at st <? blen (fbuf st)); [|cbn; split; [reflexivity|lia]].
  destruct cs as [|c cs].
  - change (comment_ops []) with ([OChar 10; OStr [47; 47]; OChar 10], @nil choice).
    cbn [rbool rrange draw]. change (0 mod 10 <? 9) with true. cbn iota.
    destruct f as [|f]; [lia|]. cbn [comment_loop cm_at fbuf blen].
    set (b := apply_ops _ (fbuf st)). change (200 + 0 mod (500 - 200)) with 200.
    destruct (N.ltb_spec (blen b + 200) (blen b)) as [Hc|_]; [lia|].
    cbn. split; [reflexivity|lia].
  - (* the first draw of the comment takes [c] *)
    assert (Hd : (length (snd (comment_ops (c :: cs))) <= length cs)%nat).
    { unfold comment_ops. rewrite !let_pair. cbn [snd]. apply comment_chars_keeps.
      rewrite rrange_tl, rbool_tl. apply tl_keeps, le_n. }
    destruct (comment_ops (c :: cs)) as [ops cs1]. cbn [snd length] in *.
    repeat draw_step cs;
      (match goal with |- context [comment_loop f ?s ?c] => destruct (IH s c ltac:(lia)) as [H1 H2] end;
       rewrite H1; cbn [foof]; split; [reflexivity|lia]).
Qed.

Lemma iteration_fuel fuel st c cs : (length (c :: cs) + 2 <= fuel)%nat ->
  foof (fst (iteration fuel st (c :: cs))) = foof st /\
  (length (snd (iteration fuel st (c :: cs))) < length (c :: cs))%nat.
Proof.
  intros Hf. unfold iteration.
  destruct (newline_loop_fuel fuel st (c :: cs) Hf) as [H1 L1].
  destruct (newline_loop fuel st (c :: cs)) as [st1 cs1]. cbn [fst snd] in *.
  destruct (comment_loop_fuel fuel st1 cs1 ltac:(lia)) as [H2 L2].
  destruct (comment_loop fuel st1 cs1) as [st2 cs2]. cbn [fst snd] in *.
  pose proof (whitespace_ops_keeps (last_byte (fbuf st2)) cs2 cs2 (le_n _)) as L3.
  destruct (whitespace_ops (last_byte (fbuf st2)) cs2) as [ws cs3]. cbn [snd] in L3.
  rewrite !let_pair, sample_tl. cbn [fst snd foof]. split; [congruence|].
  (* the token draw is the one that is certainly consumed, unless nothing is left *)
  match goal with |- context [push_token ?k ?l (tl cs3)] =>
    pose proof (push_token_keeps k l (tl cs3) (tl cs3) (le_n _)) as L5 end.
  destruct cs3 as [|c3 cs3']; cbn [tl length] in *; lia.
Qed.

Theorem emit_run_fuel fuel cs cap pct : (length cs < fuel)%nat -> fst (emit_run fuel cs cap pct) <> OutOfFuel.
Proof.
  intros Hfuel.
  (* the fuel is not used up; while choices remain, there are two units more of it;
     no inner loop has run out *)
  set (J := fun (f : nat) st (cs : list choice) => f <> O /\ (cs <> [] -> length cs + 2 <= f)%nat /\ foof st = false).
  assert (Hround : forall f st c cs, 100 * blen (fbuf st) < pct * bcap (fbuf st) -> J (S f) st (c :: cs) ->
            J f (fst (iteration (S f) st (c :: cs))) (snd (iteration (S f) st (c :: cs)))).
  { intros f st c cs1 _ (_ & Hlen & Hfo). specialize (Hlen ltac:(discriminate)).
    destruct (iteration_fuel (S f) st c cs1 Hlen) as [H1 L1]. cbn [length] in *.
    split; [lia|]. split; [lia|congruence]. }
  pose proof (emit_run_rule cap pct J fuel cs Hround) as H.
  destruct (emit_run fuel cs cap pct) as [s st]. destruct H as (f' & cs' & (Hf' & _ & Hfoof) & Hs).
  { split; [lia|]. split; [|reflexivity]. destruct cs as [|a [|a' cs']]; cbn [tl length] in *; [congruence|congruence|lia]. }
  cbn [fst]. intros ->. destruct Hs; congruence.
Qed.

(* do_fuzzing never runs out of fuel in the model *)
Theorem fuzz_tokens_fuel cs kb : fst (fuzz_tokens cs kb) <> OutOfFuel.
Proof. unfold fuzz_tokens. cbn [fst]. apply emit_run_fuel, Nat.lt_succ_diag_r. Qed.

Lemma emit_run_status fuel cs cap pct : pct < 100 -> fst (emit_run fuel cs cap pct) <> AssertFailed.
Proof.
  intros Hp. pose proof (emit_run_rule cap pct (fun _ _ _ => True) fuel cs (fun _ _ _ _ _ _ => I) I) as H.
  destruct (emit_run fuel cs cap pct) as [s st]. destruct H as (f' & cs' & _ & H). cbn [fst]. intros ->. lia.
Qed.

(* the run ends because the buffer is full enough or because the choices ran out *)
Theorem fuzz_tokens_status cs kb :
  fst (fuzz_tokens cs kb) = Finished \/ fst (fuzz_tokens cs kb) = OutOfChoices.
Proof.
  pose proof (fuzz_tokens_fuel cs kb) as Hf.
  pose proof (emit_run_status (S (length cs)) cs (kb * 1096) 95 eq_refl) as Ha.
  unfold fuzz_tokens in *. cbn [fst] in *. destruct (fst (emit_run _ _ _ _)); auto; congruence.
Qed.
