(* The type gate of the resolver and of the call analyzer (Model/Resolve.v) is sound for ANY
   annotations the typer may have produced.  Each check is inverted once ([binary_op_type_ok]
   and its like: what an [Ok] says about the annotations of the operands); soundness
   ([resolve_ok]), the facts about every node of an accepted tree and the rejection theorems
   (a failed check is reported unless an operand fails, [node1_rejected], [node2_rejected])
   rest on those. *)
From Coq Require String.
From PV Require Import Base.Common Base.IR Gen.TypeTables Gen.ResolverTables Model.Resolve.
From PV Require Gen.Codes.

Lemma vtype_eqb_eq a b : vtype_eqb a b = true <-> a = b.
Proof.
  destruct a as [p|i|i], b as [q|j|j]; cbn [vtype_eqb]; rewrite ?prim_eqb_eq, ?N.eqb_eq;
    split; congruence.
Qed.

Lemma vtype_eqb_refl a : vtype_eqb a a = true.
Proof. now apply vtype_eqb_eq. Qed.

Lemma vtype_eqb_neq a b : vtype_eqb a b = false <-> a <> b.
Proof.
  rewrite <- vtype_eqb_eq. destruct (vtype_eqb a b); split; intros; congruence.
Qed.

Lemma operand_eqb_eq a b : operand_eqb a b = true <-> a = b.
Proof.
  destruct a as [p|], b as [q|]; cbn [operand_eqb]; rewrite ?prim_eqb_eq; split; congruence.
Qed.

Lemma valid_operand_in_class t valid : valid_operand t valid = in_class t valid.
Proof.
  unfold valid_operand, in_class, mem_operand.
  induction valid as [|o rest IH]; cbn [existsb].
  - now destruct (operand_of t).
  - rewrite IH. destruct t as [p|i|i]; cbn [operand_of is_pointer]; destruct o as [q|];
      cbn [vtype_eqb operand_eqb]; try reflexivity.
    f_equal. destruct p, q; reflexivity.
Qed.

Lemma bind_ok {A B} (r : res A) (f : A -> res B) b :
  bind r f = Ok b -> exists a, r = Ok a /\ f a = Ok b.
Proof. destruct r as [a|es]; cbn [bind]; intros H; [eauto|discriminate]. Qed.

Lemma combine2_ok {A B} (a : res A) (b : res B) p :
  combine2 a b = Ok p -> a = Ok (fst p) /\ b = Ok (snd p).
Proof.
  destruct a as [x|es], b as [y|es']; cbn [combine2]; intros H; try discriminate.
  injection H as <-. now split.
Qed.

Lemma of_ann_ok amb a t : of_ann amb a = Ok t -> a = Some (ROk t).
Proof.
  destruct a as [[u|p]|]; cbn [of_ann]; intros H; try discriminate. now injection H as ->.
Qed.

Lemma analyze_operand_type_eq t valid :
  analyze_operand_type t valid = if in_class t valid then Ok t else Err [E550].
Proof. unfold analyze_operand_type. now rewrite valid_operand_in_class. Qed.

Lemma analyze_operand_type_ok t valid u :
  analyze_operand_type t valid = Ok u -> u = t /\ in_class t valid = true.
Proof.
  rewrite analyze_operand_type_eq.
  destruct (in_class t valid); intros H; [|discriminate]. injection H as <-. now split.
Qed.

Theorem offset_table_ok o : mem_operand o valid_types_for_offset = operand_eqb o (OPrim Usize).
Proof. destruct o as [p|]; [destruct p|]; reflexivity. Qed.

Lemma offset_class t : in_class t valid_types_for_offset = true -> t = VPrim Usize.
Proof.
  unfold in_class. destruct t as [p|i|i]; cbn [operand_of]; try discriminate.
  rewrite offset_table_ok, operand_eqb_eq. congruence.
Qed.

Lemma match_type_ok l r t :
  match_type_of_operands l r = Ok t ->
  value_type l = Some (ROk t) /\ value_type r = Some (ROk t).
Proof.
  unfold match_type_of_operands.
  destruct (value_type l) as [[a|p]|], (value_type r) as [[b|q]|]; intros H; try discriminate.
  destruct (vtype_eqb b a) eqn:E; [|discriminate].
  injection H as <-. apply vtype_eqb_eq in E. now subst.
Qed.

Lemma binary_op_type_ok op l r t :
  resolve_binary_op_type op l r = Ok t ->
  value_type l = Some (ROk t)
  /\ value_type r = Some (ROk (if is_advance op then VPrim Usize else t))
  /\ in_class t (binop_valid_types op) = true.
Proof.
  unfold resolve_binary_op_type. intros H. apply bind_ok in H as [vt [Hvt H]].
  apply analyze_operand_type_ok in H as [-> Hc]. destruct (is_advance op).
  - apply bind_ok in Hvt as [ot [Hot H]]. apply bind_ok in H as [u [Hu H]].
    apply analyze_operand_type_ok in Hu as [_ Hu]. apply offset_class in Hu as ->.
    apply of_ann_ok in Hot, H. auto.
  - apply match_type_ok in Hvt as [Hl Hr]. auto.
Qed.

Lemma unary_op_type_ok op e t :
  resolve_unary_op_type op e = Ok t ->
  value_type e = Some (ROk t) /\ in_class t (unop_valid_types op) = true.
Proof.
  unfold resolve_unary_op_type. intros H. apply bind_ok in H as [vt [Hvt H]].
  apply analyze_operand_type_ok in H as [-> Hc]. apply of_ann_ok in Hvt. auto.
Qed.

Lemma compared_type_ok op l r t :
  resolve_compared_type op l r = Ok t ->
  value_type l = Some (ROk t) /\ value_type r = Some (ROk t)
  /\ in_class t (cmpop_valid_types op) = true.
Proof.
  unfold resolve_compared_type. intros H. apply bind_ok in H as [vt [Hvt H]].
  apply analyze_operand_type_ok in H as [-> Hc]. apply match_type_ok in Hvt as [Hl Hr]. auto.
Qed.

(* [None] is the type hint *)
Lemma primitive_cast_ok e t et :
  analyze_primitive_cast e t = Ok et ->
  exists s, value_type e = Some (ROk s)
            /\ match et with None => s = t | Some src => src = s /\ prim_conversion s t = true end.
Proof.
  unfold analyze_primitive_cast. intros H. apply bind_ok in H as [s [Hs H]].
  apply of_ann_ok in Hs. exists s. split; [assumption|].
  destruct (vtype_eqb s t) eqn:E; [injection H as <-; now apply vtype_eqb_eq|].
  destruct (prim_conversion s t); [|discriminate]. injection H as <-. now split.
Qed.

Lemma bit_cast_ok e a ct :
  analyze_bit_cast e a = Ok ct ->
  exists s, value_type e = Some (ROk s) /\ a = Some (ROk ct) /\ is_valid_bit_cast s ct = true.
Proof.
  unfold analyze_bit_cast. intros H. apply bind_ok in H as [s [Hs H]].
  apply bind_ok in H as [ct' [Ha H]]. apply of_ann_ok in Hs, Ha. exists s.
  destruct (is_valid_bit_cast s ct') eqn:E; [|discriminate]. injection H as <-. auto.
Qed.

Section texpr_ind2.
  Variable P : texpr -> Prop.
  Hypothesis HLeaf : forall k a, P (TLeaf k a).
  Hypothesis HPoison : forall p, P (TPoison p).
  Hypothesis HBin : forall op l r, P l -> P r -> P (TBinary op l r).
  Hypothesis HUn : forall op e, P e -> P (TUnary op e).
  Hypothesis HParen : forall e, P e -> P (TParen e).
  Hypothesis HAuto : forall e t, P e -> P (TAutocoerce e t).
  Hypothesis HCast : forall e t, P e -> P (TTypeCast e t).
  Hypothesis HBit : forall e a, P e -> P (TBitCast e a).
  Hypothesis HCall : forall f args a, Forall P args -> P (TCall f args a).
  Fixpoint texpr_ind2 (e : texpr) : P e :=
    match e with
    | TLeaf k a => HLeaf k a
    | TPoison p => HPoison p
    | TBinary op l r => HBin op l r (texpr_ind2 l) (texpr_ind2 r)
    | TUnary op x => HUn op x (texpr_ind2 x)
    | TParen x => HParen x (texpr_ind2 x)
    | TAutocoerce x t => HAuto x t (texpr_ind2 x)
    | TTypeCast x t => HCast x t (texpr_ind2 x)
    | TBitCast x a => HBit x a (texpr_ind2 x)
    | TCall f args a => HCall f args a (Forall_all P texpr_ind2 args)
    end.
End texpr_ind2.

Lemma resolve_list_ok f (Q : rexpr -> Prop) xs :
  Forall (fun x => forall y, f x = Ok y -> Q y) xs ->
  forall ys, resolve_list f xs = Ok ys -> Forall Q ys.
Proof.
  induction 1 as [|x rest Hx _ IH]; intros ys; cbn [resolve_list].
  - intros [= <-]. constructor.
  - destruct (f x) as [y|es], (resolve_list f rest) as [zs|es']; intros H; try discriminate.
    injection H as <-. constructor; auto.
Qed.

(* both in one induction: a node is well typed only if its resolved operands have the types
   their annotations announced *)
Lemma resolve_ok : forall e r,
  resolve_expr e = Ok r -> value_type e = Some (ROk (rtype r)) /\ well_typed r = true.
Proof.
  induction e as [k a|p|op l r IHl IHr|op e IHe|e IHe|e t IHe|e t IHe|e a IHe|f args a IHargs]
    using texpr_ind2; intros res H; cbn [resolve_expr] in H; cbn [value_type].
  - apply bind_ok in H as [t [Ha H]]. injection H as <-. now apply of_ann_ok in Ha.
  - discriminate.
  - apply bind_ok in H as [lr [Hlr H]]. apply bind_ok in H as [t [Ht H]]. injection H as <-.
    apply combine2_ok in Hlr as [Hl Hr].
    destruct (IHl _ Hl) as [Tl Wl], (IHr _ Hr) as [Tr Wr].
    apply binary_op_type_ok in Ht as [Vl [Vr Hc]]. split; [exact Vl|].
    rewrite Tl in Vl. rewrite Tr in Vr. injection Vl as Vl. injection Vr as Vr.
    cbn [well_typed]. now rewrite Wl, Wr, Vl, Vr, Hc, !vtype_eqb_refl.
  - apply bind_ok in H as [x' [Hx H]]. apply bind_ok in H as [t [Ht H]]. injection H as <-.
    destruct (IHe _ Hx) as [Tx Wx]. apply unary_op_type_ok in Ht as [Vx Hc]. split; [exact Vx|].
    rewrite Tx in Vx. injection Vx as Vx. cbn [well_typed]. now rewrite Wx, Vx, Hc, vtype_eqb_refl.
  - apply bind_ok in H as [x' [Hx H]]. injection H as <-. exact (IHe _ Hx).
  - apply bind_ok in H as [x' [Hx H]]. injection H as <-. split; [reflexivity|apply (IHe _ Hx)].
  - apply bind_ok in H as [x' [Hx H]]. apply bind_ok in H as [et [Het H]].
    destruct (IHe _ Hx) as [Tx Wx]. apply primitive_cast_ok in Het as [s [Vs Het]].
    rewrite Tx in Vs. injection Vs as <-. destruct et as [src|]; injection H as <-.
    + destruct Het as [-> Hc]. split; [reflexivity|]. cbn [well_typed].
      now rewrite Wx, Hc, vtype_eqb_refl.
    + now rewrite <- Het.
  - apply bind_ok in H as [x' [Hx H]]. apply bind_ok in H as [ct [Hct H]]. injection H as <-.
    destruct (IHe _ Hx) as [Tx Wx]. apply bit_cast_ok in Hct as [s [Vs [-> Hb]]].
    rewrite Tx in Vs. injection Vs as <-. split; [reflexivity|]. cbn [well_typed]. now rewrite Wx, Hb.
  - apply bind_ok in H as [args' [Hargs H]]. apply bind_ok in H as [rt [Ha H]]. injection H as <-.
    apply of_ann_ok in Ha. split; [exact Ha|]. cbn [well_typed]. apply forallb_Forall.
    refine (resolve_list_ok _ _ _ (Forall_impl _ _ IHargs) _ Hargs). intros x Hx y Hy. apply (Hx y Hy).
Qed.

Theorem resolve_type_agrees : forall e r,
  resolve_expr e = Ok r -> value_type e = Some (ROk (rtype r)).
Proof. intros e r H. apply (resolve_ok e r H). Qed.

(* the assert!(from.is_some()) of the Autocoerce arm cannot fire *)
Corollary autocoerce_assert_holds e r : resolve_expr e = Ok r -> value_type e <> None.
Proof. intros H. rewrite (resolve_type_agrees _ _ H). discriminate. Qed.

Theorem resolve_sound : forall e r, resolve_expr e = Ok r -> well_typed r = true.
Proof. intros e r H. apply (resolve_ok e r H). Qed.

Theorem resolve_cmp_sound : forall c r, resolve_cmp c = Ok r -> well_typed_cmp r = true.
Proof.
  intros [op l r] res H. cbn [resolve_cmp] in H.
  apply bind_ok in H as [lr [Hlr H]]. apply bind_ok in H as [t [Ht H]]. injection H as <-.
  apply combine2_ok in Hlr as [Hl Hr].
  destruct (resolve_ok _ _ Hl) as [Tl Wl], (resolve_ok _ _ Hr) as [Tr Wr].
  apply compared_type_ok in Ht as [Vl [Vr Hc]].
  rewrite Tl in Vl. rewrite Tr in Vr. injection Vl as Vl. injection Vr as Vr.
  cbn [well_typed_cmp]. now rewrite Wl, Wr, Vl, Vr, Hc, vtype_eqb_refl.
Qed.

(* How a node combines the verdict of its own check with its operands: the errors
   of the operands win, the error of the check is reported only when both
   operands resolve. *)
Definition node_errors2 (l r : texpr) (cs es : list code) : Prop :=
  (exists l' r', resolve_expr l = Ok l' /\ resolve_expr r = Ok r' /\ es = cs)
  \/ combine2 (resolve_expr l) (resolve_expr r) = Err es.

Definition node_errors1 (e : texpr) (cs es : list code) : Prop :=
  (exists e', resolve_expr e = Ok e' /\ es = cs) \/ resolve_expr e = Err es.

(* every arm with a check has this shape: the check is computed first and consulted after
   the operands *)
Lemma node2_rejected {A B} l r (chk : res A) (k : rexpr * rexpr -> A -> res B) cs :
  chk = Err cs ->
  exists es, bind (combine2 (resolve_expr l) (resolve_expr r)) (fun lr => bind chk (k lr)) = Err es
             /\ node_errors2 l r cs es.
Proof.
  intros ->. unfold node_errors2.
  destruct (resolve_expr l) as [l'|e1], (resolve_expr r) as [r'|e2]; cbn [combine2 bind]; eauto 10.
Qed.

Lemma node1_rejected {A B} e (chk : res A) (k : rexpr -> A -> res B) cs :
  chk = Err cs ->
  exists es, bind (resolve_expr e) (fun x => bind chk (k x)) = Err es /\ node_errors1 e cs es.
Proof.
  intros ->. unfold node_errors1. destruct (resolve_expr e) as [e'|e1]; cbn [bind]; eauto 10.
Qed.

Lemma match_type_eq l r a b :
  value_type l = Some (ROk a) -> value_type r = Some (ROk b) ->
  match_type_of_operands l r = if vtype_eqb b a then Ok a else Err [E551].
Proof. intros Hl Hr. unfold match_type_of_operands. now rewrite Hl, Hr. Qed.

Lemma match_type_mismatch l r a b :
  value_type l = Some (ROk a) -> value_type r = Some (ROk b) -> a <> b ->
  match_type_of_operands l r = Err [E551].
Proof.
  intros Hl Hr Hab. rewrite (match_type_eq l r a b Hl Hr).
  destruct (vtype_eqb b a) eqn:E; [|reflexivity]. apply vtype_eqb_eq in E. congruence.
Qed.

Theorem mismatch_rejected op l r a b :
  is_advance op = false ->
  value_type l = Some (ROk a) -> value_type r = Some (ROk b) -> a <> b ->
  exists es, resolve_expr (TBinary op l r) = Err es /\ node_errors2 l r [E551] es.
Proof.
  intros Hop Hl Hr Hab. cbn [resolve_expr]. apply node2_rejected.
  unfold resolve_binary_op_type. rewrite Hop. now rewrite (match_type_mismatch l r a b).
Qed.

Theorem mismatch_rejected_cmp op l r a b :
  value_type l = Some (ROk a) -> value_type r = Some (ROk b) -> a <> b ->
  exists es, resolve_cmp (TCmp op l r) = Err es /\ node_errors2 l r [E551] es.
Proof.
  intros Hl Hr Hab. cbn [resolve_cmp]. apply node2_rejected.
  unfold resolve_compared_type. now rewrite (match_type_mismatch l r a b).
Qed.

Theorem class_violation_rejected op l r a :
  is_advance op = false ->
  value_type l = Some (ROk a) -> value_type r = Some (ROk a) ->
  in_class a (binop_valid_types op) = false ->
  exists es, resolve_expr (TBinary op l r) = Err es /\ node_errors2 l r [E550] es.
Proof.
  intros Hop Hl Hr Hc. cbn [resolve_expr]. apply node2_rejected.
  unfold resolve_binary_op_type. rewrite Hop, (match_type_eq l r a a Hl Hr), vtype_eqb_refl.
  cbn [bind]. now rewrite analyze_operand_type_eq, Hc.
Qed.

(* AdvancePointer: the offset is checked first (it must be a usize), then the pointer *)
Theorem advance_offset_rejected l r b :
  value_type r = Some (ROk b) -> b <> VPrim Usize ->
  exists es, resolve_expr (TBinary AdvancePointer l r) = Err es /\ node_errors2 l r [E550] es.
Proof.
  intros Hr Hb. cbn [resolve_expr]. apply node2_rejected.
  unfold resolve_binary_op_type, get_type_of_operand. cbn [is_advance]. rewrite Hr. cbn [of_ann bind].
  rewrite analyze_operand_type_eq.
  destruct (in_class b valid_types_for_offset) eqn:E; [|reflexivity].
  apply offset_class in E. contradiction.
Qed.

Theorem class_violation_rejected_advance l r a :
  value_type r = Some (ROk (VPrim Usize)) ->
  value_type l = Some (ROk a) -> is_pointer a = false ->
  exists es, resolve_expr (TBinary AdvancePointer l r) = Err es /\ node_errors2 l r [E550] es.
Proof.
  intros Hr Hl Hp. cbn [resolve_expr]. apply node2_rejected.
  unfold resolve_binary_op_type, get_type_of_operand. cbn [is_advance]. rewrite Hr, Hl. cbn [of_ann bind].
  rewrite !analyze_operand_type_eq.
  change (in_class (VPrim Usize) valid_types_for_offset) with true. cbn [bind].
  destruct a as [p|i|i]; try discriminate; reflexivity.
Qed.

Theorem class_violation_rejected_unary op e a :
  value_type e = Some (ROk a) -> in_class a (unop_valid_types op) = false ->
  exists es, resolve_expr (TUnary op e) = Err es /\ node_errors1 e [E550] es.
Proof.
  intros He Hc. cbn [resolve_expr]. apply node1_rejected.
  unfold resolve_unary_op_type, get_type_of_operand. rewrite He. cbn [of_ann bind].
  now rewrite analyze_operand_type_eq, Hc.
Qed.

Theorem class_violation_rejected_cmp op l r a :
  value_type l = Some (ROk a) -> value_type r = Some (ROk a) ->
  in_class a (cmpop_valid_types op) = false ->
  exists es, resolve_cmp (TCmp op l r) = Err es /\ node_errors2 l r [E550] es.
Proof.
  intros Hl Hr Hc. cbn [resolve_cmp]. apply node2_rejected.
  unfold resolve_compared_type. rewrite (match_type_eq l r a a Hl Hr), vtype_eqb_refl. cbn [bind].
  now rewrite analyze_operand_type_eq, Hc.
Qed.

Theorem bad_cast_rejected e s t :
  value_type e = Some (ROk s) -> s <> t -> prim_conversion s t = false ->
  exists es, resolve_expr (TTypeCast e t) = Err es /\ node_errors1 e [E552] es.
Proof.
  intros He Hst Hc. cbn [resolve_expr]. apply node1_rejected.
  unfold analyze_primitive_cast. rewrite He. cbn [of_ann bind].
  apply vtype_eqb_neq in Hst. now rewrite Hst, Hc.
Qed.

Corollary nonprimitive_cast_rejected e s t :
  value_type e = Some (ROk s) -> s <> t ->
  (forall p, s <> VPrim p) \/ (forall p, t <> VPrim p) ->
  exists es, resolve_expr (TTypeCast e t) = Err es /\ node_errors1 e [E552] es.
Proof.
  intros He Hst Hnp. apply (bad_cast_rejected e s t He Hst).
  destruct s as [p|i|i], t as [q|j|j]; try reflexivity.
  destruct Hnp as [H|H]; [now elim (H p)|now elim (H q)].
Qed.

Theorem bad_bitcast_rejected e s d :
  value_type e = Some (ROk s) -> is_valid_bit_cast s d = false ->
  exists es, resolve_expr (TBitCast e (Some (ROk d))) = Err es /\ node_errors1 e [E553] es.
Proof.
  intros He Hb. cbn [resolve_expr]. apply node1_rejected.
  unfold analyze_bit_cast. rewrite He. cbn [of_ann bind]. now rewrite Hb.
Qed.

(* An expression without a type never resolves.  (The E580 of the operator check
   is in fact never what is reported for an untyped operand: the operand itself
   fails with its own code, and operand errors win.) *)
Theorem ambiguous_rejected e : value_type e = None -> exists es, resolve_expr e = Err es.
Proof.
  intros H. destruct (resolve_expr e) as [r|es] eqn:E; [|eauto].
  apply resolve_type_agrees in E. congruence.
Qed.

Theorem ambiguous_leaf_code k : resolve_expr (TLeaf k None) = Err [ambiguity_code k].
Proof. reflexivity. Qed.

Theorem ambiguous_operand_rejected op l r :
  value_type l = None \/ value_type r = None ->
  exists es, resolve_expr (TBinary op l r) = Err es /\
             combine2 (resolve_expr l) (resolve_expr r) = Err es.
Proof.
  intros [H|H]; apply ambiguous_rejected in H as [es0 H]; cbn [resolve_expr]; rewrite H.
  - destruct (resolve_expr r); cbn [combine2 bind]; eauto.
  - destruct (resolve_expr l); cbn [combine2 bind]; eauto.
Qed.

Theorem ambiguous_bitcast_rejected e :
  exists es, resolve_expr (TBitCast e None) = Err es /\ node_errors1 e [E580] es.
Proof.
  unfold node_errors1. cbn [resolve_expr]. destruct (resolve_expr e) as [e'|es] eqn:E; cbn [bind]; [|eauto].
  unfold analyze_bit_cast. rewrite (resolve_type_agrees _ _ E). cbn [of_ann bind]. eauto 10.
Qed.

Theorem ambiguous_call_rejected f args :
  exists es, resolve_expr (TCall f args None) = Err es /\
    ((exists args', resolve_list resolve_expr args = Ok args' /\ es = [E580])
     \/ resolve_list resolve_expr args = Err es).
Proof.
  cbn [resolve_expr]. destruct (resolve_list resolve_expr args) as [args'|es]; cbn [bind of_ann]; eauto 10.
Qed.

(* a poisoned annotation rejects without a code of its own *)
Theorem poisoned_leaf_silent k : resolve_expr (TLeaf k (Some (RPoison Poisoned))) = Err [].
Proof. reflexivity. Qed.

Inductive child : texpr -> texpr -> Prop :=
| child_bin_l op l r : child l (TBinary op l r)
| child_bin_r op l r : child r (TBinary op l r)
| child_un op e : child e (TUnary op e)
| child_paren e : child e (TParen e)
| child_auto e t : child e (TAutocoerce e t)
| child_cast e t : child e (TTypeCast e t)
| child_bit e a : child e (TBitCast e a)
| child_call f args a x : In x args -> child x (TCall f args a).

Inductive subexpr : texpr -> texpr -> Prop :=
| sub_refl e : subexpr e e
| sub_step s m e : subexpr s m -> child m e -> subexpr s e.

Lemma resolve_list_err f xs x es :
  In x xs -> f x = Err es ->
  exists es', resolve_list f xs = Err es' /\ incl es es'.
Proof.
  induction xs as [|y rest IH]; intros Hin Hx; [contradiction|].
  cbn [resolve_list]. destruct Hin as [->|Hin].
  - rewrite Hx. destruct (resolve_list f rest); eauto using incl_refl, incl_appl.
  - destruct (IH Hin Hx) as [es' [Hr Hi]]. rewrite Hr. destruct (f y); eauto using incl_appr.
Qed.

Lemma child_err m e es :
  child m e -> resolve_expr m = Err es ->
  exists es', resolve_expr e = Err es' /\ incl es es'.
Proof.
  intros Hc Hm. destruct Hc as [op l r|op l r|op e|e|e t|e t|e a|f args a x Hin];
    cbn [resolve_expr]; try rewrite Hm;
    [destruct (resolve_expr r)|destruct (resolve_expr l)|..
    |destruct (resolve_list_err resolve_expr args x es Hin Hm) as [es' [Hr Hi]]; rewrite Hr];
    cbn [combine2 bind]; eauto using incl_refl, incl_appl, incl_appr.
Qed.

(* errors are never dropped on the way up: what a subexpression reports, the whole reports *)
Theorem errors_propagate s e es :
  subexpr s e -> resolve_expr s = Err es ->
  exists es', resolve_expr e = Err es' /\ incl es es'.
Proof.
  intros Hs. revert es. induction Hs as [e|s m e Hsm IH Hc]; intros es Hes.
  - exists es. split; [assumption|apply incl_refl].
  - destruct (IH _ Hes) as [e1 [H1 I1]]. destruct (child_err _ _ _ Hc H1) as [e2 [H2 I2]].
    exists e2. split; [assumption|]. eapply incl_tran; eassumption.
Qed.

Corollary accepted_subexpr s e r :
  subexpr s e -> resolve_expr e = Ok r -> exists r', resolve_expr s = Ok r'.
Proof.
  intros Hs He. destruct (resolve_expr s) as [r'|es] eqn:E; [eauto|].
  destruct (errors_propagate _ _ _ Hs E) as [es' [H _]]. congruence.
Qed.

(* The property on the typed tree: in an accepted expression EVERY binary node,
   at any depth, has two operands of one and the same type, of the operator's class
   (AdvancePointer: a pointer and a usize);
   every unary node an operand of the operator's class; every `as` is a type hint or
   a conversion of the table. *)
Lemma accepted_binary_check e r0 op l r :
  resolve_expr e = Ok r0 -> subexpr (TBinary op l r) e ->
  exists t, value_type l = Some (ROk t)
            /\ value_type r = Some (ROk (if is_advance op then VPrim Usize else t))
            /\ in_class t (binop_valid_types op) = true.
Proof.
  intros He Hs. destruct (accepted_subexpr _ _ _ Hs He) as [r' H].
  cbn [resolve_expr] in H. apply bind_ok in H as [lr [_ H]]. apply bind_ok in H as [t [Ht _]].
  exists t. now apply binary_op_type_ok.
Qed.

Theorem accepted_binary_nodes e r0 op l r :
  resolve_expr e = Ok r0 -> subexpr (TBinary op l r) e -> is_advance op = false ->
  exists t, value_type l = Some (ROk t) /\ value_type r = Some (ROk t)
            /\ in_class t (binop_valid_types op) = true.
Proof.
  intros He Hs Hop. destruct (accepted_binary_check _ _ _ _ _ He Hs) as [t H].
  rewrite Hop in H. eauto.
Qed.

Theorem accepted_advance_nodes e r0 l r :
  resolve_expr e = Ok r0 -> subexpr (TBinary AdvancePointer l r) e ->
  value_type r = Some (ROk (VPrim Usize))
  /\ exists t, value_type l = Some (ROk t) /\ is_pointer t = true.
Proof.
  intros He Hs. destruct (accepted_binary_check _ _ _ _ _ He Hs) as [t [Hl [Hr Hc]]].
  split; [exact Hr|]. exists t. split; [exact Hl|].
  destruct t as [p|i|i]; [discriminate|reflexivity|discriminate].
Qed.

Theorem accepted_unary_nodes e r0 op x :
  resolve_expr e = Ok r0 -> subexpr (TUnary op x) e ->
  exists t, value_type x = Some (ROk t) /\ in_class t (unop_valid_types op) = true.
Proof.
  intros He Hs. destruct (accepted_subexpr _ _ _ Hs He) as [r' H].
  cbn [resolve_expr] in H. apply bind_ok in H as [x' [_ H]]. apply bind_ok in H as [t [Ht _]].
  apply unary_op_type_ok in Ht. eauto.
Qed.

Theorem accepted_cast_nodes e r0 x t :
  resolve_expr e = Ok r0 -> subexpr (TTypeCast x t) e ->
  exists s, value_type x = Some (ROk s) /\ (s = t \/ prim_conversion s t = true).
Proof.
  intros He Hs. destruct (accepted_subexpr _ _ _ Hs He) as [r' H].
  cbn [resolve_expr] in H. apply bind_ok in H as [x' [_ H]]. apply bind_ok in H as [et [Het _]].
  apply primitive_cast_ok in Het as [s [Hs' Het]]. exists s. split; [exact Hs'|].
  destruct et; [right; apply Het|left; exact Het].
Qed.

(* `as` with the type the operand already has is a type hint: no cast node *)
Theorem type_hint_generates_no_cast e t :
  value_type e = Some (ROk t) -> resolve_expr (TTypeCast e t) = resolve_expr e.
Proof.
  intros He. cbn [resolve_expr]. unfold analyze_primitive_cast. rewrite He. cbn [of_ann bind].
  rewrite vtype_eqb_refl. now destruct (resolve_expr e).
Qed.

Definition all_operands : list operand_type := OPointer :: map OPrim all_prims.
Definition all_unops : list unop := [Negative; BitwiseComplement].

Lemma all_operands_complete o : In o all_operands.
Proof. destruct o as [p|]; [right; apply in_map, all_prims_complete|now left]. Qed.
Lemma all_binops_complete op : In op all_binops.
Proof. destruct op; cbn; auto 12. Qed.
Lemma all_unops_complete op : In op all_unops.
Proof. destruct op; cbn; auto. Qed.
Lemma all_cmpops_complete op : In op all_cmpops.
Proof. destruct op; cbn; auto 7. Qed.

Definition is_arith (op : binop) : bool :=
  match op with Add | Subtract | Multiply | Divide | Modulo => true | _ => false end.
Definition is_bitop (op : binop) : bool :=
  match op with BitwiseAnd | BitwiseOr | BitwiseXor | ShiftLeft | ShiftRight => true | _ => false end.
Definition is_equality (op : cmpop) : bool :=
  match op with Equals | DoesNotEqual => true | _ => false end.

(* the documented type classes; the generated tables agree with them ([class_tables_ok]) *)
Definition binop_class (op : binop) (o : operand_type) : bool :=
  match o with
  | OPointer => is_advance op                       (* AdvancePointer: pointers only *)
  | OPrim p =>
      if is_arith op then vt_is_integral p || prim_eqb p Char8   (* integers and char8 *)
      else if is_bitop op then vt_is_bitfield p                  (* fixed-width unsigned *)
      else false
  end.

Definition unop_class (op : unop) (o : operand_type) : bool :=
  match o, op with
  | OPointer, _ => false
  | OPrim p, Negative => vt_is_signed p
  | OPrim p, BitwiseComplement => vt_is_bitfield p || prim_eqb p Bool
  end.

Definition cmpop_class (op : cmpop) (o : operand_type) : bool :=
  match o with
  | OPointer => is_equality op      (* pointers: == and != only *)
  | OPrim _ => true                 (* every primitive type, bool included, is ordered *)
  end.

Definition conversion_spec (s d : prim) : bool :=
  negb (prim_eqb s d)
  && ((vt_is_integral s && vt_is_integral d)
      || (prim_eqb s Uint8 && prim_eqb d Char8)
      || (prim_eqb s Char8 && prim_eqb d Uint8)
      || (prim_eqb s Bool && vt_is_integral d)).

Definition conv (s d : prim) : bool :=
  is_valid_primitive_conversion s d (vt_is_integral s) (vt_is_integral d).

(* a table of booleans agrees with its description when one evaluation over the whole of it
   says so, whatever the entries generated *)
Lemma table_eq {A B} (f g : A -> B -> bool) la lb :
  (forall a, In a la) -> (forall b, In b lb) ->
  forallb (fun a => forallb (fun b => Bool.eqb (f a b) (g a b)) lb) la = true ->
  forall a b, f a b = g a b.
Proof.
  intros Ha Hb H a b. rewrite forallb_forall in H. specialize (H a (Ha a)).
  rewrite forallb_forall in H. exact (eqb_prop _ _ (H b (Hb b))).
Qed.

Lemma binop_table op o : mem_operand o (binop_valid_types op) = binop_class op o.
Proof.
  revert op o. apply (table_eq _ _ _ _ all_binops_complete all_operands_complete).
  vm_compute. reflexivity.
Qed.

Lemma unop_table op o : mem_operand o (unop_valid_types op) = unop_class op o.
Proof.
  revert op o. apply (table_eq _ _ _ _ all_unops_complete all_operands_complete).
  vm_compute. reflexivity.
Qed.

Lemma cmpop_table op o : mem_operand o (cmpop_valid_types op) = cmpop_class op o.
Proof.
  revert op o. apply (table_eq _ _ _ _ all_cmpops_complete all_operands_complete).
  vm_compute. reflexivity.
Qed.

Lemma conv_table s d : conv s d = conversion_spec s d.
Proof.
  revert s d. apply (table_eq _ _ _ _ all_prims_complete all_prims_complete).
  vm_compute. reflexivity.
Qed.

Lemma conv_valid s d :
  implb (conv s d) (mem_prim s valid_primitive_types && mem_prim d valid_primitive_types) = true.
Proof.
  revert s d. apply (table_eq _ (fun _ _ => true) _ _ all_prims_complete all_prims_complete).
  vm_compute. reflexivity.
Qed.

Lemma conv_irrefl s : conv s s = false.
Proof.
  rewrite conv_table. unfold conversion_spec. now rewrite (proj2 (prim_eqb_eq s s) eq_refl).
Qed.

Theorem class_tables_ok :
  (forall op o, mem_operand o (binop_valid_types op) = binop_class op o)
  /\ (forall op o, mem_operand o (unop_valid_types op) = unop_class op o)
  /\ (forall op o, mem_operand o (cmpop_valid_types op) = cmpop_class op o)
  /\ (forall s d, conv s d = conversion_spec s d)
  /\ (forall s d, conv s d = true ->
        mem_prim s valid_primitive_types = true /\ mem_prim d valid_primitive_types = true)
  /\ (forall s, conv s s = false).
Proof.
  split; [exact binop_table|]. split; [exact unop_table|]. split; [exact cmpop_table|].
  split; [exact conv_table|]. split.
  - intros s d E. pose proof (conv_valid s d) as H. rewrite E in H. now apply andb_prop.
  - exact conv_irrefl.
Qed.

Corollary in_class_binop op t :
  in_class t (binop_valid_types op) =
  match t with
  | VPrim p => if is_arith op then vt_is_integral p || prim_eqb p Char8
               else if is_bitop op then vt_is_bitfield p else false
  | VPointer _ => is_advance op
  | VOther _ => false
  end.
Proof.
  unfold in_class. destruct t as [p|i|i]; cbn [operand_of]; try apply binop_table. reflexivity.
Qed.

Corollary in_class_cmpop op t :
  in_class t (cmpop_valid_types op) =
  match t with VPrim _ => true | VPointer _ => is_equality op | VOther _ => false end.
Proof.
  unfold in_class. destruct t as [p|i|i]; cbn [operand_of]; try apply cmpop_table. reflexivity.
Qed.

Lemma prim_conversion_irrefl s : prim_conversion s s = false.
Proof. destruct s as [p|i|i]; [apply conv_irrefl|reflexivity..]. Qed.

Lemma prim_conversion_prims s d :
  prim_conversion s d = true -> exists a b, s = VPrim a /\ d = VPrim b /\ a <> b.
Proof.
  destruct s as [a|i|i], d as [b|j|j]; try discriminate. intros H. exists a, b. repeat split.
  intros ->. now rewrite (prim_conversion_irrefl (VPrim b)) in H.
Qed.

(* a well typed cast node converts between two DIFFERENT primitive types *)
Theorem well_typed_cast_nodes x src dst :
  well_typed (RPrimCast x src dst) = true ->
  exists a b, src = VPrim a /\ dst = VPrim b /\ a <> b /\ rtype x = src.
Proof.
  cbn [well_typed]. intros H.
  apply andb_prop in H as [H Hc]. apply andb_prop in H as [_ Ht].
  apply vtype_eqb_eq in Ht. destruct (prim_conversion_prims _ _ Hc) as [a [b [-> [-> Hab]]]]. eauto 10.
Qed.

Section call_proofs.
  Variable addr_hint : vtype -> vtype -> bool.

  (* what use_function compares: a typed argument against a typed parameter whose
     name is not poisoned *)
  Definition arg_ok (p : param) (x : arg) : Prop :=
    forall pt at_, p_type p = ROk pt -> a_type x = Some (ROk at_) -> p_named p = true -> pt = at_.

  (* one round of the loop *)
  Definition arg_code (p : param) (x : arg) : option code :=
    match p_type p, a_type x with
    | ROk pt, Some (ROk at_) =>
        if negb (vtype_eqb pt at_) && p_named p
        then Some (if a_deref x && addr_hint at_ pt then E513 else E512)
        else None
    | _, _ => None
    end.

  Lemma check_args_cons p ps x xs :
    check_args addr_hint (p :: ps) (x :: xs) =
    match arg_code p x with Some c => [c] | None => check_args addr_hint ps xs end.
  Proof.
    unfold arg_code. cbn [check_args].
    destruct (p_type p) as [pt|], (a_type x) as [[at_|]|]; try reflexivity.
    destruct (negb (vtype_eqb pt at_) && p_named p); [|reflexivity].
    now destruct (a_deref x && addr_hint at_ pt).
  Qed.

  Lemma arg_code_none p x : arg_code p x = None <-> arg_ok p x.
  Proof.
    unfold arg_code, arg_ok.
    destruct (p_type p) as [pt|pp]; [|split; [intros _ ? ? [=]|reflexivity]].
    destruct (a_type x) as [[at_|ap]|]; try (split; [intros _ ? ? _ [=]|reflexivity]).
    destruct (vtype_eqb pt at_) eqn:E; cbn [negb andb].
    - apply vtype_eqb_eq in E. split; [congruence|reflexivity].
    - apply vtype_eqb_neq in E. destruct (p_named p).
      + split; [discriminate|]. intros H. elim E. now apply H.
      + split; [intros _ ? ? _ _ [=]|reflexivity].
  Qed.

  (* E513 is E512 with a hint: only for a Deref argument whose address would fit *)
  Lemma arg_code_some p x c :
    arg_code p x = Some c ->
    c = E512 \/ c = E513 /\ exists pt at_, p_type p = ROk pt /\ a_type x = Some (ROk at_)
                                    /\ pt <> at_ /\ a_deref x = true /\ addr_hint at_ pt = true.
  Proof.
    unfold arg_code. destruct (p_type p) as [pt|]; [|discriminate].
    destruct (a_type x) as [[at_|]|]; try discriminate.
    destruct (vtype_eqb pt at_) eqn:E; [discriminate|]. apply vtype_eqb_neq in E.
    destruct (negb false && p_named p); [|discriminate].
    destruct (a_deref x) eqn:Ed, (addr_hint at_ pt) eqn:Eh; intros [= <-]; auto.
    right. split; [reflexivity|]. exists pt, at_. auto.
  Qed.

  Lemma check_args_nil_iff ps xs :
    length xs = length ps ->
    (check_args addr_hint ps xs = [] <-> Forall2 arg_ok ps xs).
  Proof.
    revert xs. induction ps as [|p ps IH]; intros [|x xs] Hlen; try discriminate.
    - split; [constructor|reflexivity].
    - injection Hlen as Hlen. rewrite check_args_cons. destruct (arg_code p x) eqn:E.
      + split; [discriminate|]. intros H. inversion H as [|? ? ? ? Hok _]; subst.
        apply arg_code_none in Hok. congruence.
      + rewrite (IH xs Hlen). apply arg_code_none in E.
        split; [now constructor|now inversion 1].
  Qed.

  Lemma check_args_codes ps xs :
    check_args addr_hint ps xs = [] \/ check_args addr_hint ps xs = [E512]
    \/ check_args addr_hint ps xs = [E513].
  Proof.
    revert xs. induction ps as [|p ps IH]; intros [|x xs]; try now left.
    rewrite check_args_cons. destruct (arg_code p x) eqn:E; [|apply IH].
    apply arg_code_some in E as [->|[-> _]]; auto.
  Qed.

  Lemma check_args_E513 ps xs :
    check_args addr_hint ps xs = [E513] ->
    exists p x pt at_, In p ps /\ In x xs /\ p_type p = ROk pt /\ a_type x = Some (ROk at_)
                       /\ pt <> at_ /\ a_deref x = true /\ addr_hint at_ pt = true.
  Proof.
    revert xs. induction ps as [|p ps IH]; intros [|x xs]; try discriminate.
    rewrite check_args_cons. destruct (arg_code p x) eqn:E.
    - intros [= ->]. apply arg_code_some in E as [E|[_ [pt [at_ H]]]]; [discriminate E|].
      exists p, x, pt, at_. split; [now left|]. split; [now left|exact H].
    - intros H. destruct (IH xs H) as [p0 [x0 [pt [at_ [H1 [H2 H3]]]]]].
      exists p0, x0, pt, at_. split; [now right|]. split; [now right|exact H3].
  Qed.

  Theorem check_call_gen_arity ps xs :
    ((length xs < length ps)%nat <-> check_call_gen addr_hint ps xs = [E510])
    /\ ((length ps < length xs)%nat <-> check_call_gen addr_hint ps xs = [E511]).
  Proof.
    unfold check_call_gen.
    destruct (Nat.ltb_spec (length xs) (length ps)) as [H|H]; [split; [tauto|split; [lia|discriminate]]|].
    destruct (Nat.ltb_spec (length ps) (length xs)) as [H'|H']; [split; [split; [lia|discriminate]|tauto]|].
    destruct (check_args_codes ps xs) as [E|[E|E]]; rewrite E; split; (split; [lia|discriminate]).
  Qed.

  (* at most ONE code per call: the loop returns at the first reported mismatch *)
  Theorem check_call_codes ps xs :
    check_call_gen addr_hint ps xs = [] \/
    exists c, check_call_gen addr_hint ps xs = [c] /\ In c [E510; E511; E512; E513].
  Proof.
    unfold check_call_gen.
    destruct (Nat.ltb (length xs) (length ps)); [right; exists E510; cbn; auto|].
    destruct (Nat.ltb (length ps) (length xs)); [right; exists E511; cbn; auto|].
    destruct (check_args_codes ps xs) as [E|[E|E]]; rewrite E; [now left|right..].
    - exists E512. cbn. auto.
    - exists E513. cbn. auto 6.
  Qed.

  Theorem check_call_gen_sound ps xs :
    check_call_gen addr_hint ps xs = [] <-> length xs = length ps /\ Forall2 arg_ok ps xs.
  Proof.
    unfold check_call_gen.
    destruct (Nat.ltb_spec (length xs) (length ps)) as [H|H]; [split; [discriminate|lia]|].
    destruct (Nat.ltb_spec (length ps) (length xs)) as [H'|H']; [split; [discriminate|lia]|].
    assert (Hlen : length xs = length ps) by lia.
    rewrite (check_args_nil_iff ps xs Hlen). tauto.
  Qed.

  Theorem check_call_mismatch ps xs :
    length xs = length ps -> ~ Forall2 arg_ok ps xs ->
    check_call_gen addr_hint ps xs = [E512] \/ check_call_gen addr_hint ps xs = [E513].
  Proof.
    intros Hlen Hn. unfold check_call_gen. rewrite Hlen, Nat.ltb_irrefl.
    destruct (check_args_codes ps xs) as [E|[E|E]]; auto.
    elim Hn. now apply (check_args_nil_iff ps xs Hlen).
  Qed.

  (* a rejected call becomes a poison expression; the resolver reports exactly its code *)
  Theorem analyze_call_rejected ps f args a c cs :
    check_call_gen addr_hint ps (map arg_of args) = c :: cs ->
    resolve_expr (analyze_call addr_hint ps f args a) = Err [c].
  Proof. intros H. unfold analyze_call. now rewrite H. Qed.

  Theorem analyze_call_accepted ps f args a :
    check_call_gen addr_hint ps (map arg_of args) = [] ->
    analyze_call addr_hint ps f args a = TCall f args a.
  Proof. intros H. unfold analyze_call. now rewrite H. Qed.
End call_proofs.

(* fully typed calls: the argument types must be IDENTICAL to the parameter types *)
Theorem check_call_sound params args :
  check_call params args = [] <-> args = params.
Proof.
  unfold check_call. rewrite check_call_gen_sound. rewrite !map_length. split.
  - intros [Hlen HF]. revert args Hlen HF.
    induction params as [|p ps IH]; intros [|x xs] Hlen HF; try discriminate; [reflexivity|].
    cbn [map] in HF. inversion HF as [|? ? ? ? Hok Hrest]; subst.
    injection Hlen as Hlen. f_equal; [|now apply IH].
    symmetry. now apply (Hok p x).
  - intros ->. split; [reflexivity|].
    induction params as [|p ps IH]; cbn [map]; constructor; [|assumption].
    intros pt at_ H1 H2 _. cbn in H1, H2. congruence.
Qed.

Theorem check_call_arity params args :
  ((length args < length params)%nat <-> check_call params args = [E510])
  /\ ((length params < length args)%nat <-> check_call params args = [E511]).
Proof.
  unfold check_call. erewrite <- (map_length _ args), <- (map_length _ params). apply check_call_gen_arity.
Qed.

Theorem check_call_type_mismatch params args :
  length args = length params -> args <> params -> check_call params args = [E512].
Proof.
  intros Hlen Hne. unfold check_call.
  destruct (check_call_mismatch (fun _ _ => false)
              (map (fun t => mk_param true (ROk t)) params)
              (map (fun t => mk_arg false (Some (ROk t))) args)) as [E|E].
  - now rewrite !map_length.
  - intros HF. apply Hne. apply check_call_sound. unfold check_call.
    apply check_call_gen_sound. now rewrite !map_length.
  - assumption.
  - unfold check_call_gen in E. rewrite !map_length, Hlen, Nat.ltb_irrefl in E.
    (* E513 needs a hint, and [check_call] never gives one *)
    apply check_args_E513 in E as [p [x [pt [at_ [_ [_ [_ [_ [_ [_ Hh]]]]]]]]]]. discriminate Hh.
Qed.

(* The coercion relation lives in the TYPER, not in use_function: an argument that
   coerces is wrapped in Autocoerce, whose type is the parameter type.  Together: *)
Section gate.
  Variable addr_hint : vtype -> vtype -> bool.
  Variable coerces : vtype -> vtype -> bool.

  Lemma hint_arg_type e p :
    value_type (hint_arg coerces e (Some (ROk p))) =
    match value_type e with
    | Some (ROk vt) => if vtype_eqb vt p then Some (ROk vt)
                       else if coerces vt p then Some (ROk p) else Some (ROk vt)
    | other => other
    end.
  Proof.
    unfold hint_arg. destruct (value_type e) as [[vt|q]|] eqn:E; try assumption.
    destruct (vtype_eqb vt p); [assumption|]. destruct (coerces vt p); [reflexivity|assumption].
  Qed.

  Theorem call_gate_sound params args :
    check_call_gen addr_hint (map (fun t => mk_param true (ROk t)) params)
                   (map arg_of (hint_args coerces (map ROk params) args)) = [] ->
    length args = length params
    /\ Forall2 (fun e p => forall vt, value_type e = Some (ROk vt) -> vt = p \/ coerces vt p = true)
               args params.
  Proof.
    rewrite check_call_gen_sound. rewrite !map_length. intros [Hlen HF].
    revert params Hlen HF. induction args as [|e rest IH]; intros [|p ps] Hlen HF; try discriminate.
    - split; [reflexivity|constructor].
    - cbn [map hint_args] in *. injection Hlen as Hlen.
      inversion HF as [|? ? ? ? Hok Hrest]; subst.
      destruct (IH ps Hlen Hrest) as [Hl HF']. split; [cbn [length]; now rewrite Hl|].
      constructor; [|assumption]. intros vt Hvt.
      specialize (Hok p). cbn [p_type p_named arg_of a_type] in Hok.
      rewrite hint_arg_type, Hvt in Hok.
      destruct (vtype_eqb vt p) eqn:E; [left; now apply vtype_eqb_eq|].
      destruct (coerces vt p) eqn:Ec; [now right|].
      left. symmetry. now apply (Hok vt).
  Qed.

  Corollary call_gate_sound_refl params args :
    (forall t, coerces t t = true) ->
    check_call_gen addr_hint (map (fun t => mk_param true (ROk t)) params)
                   (map arg_of (hint_args coerces (map ROk params) args)) = [] ->
    length args = length params
    /\ Forall2 (fun e p => forall vt, value_type e = Some (ROk vt) -> coerces vt p = true) args params.
  Proof.
    intros Hrefl H. destruct (call_gate_sound params args H) as [Hl HF]. split; [assumption|].
    clear H Hl. induction HF as [|e p es ps Hep _ IH]; constructor; [|assumption].
    intros vt Hvt. destruct (Hep vt Hvt) as [->|Hc]; [apply Hrefl|assumption].
  Qed.
End gate.

(* the codes are those of Error::code (generated table); [String] is imported only here, it would
   shadow [length] above *)
Import String.

Example codes_match :
  forallb (fun nc => existsb (fun e => String.eqb (fst e) (fst nc) && N.eqb (snd e) (snd nc)) Gen.Codes.codes)
    [("TooFewArguments"%string, E510); ("TooManyArguments"%string, E511);
     ("ArgumentTypeMismatch"%string, E512); ("ArgumentMissingAddress"%string, E513);
     ("InvalidOperandType"%string, E550); ("MismatchedOperandTypes"%string, E551);
     ("InvalidPrimitiveConversion"%string, E552); ("InvalidBitCast"%string, E553);
     ("AmbiguousType"%string, E580); ("AmbiguousTypeOfNakedIntegerLiteral"%string, E582);
     ("AmbiguousTypeOfArrayLiteral"%string, E583)] = true.
Proof. vm_compute. reflexivity. Qed.

(* typed leaves for the examples; [lt] hides nat's [lt] from here on and in every file that imports this *)
Definition lf (p : prim) : texpr := TLeaf LDeref (Some (ROk (VPrim p))).
Definition lt (t : vtype) : texpr := TLeaf LDeref (Some (ROk t)).
Definition naked : texpr := TLeaf LInteger None.
Definition PTR := VPointer 1%N.
Definition STRUCT := VOther 9%N.

(* ((a + (b * c)) as i64) + f(x as u8, cast p) with a, b, c : i32, x : u8 (a type hint), p a pointer,
   f returning i64 *)
Definition accepted_tree : texpr :=
  TBinary Add
    (TTypeCast (TParen (TBinary Add (lf Int32) (TBinary Multiply (lf Int32) (lf Int32)))) (VPrim Int64))
    (TCall 5%N [TTypeCast (lf Uint8) (VPrim Uint8); TBitCast (lt PTR) (Some (ROk (VPointer 2%N)))]
           (Some (ROk (VPrim Int64)))).

Example accepted_tree_ok :
  resolve_expr accepted_tree =
  Ok (RBinary Add
        (RPrimCast (RParen (RBinary Add (RLeaf (VPrim Int32))
                              (RBinary Multiply (RLeaf (VPrim Int32)) (RLeaf (VPrim Int32)) (VPrim Int32))
                              (VPrim Int32))) (VPrim Int32) (VPrim Int64))
        (RCall 5%N [RLeaf (VPrim Uint8); RBitCast (RLeaf PTR) (VPointer 2%N)] (VPrim Int64))
        (VPrim Int64)).
Proof. reflexivity. Qed.

Example ex_mismatch : resolve_expr (TBinary Add (lf Int32) (lf Int64)) = Err [E551].
Proof. reflexivity. Qed.
Example ex_mismatch_cmp : resolve_cmp (TCmp Equals (lf Int32) (lf Uint32)) = Err [E551].
Proof. reflexivity. Qed.
Example ex_class_bool_add : resolve_expr (TBinary Add (lf Bool) (lf Bool)) = Err [E550].
Proof. reflexivity. Qed.
Example ex_class_signed_and : resolve_expr (TBinary BitwiseAnd (lf Int32) (lf Int32)) = Err [E550].
Proof. reflexivity. Qed.
Example ex_class_usize_shift : resolve_expr (TBinary ShiftLeft (lf Usize) (lf Usize)) = Err [E550].
Proof. reflexivity. Qed.
Example ex_class_neg_unsigned : resolve_expr (TUnary Negative (lf Uint8)) = Err [E550].
Proof. reflexivity. Qed.
Example ex_class_ptr_less : resolve_cmp (TCmp IsLess (lt PTR) (lt PTR)) = Err [E550].
Proof. reflexivity. Qed.
Example ex_ptr_equal_ok :
  resolve_cmp (TCmp Equals (lt PTR) (lt PTR)) = Ok (RCmp Equals (RLeaf PTR) (RLeaf PTR) PTR).
Proof. reflexivity. Qed.
Example ex_class_struct_equal : resolve_cmp (TCmp Equals (lt STRUCT) (lt STRUCT)) = Err [E550].
Proof. reflexivity. Qed.
Example ex_class_advance_nonpointer :
  resolve_expr (TBinary AdvancePointer (lf Usize) (lf Usize)) = Err [E550].
Proof. reflexivity. Qed.
Example ex_bad_cast_char : resolve_expr (TTypeCast (lf Char8) (VPrim Int32)) = Err [E552].
Proof. reflexivity. Qed.
Example ex_bad_cast_to_bool : resolve_expr (TTypeCast (lf Int32) (VPrim Bool)) = Err [E552].
Proof. reflexivity. Qed.
Example ex_bad_cast_struct : resolve_expr (TTypeCast (lt STRUCT) (VPrim Int32)) = Err [E552].
Proof. reflexivity. Qed.
Example ex_bad_cast_pointer : resolve_expr (TTypeCast (lt PTR) (VPointer 2%N)) = Err [E552].
Proof. reflexivity. Qed.
Example ex_bad_bitcast : resolve_expr (TBitCast (lf Int32) (Some (ROk (VPrim Uint32)))) = Err [E553].
Proof. reflexivity. Qed.
Example ex_ambiguous_literal : resolve_expr (TBinary Add naked naked) = Err [E582; E582].
Proof. reflexivity. Qed.
Example ex_ambiguous_call : resolve_expr (TCall 1%N [lf Int32] None) = Err [E580].
Proof. reflexivity. Qed.
Example ex_poisoned_silent :
  resolve_expr (TBinary Add (lf Int32) (TPoison Poisoned)) = Err [].
Proof. reflexivity. Qed.
Example ex_call_rejected :
  resolve_expr (analyze_call (fun _ _ => false) [mk_param true (ROk (VPrim Int32))] 1%N
                  [lf Int64] (Some (ROk (VPrim Int32)))) = Err [E512].
Proof. reflexivity. Qed.
Example ex_call_missing_address :
  check_call_gen (fun _ _ => true) [mk_param true (ROk PTR)] [arg_of (lt STRUCT)] = [E513].
Proof. reflexivity. Qed.
Example ex_call_arity :
  check_call [VPrim Int32; VPrim Int32] [VPrim Int32] = [E510]
  /\ check_call [VPrim Int32] [VPrim Int32; VPrim Int32] = [E511]
  /\ check_call [VPrim Int32] [VPrim Int64] = [E512]
  /\ check_call [VPrim Int32; PTR] [VPrim Int32; PTR] = [].
Proof. repeat split. Qed.

(* the hypotheses of [mismatch_rejected] are satisfiable *)
Example mismatch_rejected_instance :
  exists es, resolve_expr (TBinary Add (lf Int32) (lf Int64)) = Err es /\
             node_errors2 (lf Int32) (lf Int64) [E551] es.
Proof. apply (mismatch_rejected Add _ _ (VPrim Int32) (VPrim Int64)); try reflexivity. discriminate. Qed.

(* PINNED commit: AdvancePointer never looked at its RIGHT operand.  `&p .. true`
   and `&p .. &p` passed the gate (finding D30: the pinned compiler emitted
   `getelementptr i32, i32* %1, i1 %2` for the first and aborted inside LLVM with
   "GEP indexes must be integers" for the second).  Repaired: the offset must be a
   usize (advance_offset_rejected, resolve_sound). *)
Theorem strict_soundness_refuted :
  exists op l r res, resolve_binary_pinned op l r = Ok res /\ well_typed res = false.
Proof.
  exists AdvancePointer, (lt PTR), (lf Bool). eexists. split; reflexivity.
Qed.

Example advance_pointer_by_pointer_accepted_pinned :
  resolve_binary_pinned AdvancePointer (lt PTR) (lt PTR)
  = Ok (RBinary AdvancePointer (RLeaf PTR) (RLeaf PTR) PTR).
Proof. reflexivity. Qed.

Example advance_pointer_by_pointer_rejected :
  resolve_expr (TBinary AdvancePointer (lt PTR) (lt PTR)) = Err [E550]
  /\ resolve_expr (TBinary AdvancePointer (lt PTR) (lf Bool)) = Err [E550]
  /\ resolve_expr (TBinary AdvancePointer (lt PTR) (lf Int8)) = Err [E550].
Proof. repeat split. Qed.

Example advance_pointer_by_usize_accepted :
  resolve_expr (TBinary AdvancePointer (lt PTR) (lf Usize))
  = Ok (RBinary AdvancePointer (RLeaf PTR) (RLeaf (VPrim Usize)) PTR).
Proof. reflexivity. Qed.

Lemma pinned_same_elsewhere op l r :
  is_advance op = false -> resolve_binary_pinned op l r = resolve_expr (TBinary op l r).
Proof.
  intros H. unfold resolve_binary_pinned, resolve_binary_op_type_pinned.
  cbn [resolve_expr]. unfold resolve_binary_op_type. now rewrite H.
Qed.

(* the offset error comes first: a non-usize offset next to a non-pointer gives ONE E550 *)
Example advance_offset_checked_first :
  resolve_expr (TBinary AdvancePointer (lf Int32) (lf Bool)) = Err [E550].
Proof. reflexivity. Qed.

(* the errors of the operands hide the error of the node: here the outer
   mismatch i32 + i64 is not reported (E551 is absent), only the inner E582 *)
Example mismatch_hidden_by_operand_error :
  resolve_expr (TBinary Add (TBinary Add (lf Int32) naked) (lf Int64)) = Err [E582].
Proof. reflexivity. Qed.

(* value_type of a Binary is the type of its LEFT operand alone; what the
   parent sees for `i32 + i64` is i32 (the node itself is rejected, so no harm) *)
Example binary_value_type_is_left :
  value_type (TBinary Add (lf Int32) (lf Int64)) = Some (ROk (VPrim Int32)).
Proof. reflexivity. Qed.

(* Autocoerce nodes are trusted: the gate accepts any coercion the typer wrote *)
Example autocoerce_unchecked :
  resolve_expr (TAutocoerce (lf Bool) STRUCT) = Ok (RAutocoerce (RLeaf (VPrim Bool)) STRUCT).
Proof. reflexivity. Qed.

(* ordering comparisons accept bool *)
Example bool_is_ordered :
  resolve_cmp (TCmp IsLess (lf Bool) (lf Bool))
  = Ok (RCmp IsLess (RLeaf (VPrim Bool)) (RLeaf (VPrim Bool)) (VPrim Bool)).
Proof. reflexivity. Qed.

(* an untyped left operand next to a poisoned right operand: no E580 from the check *)
Example ambiguous_and_poisoned_silent :
  match_type_of_operands naked (TPoison (PError 402%N)) = Err [].
Proof. reflexivity. Qed.

(* use_function: arguments without a type, poisoned parameter types and
   parameters with a poisoned NAME are skipped; only the first mismatch is reported;
   the types are compared with ==, can_coerce_into is not consulted here *)
Theorem call_check_skips :
  check_call_gen (fun _ _ => false) [mk_param false (ROk (VPrim Int32))]
                 [mk_arg false (Some (ROk (VPrim Bool)))] = []
  /\ check_call_gen (fun _ _ => false) [mk_param true (ROk (VPrim Int32))] [mk_arg false None] = []
  /\ check_call_gen (fun _ _ => false) [mk_param true (RPoison Poisoned)]
                 [mk_arg false (Some (ROk (VPrim Bool)))] = []
  /\ check_call [VPrim Int32; VPrim Int32] [VPrim Bool; VPrim Char8] = [E512].
Proof. repeat split. Qed.

(* the naive statement "an accepted call has arguments equal to the parameters" is
   therefore false for the general check *)
Theorem check_call_gen_equal_refuted :
  exists ps xs, check_call_gen (fun _ _ => false) ps xs = []
    /\ exists pt at_, map p_type ps = [ROk pt] /\ map a_type xs = [Some (ROk at_)] /\ pt <> at_.
Proof.
  exists [mk_param false (ROk (VPrim Int32))], [mk_arg false (Some (ROk (VPrim Bool)))].
  split; [reflexivity|]. exists (VPrim Int32), (VPrim Bool). repeat split. discriminate.
Qed.

(* the typer's wrapping makes a coercible argument pass, a non coercible one fail *)
Example hint_then_check :
  let coerces := fun a b => vtype_eqb a (VOther 1%N) && vtype_eqb b (VOther 2%N) in
  check_call_gen (fun _ _ => false) [mk_param true (ROk (VOther 2%N))]
    (map arg_of (hint_args coerces [ROk (VOther 2%N)] [lt (VOther 1%N)])) = []
  /\ check_call_gen (fun _ _ => false) [mk_param true (ROk (VOther 2%N))]
    (map arg_of (hint_args coerces [ROk (VOther 2%N)] [lt (VOther 3%N)])) = [E512].
Proof. split; reflexivity. Qed.

Print Assumptions resolve_sound.
Print Assumptions resolve_cmp_sound.
Print Assumptions resolve_type_agrees.
Print Assumptions mismatch_rejected.
Print Assumptions mismatch_rejected_cmp.
Print Assumptions class_violation_rejected.
Print Assumptions bad_cast_rejected.
Print Assumptions bad_bitcast_rejected.
Print Assumptions ambiguous_rejected.
Print Assumptions errors_propagate.
Print Assumptions accepted_binary_nodes.
Print Assumptions class_tables_ok.
Print Assumptions check_call_gen_sound.
Print Assumptions check_call_sound.
Print Assumptions call_gate_sound.
Print Assumptions strict_soundness_refuted.
Print Assumptions advance_offset_rejected.
Print Assumptions accepted_advance_nodes.
