(* Where the IR of a module is written (Model/OutPath.v, property C18): under the output
   directory, in a file of its own for each module path up to the root that is dropped;
   as counterexamples D17 of the pinned commit ([ll_path_pinned]) and D57, which is a
   collision under [ll_path] itself. *)
From PV Require Import Base.Common Model.OutPath.
Open Scope N_scope.

Lemma has_dot_app a b : has_dot (a ++ b) = has_dot a || has_dot b.
Proof. induction a as [|c a IH]; cbn [app has_dot]; [reflexivity|]. rewrite IH. now rewrite orb_assoc. Qed.

Lemma pn_no_dot : has_dot PN = false. Proof. reflexivity. Qed.

Lemma has_dot_dot_pn x : has_dot (x ++ DOT :: PN) = true.
Proof. rewrite has_dot_app. cbn [has_dot]. rewrite N.eqb_refl. apply orb_true_r. Qed.

(* the stem of `x ++ ".pn"` is x, whatever dots x contains *)
Lemma stem_tail_dot_pn x : stem_tail (x ++ DOT :: PN) = x.
Proof.
  induction x as [|c x IH]; [reflexivity|]. cbn [app stem_tail].
  now rewrite has_dot_dot_pn, andb_false_r, IH.
Qed.

Lemma file_stem_dot_pn c x : file_stem ((c :: x) ++ DOT :: PN) = c :: x.
Proof. cbn [app file_stem]. now rewrite has_dot_dot_pn, stem_tail_dot_pn. Qed.

(* so for a module file `<x>.pn` the written file is `<x>.pn.ll`: the name with ".ll" appended *)
Theorem set_ext_pn c x : set_ext_name ((c :: x) ++ DOT :: PN) = ((c :: x) ++ DOT :: PN) ++ [DOT; 108; 108]%N.
Proof. unfold set_ext_name. rewrite file_stem_dot_pn. rewrite <- app_assoc. reflexivity. Qed.

Lemma list_eqb_eq a : forall b, list_eqb a b = true -> a = b.
Proof.
  induction a as [|x a IH]; intros [|y b] H; cbn [list_eqb] in H; try discriminate; [reflexivity|].
  apply andb_true_iff in H as [H1 H2]. apply N.eqb_eq in H1. subst. f_equal. now apply IH.
Qed.

Lemma ends_with_spec suffix n : ends_with suffix n = true -> exists x, n = x ++ suffix.
Proof.
  induction n as [|c n IH]; cbn [ends_with]; intros H; apply orb_true_iff in H as [H|H].
  - apply list_eqb_eq in H. subst. exists []. reflexivity.
  - discriminate.
  - apply list_eqb_eq in H. exists []. now rewrite H.
  - destruct (IH H) as [x ->]. exists (c :: x). reflexivity.
Qed.

Lemma is_pn_name_spec n : is_pn_name n = true -> exists c x, n = (c :: x) ++ DOT :: PN.
Proof.
  destruct n as [|c r]; [discriminate|]. cbn [is_pn_name]. intros H.
  destruct (ends_with_spec _ _ H) as [x ->]. exists c, x. reflexivity.
Qed.

Lemma set_ext_comps_last cs n : set_ext_comps (cs ++ [n]) = cs ++ [set_ext_name n].
Proof.
  induction cs as [|c cs IH]; [reflexivity|].
  change ((c :: cs) ++ [n]) with (c :: (cs ++ [n])).
  destruct cs as [|c2 cs]; [reflexivity|].
  change (set_ext_comps (c :: (c2 :: cs) ++ [n])) with (c :: set_ext_comps ((c2 :: cs) ++ [n])).
  now rewrite IH.
Qed.

Lemma rev_head_split (cs : list name) n r : rev cs = n :: r -> cs = rev r ++ [n].
Proof. intros H. apply (f_equal (@rev name)) in H. rewrite rev_involutive in H. exact H. Qed.

Lemma comps_last (cs : list name) n : rev cs = n :: rev (removelast cs) -> cs = removelast cs ++ [n].
Proof. intros H. apply rev_head_split in H. now rewrite rev_involutive in H. Qed.

(* A module path - relative or absolute (D17, repaired) - is written UNDER the output directory: the components of the
   directory, then the module's own directories, then `<file>.pn.ll`. *)
Theorem ll_path_under_out_dir : forall d m,
  is_pn_module m = true ->
  exists dirs file,
    comps m = dirs ++ [file] /\
    absolute (ll_path d m) = absolute d /\
    comps (ll_path d m) = comps d ++ dirs ++ [file ++ [DOT; 108; 108]%N].
Proof.
  intros d m Hn. unfold is_pn_module in Hn.
  destruct (rev (comps m)) as [|n r] eqn:E; [discriminate|].
  apply rev_head_split in E. destruct (is_pn_name_spec n Hn) as (c & x & ->).
  exists (rev r), ((c :: x) ++ DOT :: PN). split; [exact E|].
  unfold ll_path, push. cbn [absolute comps]. split; [reflexivity|].
  rewrite E, app_assoc, set_ext_comps_last, set_ext_pn, <- app_assoc. reflexivity.
Qed.

(* Distinct modules get distinct files (nothing is overwritten); since the root of an absolute
   path is dropped, `/x/a.pn` and `x/a.pn` are told apart only by that root. *)
Theorem ll_path_injective : forall d m1 m2,
  is_pn_module m1 = true -> is_pn_module m2 = true -> absolute m1 = absolute m2 ->
  ll_path d m1 = ll_path d m2 -> m1 = m2.
Proof.
  intros d m1 m2 H1 H2 Habs Heq.
  destruct (ll_path_under_out_dir d m1 H1) as (d1 & f1 & E1 & _ & C1).
  destruct (ll_path_under_out_dir d m2 H2) as (d2 & f2 & E2 & _ & C2).
  rewrite Heq in C1. rewrite C1 in C2. apply app_inv_head in C2.
  apply app_inj_tail in C2 as [-> Hf]. apply app_inv_tail in Hf. subst f2.
  destruct m1 as [a1 c1], m2 as [a2 c2]. cbn [absolute comps] in *. subst. reflexivity.
Qed.

(* D17: with PathBuf::push an absolute module path was written next to the source, not under the directory *)
Theorem absolute_module_escapes_pinned_refuted :
  exists d m, absolute m = true /\ comps (ll_path_pinned d m) = set_ext_comps (comps m) /\
              ~ (exists rest, comps (ll_path_pinned d m) = comps d ++ rest).
Proof.
  exists (mkpath false [[111; 117; 116]%N]), (mkpath true [[116; 109; 112]%N; [97; 46; 112; 110]%N]).
  split; [reflexivity|]. split; [reflexivity|]. intros [rest H]. vm_compute in H. discriminate.
Qed.

(* D57: two modules whose names differ only in the extension are written to the same file *)
Theorem same_stem_collides_refuted :
  exists d m1 m2, absolute m1 = false /\ absolute m2 = false /\ m1 <> m2 /\ ll_path d m1 = ll_path d m2.
Proof.
  exists (mkpath false [[111; 117; 116]%N]), (mkpath false [[97; 46; 112; 110]%N]), (mkpath false [[97; 46; 112; 101; 110]%N]).
  repeat split; try reflexivity. discriminate.
Qed.

Example ll_path_example :
  ll_path (mkpath false [[111; 117; 116]%N]) (mkpath false [[103; 101; 111]%N; [117; 46; 116; 46; 112; 110]%N])
  = mkpath false [[111; 117; 116]%N; [103; 101; 111]%N; [117; 46; 116; 46; 112; 110; 46; 108; 108]%N].
Proof. reflexivity. Qed.

(* the witness of D17 under [ll_path]: it lands under the directory *)
Example absolute_module_stays_inside :
  ll_path (mkpath false [[111; 117; 116]%N]) (mkpath true [[116; 109; 112]%N; [97; 46; 112; 110]%N])
  = mkpath false [[111; 117; 116]%N; [116; 109; 112]%N; [97; 46; 112; 110; 46; 108; 108]%N].
Proof. reflexivity. Qed.

(* what the extra hypothesis of ll_path_injective excludes *)
Theorem root_only_difference_collides :
  exists d m1 m2, is_pn_module m1 = true /\ is_pn_module m2 = true /\ m1 <> m2 /\ ll_path d m1 = ll_path d m2.
Proof.
  exists (mkpath false [[111; 117; 116]%N]), (mkpath true [[97; 46; 112; 110]%N]), (mkpath false [[97; 46; 112; 110]%N]).
  repeat split; try reflexivity. discriminate.
Qed.

Print Assumptions ll_path_under_out_dir.
Print Assumptions ll_path_injective.
Print Assumptions absolute_module_escapes_pinned_refuted.
Print Assumptions same_stem_collides_refuted.
