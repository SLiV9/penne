(* Proofs about PV.Model.AssignSteps.  analyze_assignment_steps removes the Pointer / View
   layers in front of a written step with a loop of its own, bounded by MAX_ADDRESS_DEPTH =
   127; within that bound [strip_bounded] is [strip_all], and the proofs go through that.
   The two sides are compared iteration by iteration: where they agree the assignment side,
   too, iterates the loop of the read side with a budget of 1 ([assign_unfold]). *)
From PV Require Import Base.Common Model.TypeLegal Model.Autoderef Model.AssignSteps
     Proofs.AutoderefProofs.
From PV Require Gen.Limits.
From PV Require Model.MemLower Model.CallFrame.

Lemma strip_all_snd : forall t, snd (strip_all t) = fully_dereferenced t.
Proof. induction t; cbn [strip_all fully_dereferenced snd]; auto. Qed.

Lemma strip_bounded_all : forall fuel t,
  (ptr_run t <= fuel)%nat -> strip_bounded fuel t = strip_all t.
Proof.
  induction fuel as [|fuel IH]; intros t Hle.
  - destruct t; try reflexivity; now apply Nat.nle_succ_0 in Hle.
  - destruct t; cbn [strip_bounded strip_all]; try reflexivity;
      rewrite IH by apply le_S_n, Hle; reflexivity.
Qed.

(* more layers than the bound: a Pointer / View is left on top, which has no element *)
Lemma strip_bounded_long_shape : forall fuel t,
  (fuel < ptr_run t)%nat ->
  match snd (strip_bounded fuel t) with VPointer _ | VView _ => True | _ => False end.
Proof.
  induction fuel as [|fuel IH]; intros t Hlt.
  - destruct t; try exact I; now apply Nat.nlt_0_r in Hlt.
  - destruct t; try (now apply Nat.nlt_0_r in Hlt);
      cbn [strip_bounded snd]; apply IH, Nat.succ_lt_mono, Hlt.
Qed.

Lemma strip_bounded_long fuel t :
  (fuel < ptr_run t)%nat -> get_element_type (snd (strip_bounded fuel t)) = None.
Proof.
  intros Hlt. pose proof (strip_bounded_long_shape fuel t Hlt) as H.
  destruct (snd (strip_bounded fuel t)); try contradiction; reflexivity.
Qed.

Lemma strip_bounded_length : forall fuel t, (length (fst (strip_bounded fuel t)) <= fuel)%nat.
Proof.
  induction fuel as [|fuel IH]; intros t; [apply Nat.le_0_l|].
  destruct t; cbn [strip_bounded fst length]; try apply Nat.le_0_l; apply le_n_S, IH.
Qed.

Lemma fd_not_ptr t :
  match fully_dereferenced t with VPointer _ | VView _ => False | _ => True end.
Proof. induction t; cbn [fully_dereferenced]; auto. Qed.

Lemma fd_idem t : fully_dereferenced (fully_dereferenced t) = fully_dereferenced t.
Proof. induction t; cbn [fully_dereferenced]; auto. Qed.

Lemma no_arraylike_fd t : no_arraylike t = true -> no_arraylike (fully_dereferenced t) = true.
Proof. induction t; cbn [fully_dereferenced no_arraylike]; auto. Qed.

Lemma no_arraylike_elem t e :
  no_arraylike t = true -> get_element_type t = Some e -> no_arraylike e = true.
Proof. destruct t; cbn [get_element_type no_arraylike]; try discriminate; intros H [= <-]; exact H. Qed.

Lemma runs_ok_fd p : forall t, runs_ok p t = true -> runs_ok p (fully_dereferenced t) = true.
Proof.
  induction t; cbn [fully_dereferenced]; auto; intros H; apply IHt;
    apply (runs_ok_sub _ _ H).
Qed.

Lemma runs_ok_elem p t e :
  runs_ok p t = true -> get_element_type t = Some e -> runs_ok p e = true.
Proof.
  intros H; pose proof (runs_ok_sub _ _ H) as Hs.
  destruct t; cbn [get_element_type]; try discriminate; intros [= <-]; exact Hs.
Qed.

(* away from Arraylike the read side, too, removes every layer in front of an Element *)
Lemma strip_for_element_all : forall t,
  no_arraylike t = true -> strip_for_element t = strip_all t.
Proof.
  induction t; cbn [no_arraylike]; intros H; try reflexivity.
  - cbn [strip_for_element strip_all]. rewrite <- (IHt H).
    destruct t; try reflexivity. discriminate H.
  - cbn [strip_for_element strip_all]. rewrite <- (IHt H).
    destruct t; try reflexivity. discriminate H.
Qed.

Lemma asg_cons_app a b r : asg_cons (a ++ b) r = asg_cons a (asg_cons b r).
Proof. destruct r; cbn [asg_cons]; [now rewrite app_assoc|reflexivity]. Qed.

Section Assign.
Variable mt : N -> option vt.
Variable p : nat.                      (* the bound, MAX_ADDRESS_DEPTH *)

(* On a reference that get_type_of_reference accepted (whatever the sizes of its types):
   the second `unreachable!()` (:2240/:2241) is never reached, the first (:2206) is
   reached exactly when some Element step meets more than [p] Pointer / View layers, and
   otherwise the type reached is the one get_type_of_reference computed. *)
Lemma assign_loop_fits : forall steps t,
  fits mt t steps = true ->
  match assign_loop_fuel mt p t steps with
  | AsgPanic s => s = 1%N /\ element_run_too_long mt p t steps = true
  | AsgAt _ ct =>
      element_run_too_long mt p t steps = false /\
      ref_final mt (fully_dereferenced t) steps = Some (fully_dereferenced ct)
  end.
Proof.
  unfold fits. induction steps as [|[ie|m] rest IH]; intros t H;
    cbn [assign_loop_fuel element_run_too_long ref_final] in *.
  - auto.
  - destruct (get_element_type (fully_dereferenced t)) as [e|] eqn:Ee; [|discriminate H].
    destruct (Nat.ltb_spec p (ptr_run t)) as [Hlt|Hge].
    + rewrite (strip_bounded_long _ _ Hlt). auto.
    + rewrite (strip_bounded_all _ _ Hge), strip_all_snd, Ee. cbn [orb].
      specialize (IH e H). now destruct (assign_loop_fuel mt p e rest).
  - destruct (mt m) as [t'|];
      [|destruct (fully_dereferenced t); discriminate H].
    destruct (fully_dereferenced t); try discriminate H;
      specialize (IH t' H); now destruct (assign_loop_fuel mt p t' rest).
Qed.

Theorem assign_panic_iff_fuel steps t s :
  fits mt t steps = true ->
  (assign_loop_fuel mt p t steps = AsgPanic s
   <-> s = 1%N /\ element_run_too_long mt p t steps = true).
Proof.
  intros H. apply assign_loop_fits in H.
  destruct (assign_loop_fuel mt p t steps) as [taken ct|s']; destruct H as [H1 H2].
  - rewrite H1. split; [discriminate|intros [_ F]; discriminate F].
  - subst s'. split; [intros [= <-]; auto|intros [-> _]; reflexivity].
Qed.

Section Bounded.
Hypothesis Hmt_runs : forall m t, mt m = Some t -> runs_ok p t = true.

Lemma runs_not_too_long : forall steps t,
  runs_ok p t = true -> element_run_too_long mt p t steps = false.
Proof.
  induction steps as [|a rest IH]; intros t Hok; [reflexivity|].
  destruct a as [ie|m]; cbn [element_run_too_long].
  - pose proof (runs_ok_run _ _ Hok) as Hr.
    replace (Nat.ltb p (ptr_run t)) with false by (symmetry; apply Nat.ltb_ge; exact Hr).
    cbn [orb].
    destruct (get_element_type (fully_dereferenced t)) as [e|] eqn:Ee; [|reflexivity].
    apply IH. eapply runs_ok_elem; [apply runs_ok_fd; exact Hok|exact Ee].
  - destruct (mt m) as [t'|] eqn:Em; [|reflexivity]. apply IH. eapply Hmt_runs, Em.
Qed.

Theorem assign_total_fuel steps t :
  fits mt t steps = true ->
  runs_ok p t = true ->
  exists taken ct,
    assign_loop_fuel mt p t steps = AsgAt taken ct /\
    ref_final mt (fully_dereferenced t) steps = Some (fully_dereferenced ct).
Proof.
  intros H Hok. apply assign_loop_fits in H. rewrite (runs_not_too_long steps t Hok) in H.
  destruct (assign_loop_fuel mt p t steps) as [taken ct|s]; destruct H as [_ H];
    [eauto|discriminate H].
Qed.

Section Plain.
Hypothesis Hmt_na : forall m t, mt m = Some t -> no_arraylike t = true.

(* within the bound and away from Arraylike the assignment side, too, iterates the loop
   of the read side with a budget of 1: a Pointer / View layer that the read side removes
   in an iteration of its own is the first of those that [strip_all] removes *)
Lemma assign_unfold t steps :
  no_arraylike t = true -> runs_ok p t = true ->
  match autoderef_loop mt 1 t steps with
  | LoopDone pre t' rest =>
      no_arraylike t' = true /\
      assign_loop_fuel mt p t steps = asg_cons pre (assign_loop_fuel mt p t' rest)
  | _ => True
  end.
Proof.
  intros Hna Hok. pose proof (runs_ok_run _ _ Hok) as Hr.
  destruct steps as [|[ie|m] rest]; [now split| |]; cbn [assign_loop_fuel];
    rewrite (strip_bounded_all p t Hr);
    destruct t as [k|e n|e c|e|e|e|e|i|i n|i|d|d]; try exact I; try discriminate Hna;
    cbn [autoderef_loop loop_cons app strip_all fst snd get_element_type no_arraylike] in *;
    try (split; [exact Hna|reflexivity]);
    try (destruct (mt m) eqn:Em; [split; [exact (Hmt_na _ _ Em)|reflexivity]|exact I]).
  all: rewrite ?(arraylike_default d) by (intros e ->; discriminate Hna).
  all: split; [exact Hna|]; cbn [assign_loop_fuel].
  all: rewrite (strip_bounded_all p d (Nat.lt_le_incl _ _ Hr)).
  all: try (destruct (get_element_type (snd (strip_all d))); [|reflexivity]).
  all: try (destruct (mt m); [|reflexivity]).
  all: exact (asg_cons_app [_] _ _).
Qed.

(* whenever the read side gets through, whatever its budget, the assignment side takes the
   same steps and stops at the same type *)
Lemma loop_then_assign : forall fuel t steps,
  no_arraylike t = true -> runs_ok p t = true ->
  match autoderef_loop mt fuel t steps with
  | LoopDone taken ct [] => assign_loop_fuel mt p t steps = AsgAt taken ct
  | _ => True
  end.
Proof.
  induction fuel as [|fuel IH]; intros t steps Hna Hok; [now destruct steps|].
  rewrite loop_unfold. pose proof (assign_unfold t steps Hna Hok) as Ha.
  pose proof (loop1_runs mt p Hmt_runs t steps Hok) as Hok'.
  destruct (autoderef_loop mt 1 t steps) as [pre t' rest|s]; [|exact I].
  destruct Ha as [Hna' ->]. specialize (IH t' rest Hna' Hok').
  destruct (autoderef_loop mt fuel t' rest) as [tk c [|x xs]|s]; cbn [loop_cons]; try exact I.
  now rewrite IH.
Qed.

Theorem assign_is_walk steps t :
  fits mt t steps = true ->
  no_arraylike t = true ->
  runs_ok p t = true ->
  exists taken ct,
    walk mt t steps = LoopDone taken ct [] /\
    assign_loop_fuel mt p t steps = AsgAt taken ct /\
    ref_final mt (fully_dereferenced t) steps = Some (fully_dereferenced ct).
Proof.
  intros H Hna Hok.
  destruct (loop_total_fuel mt p _ t steps H Hok Hmt_runs (le_n _)) as (taken & ct & Hl & Hw & Hfd).
  pose proof (loop_then_assign (length steps * S p) t steps Hna Hok) as Ha. rewrite Hl in Ha. eauto.
Qed.

End Plain.
End Bounded.
End Assign.

Lemma max_address_depth_nat_Z : Z.of_nat max_address_depth_nat = 127%Z.
Proof.
  unfold max_address_depth_nat. rewrite Z2Nat.id; [reflexivity|].
  unfold Limits.max_address_depth. lia.
Qed.

(* the limits of the assignment side: no run of Pointer / View constructors longer than
   MAX_ADDRESS_DEPTH = 127.  ([types_within] of AutoderefProofs allows 128.) *)
Definition types_within_assign (mt : N -> option vt) (known : vt) : Prop :=
  runs_ok max_address_depth_nat known = true /\
  forall m t, mt m = Some t -> runs_ok max_address_depth_nat t = true.

Definition arraylike_free (mt : N -> option vt) (known : vt) : Prop :=
  no_arraylike known = true /\
  forall m t, mt m = Some t -> no_arraylike t = true.

Theorem assign_panic_iff mt known steps s :
  fits mt known steps = true ->
  (assign_loop mt known steps = AsgPanic s
   <-> s = 1%N /\ element_run_too_long mt max_address_depth_nat known steps = true).
Proof. apply assign_panic_iff_fuel. Qed.

Corollary assignment_steps_panic_iff mt known steps ad s :
  fits mt known steps = true ->
  (assignment_steps mt known steps ad = APanic s
   <-> s = 1%N /\ element_run_too_long mt max_address_depth_nat known steps = true).
Proof.
  intros H. rewrite <- (assign_panic_iff mt known steps s H).
  unfold assignment_steps, assign_finish.
  destruct (assign_loop mt known steps) as [taken ct|s'].
  - destruct (N.leb ad (pointer_depth ct)); split; discriminate.
  - split; intros [= <-]; reflexivity.
Qed.

Theorem assign_total mt known steps :
  fits mt known steps = true ->
  types_within_assign mt known ->
  exists taken ct,
    assign_loop mt known steps = AsgAt taken ct /\
    ref_final mt (fully_dereferenced known) steps = Some (fully_dereferenced ct).
Proof.
  intros H [Hk Hm]. exact (assign_total_fuel mt max_address_depth_nat Hm steps known H Hk).
Qed.

Corollary assignment_steps_never_panics mt known steps ad :
  fits mt known steps = true ->
  types_within_assign mt known ->
  exists taken rd, assignment_steps mt known steps ad = AOk taken rd.
Proof.
  intros H Hw. destruct (assign_total mt known steps H Hw) as (taken & ct & Ha & _).
  unfold assignment_steps, assign_finish. rewrite Ha.
  destruct (N.leb ad (pointer_depth ct)); eauto.
Qed.

(* whatever the read side gets through, the assignment side takes *)
Theorem read_steps_then_assignment_steps mt known steps taken ct :
  types_within_assign mt known ->
  arraylike_free mt known ->
  autoderef_loop mt max_num_autoderef_steps known steps = LoopDone taken ct [] ->
  assign_loop mt known steps = AsgAt taken ct.
Proof.
  intros [Hk Hm] [Hna Hmna] Hl.
  pose proof (loop_then_assign mt max_address_depth_nat Hm Hmna max_num_autoderef_steps known steps Hna Hk) as Ha.
  now rewrite Hl in Ha.
Qed.

(* For a reference that get_type_of_reference accepts, of at most
   MAX_REFERENCE_DEPTH written steps, over types without Arraylike and without a run of
   more than MAX_ADDRESS_DEPTH Pointer / View constructors: the steps that
   analyze_assignment_steps takes before its final pointer adjustment are exactly the
   steps the loop of Reference::autoderef takes, they reach the same type, and that type
   is (up to Pointer / View layers) the one get_type_of_reference computed. *)
Theorem assignment_steps_are_read_steps mt known steps :
  fits mt known steps = true ->
  steps_within steps ->
  types_within_assign mt known ->
  arraylike_free mt known ->
  exists taken ct,
    autoderef_loop mt max_num_autoderef_steps known steps = LoopDone taken ct [] /\
    assign_loop mt known steps = AsgAt taken ct /\
    apply_tsteps mt known taken = Some ct /\
    ref_final mt (fully_dereferenced known) steps = Some (fully_dereferenced ct).
Proof.
  intros Hfits Hsteps [Hk Hm] [Hna Hmna].
  destruct (loop_total_fuel mt max_address_depth_nat max_num_autoderef_steps known steps
              Hfits Hk Hm) as (taken & ct & Hl & _ & Hfin).
  { (* 127 steps of at most 128 iterations each are within the budget *)
    pose proof max_steps_Z as HM. pose proof max_address_depth_nat_Z as HA.
    unfold steps_within, Limits.max_reference_depth in Hsteps.
    apply Nat2Z.inj_le. rewrite HM, Nat2Z.inj_mul, Nat2Z.inj_succ, HA. lia. }
  exists taken, ct. split; [exact Hl|split; [|split; [|exact Hfin]]].
  - exact (read_steps_then_assignment_steps mt known steps taken ct (conj Hk Hm) (conj Hna Hmna) Hl).
  - eapply loop_steps_reach, Hl.
Qed.

(* the same without the budget of the read side (no bound on the number of steps) *)
Theorem assignment_steps_are_walk_steps mt known steps :
  fits mt known steps = true ->
  types_within_assign mt known ->
  arraylike_free mt known ->
  exists taken ct,
    walk mt known steps = LoopDone taken ct [] /\
    assign_loop mt known steps = AsgAt taken ct /\
    ref_final mt (fully_dereferenced known) steps = Some (fully_dereferenced ct).
Proof.
  intros H [Hk Hm] [Hna Hmna].
  exact (assign_is_walk mt max_address_depth_nat Hm Hmna steps known H Hna Hk).
Qed.

Lemma pointer_depth_nonpointer t :
  match t with VPointer _ | VSlicePointer _ => True | _ => pointer_depth t = 0%N end.
Proof. destruct t; try exact I; reflexivity. Qed.

Lemma pointer_depth_slice_pointer e : pointer_depth (VSlicePointer e) = 1%N.
Proof. reflexivity. Qed.

Lemma strip_all_pointers : forall t,
  is_slice_pointer (pointer_tail t) = false ->
  strip_pointers_n (N.to_nat (pointer_depth t)) t = pointer_tail t.
Proof.
  intros t. rewrite pointer_depth_nat, Nat2N.id.
  induction t; intros Hsp; try reflexivity. exact (IHt Hsp).
Qed.

Section Trailing.
Variable mt : N -> option vt.

(* n Autoderef steps, n within the pointer depth: they remove n Pointer constructors --
   unless the last one would have to go through a SlicePointer, which counts in
   pointer_depth but is not a Pointer *)
Lemma apply_autoderefs : forall n t,
  (n <= depth t)%nat ->
  is_slice_pointer (pointer_tail t) = false \/ (n < depth t)%nat ->
  apply_tsteps mt t (repeat TAutoderef n) = Some (strip_pointers_n n t) /\
  depth (strip_pointers_n n t) = (depth t - n)%nat.
Proof.
  induction n as [|n IH]; intros t Hle Hsp; [split; [reflexivity|exact (eq_sym (Nat.sub_0_r _))]|].
  destruct t; cbn [depth] in *; try lia.
  - (* SlicePointer *) destruct Hsp as [Hsp|Hsp]; [discriminate Hsp|lia].
  - (* Pointer *) apply IH; [lia|destruct Hsp; [now left|right; lia]].
Qed.

Theorem trailing_autoderefs known steps ad taken ct :
  assign_loop mt known steps = AsgAt taken ct ->
  (ad <= pointer_depth ct)%N ->
  assignment_steps mt known steps ad
  = AOk (taken ++ repeat TAutoderef (N.to_nat (pointer_depth ct - ad))) 0.
Proof.
  intros Ha Hle. unfold assignment_steps, assign_finish. rewrite Ha.
  apply N.leb_le in Hle. rewrite Hle. reflexivity.
Qed.

Theorem excess_addresses known steps ad taken ct :
  assign_loop mt known steps = AsgAt taken ct ->
  (pointer_depth ct < ad)%N ->
  (ad <= 255)%N ->                                     (* address_depth is a u8 *)
  assignment_steps mt known steps ad = AOk taken (ad - pointer_depth ct).
Proof.
  intros Ha Hlt Hu8. unfold assignment_steps, assign_finish, excess_depth. rewrite Ha.
  apply N.leb_gt in Hlt. rewrite Hlt.
  replace (N.leb (ad - pointer_depth ct) 255) with true by (symmetry; apply N.leb_le; lia).
  reflexivity.
Qed.

(* the storage the result designates has pointer depth [ad] *)
Theorem trailing_autoderefs_reach known taken ct ad :
  apply_tsteps mt known taken = Some ct ->
  (ad <= pointer_depth ct)%N ->
  is_slice_pointer (pointer_tail ct) = false \/ (0 < ad)%N ->
  let k := N.to_nat (pointer_depth ct - ad) in
  apply_tsteps mt known (taken ++ repeat TAutoderef k) = Some (strip_pointers_n k ct) /\
  pointer_depth (strip_pointers_n k ct) = ad.
Proof.
  intros Hr Hle Hsp k. rewrite apply_tsteps_app, Hr. pose proof (pointer_depth_nat ct) as E.
  destruct (apply_autoderefs k ct) as [Ha Hd].
  - unfold k. lia.
  - destruct Hsp as [Hsp|Hsp]; [left; exact Hsp|right; unfold k; lia].
  - split; [exact Ha|]. rewrite pointer_depth_nat, Hd. unfold k. lia.
Qed.

End Trailing.

(* With address depth 0, on a reference within the limits, the result is the steps of the
   read side followed by exactly pointer_depth ct Autoderefs, no address is left, and,
   unless a slice pointer lies under the pointers ([slice_pointer_autoderef]), the location
   denoted is what lies under all of them: it has pointer depth 0. *)
Theorem assignment_target_is_scalar mt known steps :
  fits mt known steps = true ->
  steps_within steps ->
  types_within_assign mt known ->
  arraylike_free mt known ->
  exists taken ct,
    autoderef_loop mt max_num_autoderef_steps known steps = LoopDone taken ct [] /\
    assignment_steps mt known steps 0
    = AOk (taken ++ repeat TAutoderef (N.to_nat (pointer_depth ct))) 0 /\
    (is_slice_pointer (pointer_tail ct) = false ->
     apply_tsteps mt known (taken ++ repeat TAutoderef (N.to_nat (pointer_depth ct)))
     = Some (pointer_tail ct) /\
     pointer_depth (pointer_tail ct) = 0%N).
Proof.
  intros Hfits Hsteps Hw Hna.
  destruct (assignment_steps_are_read_steps mt known steps Hfits Hsteps Hw Hna)
    as (taken & ct & Hl & Ha & Hr & _).
  exists taken, ct. split; [exact Hl|split].
  - rewrite (trailing_autoderefs mt known steps 0 taken ct Ha) by lia.
    now rewrite N.sub_0_r.
  - intros Hsp.
    destruct (trailing_autoderefs_reach mt known taken ct 0 Hr) as [H1 H2];
      [lia|left; exact Hsp|].
    rewrite N.sub_0_r in H1, H2. rewrite (strip_all_pointers ct Hsp) in H1, H2.
    split; assumption.
Qed.

Lemma no_arraylike_vt_of_pty : forall t, no_arraylike (vt_of_pty t) = true.
Proof. induction t; cbn [vt_of_pty no_arraylike]; auto. Qed.

Lemma pointer_depth_vt_of_pty : forall t,
  pointer_depth (vt_of_pty t) = N.of_nat (CallFrame.ptr_depth t).
Proof.
  intros t. rewrite pointer_depth_nat. f_equal.
  induction t; cbn [vt_of_pty depth CallFrame.ptr_depth]; auto.
Qed.

Lemma strip_ptrs_vt_of_pty : forall n t,
  vt_of_pty (CallFrame.strip_ptrs n t) = strip_pointers_n n (vt_of_pty t).
Proof.
  induction n as [|n IH]; intros t; [destruct t; reflexivity|].
  destruct t; try reflexivity. cbn [CallFrame.strip_ptrs vt_of_pty strip_pointers_n]. apply IH.
Qed.

Lemma map_repeat {A B} (f : A -> B) x n : map f (repeat x n) = repeat (f x) n.
Proof. induction n as [|n IH]; [reflexivity|]. cbn [repeat map]. now rewrite IH. Qed.

Lemma elaborate_then_assign_loop t p rs0 t' :
  struct_free t = true ->
  runs_ok max_address_depth_nat (vt_of_pty t) = true ->
  MemLower.elaborate t p = Some (rs0, t') ->
  exists taken,
    assign_loop no_members (vt_of_pty t) (map astep_of_step p) = AsgAt taken (vt_of_pty t') /\
    map rstep_of_tstep taken = map forget_index rs0.
Proof.
  intros Hsf Hruns E. rewrite elaborate_budget in E.
  destruct (elaborate_is_autoderef_loop _ _ _ _ _ Hsf E) as (taken & Hl & Hm).
  exists taken. split; [|exact Hm].
  apply read_steps_then_assignment_steps; [| |exact Hl].
  - split; [exact Hruns|discriminate].
  - split; [apply no_arraylike_vt_of_pty|discriminate].
Qed.

Lemma elab_assign_inv t p ad rs tfin :
  CallFrame.elab_assign t p ad = Some (rs, tfin) ->
  exists rs0 t',
    MemLower.elaborate t p = Some (rs0, t') /\
    (ad <= CallFrame.ptr_depth t')%nat /\
    rs = rs0 ++ repeat MemLower.RAutoderef (CallFrame.ptr_depth t' - ad) /\
    tfin = CallFrame.strip_ptrs (CallFrame.ptr_depth t' - ad) t'.
Proof.
  unfold CallFrame.elab_assign. generalize (MemLower.elaborate t p). intros o H.
  destruct o as [[rs0 t']|]; [|discriminate H].
  destruct (Nat.leb ad (CallFrame.ptr_depth t')) eqn:Ele; [|discriminate H].
  injection H as <- <-. apply Nat.leb_le in Ele.
  exists rs0, t'. repeat split. exact Ele.
Qed.

(* What CallFrame reads as "the typer's steps for an assignment target" is what
   analyze_assignment_steps produces: same steps (the index expressions forgotten), no
   address left, same type designated.  On the fragment without structures
   ([struct_free]); side condition: no run of more than MAX_ADDRESS_DEPTH Pointer / View
   constructors in the type of the base ([elab_assign_needs_the_bound] below: it cannot
   be dropped). *)
Theorem elab_assign_is_assignment_steps t p ad rs tfin :
  struct_free t = true ->
  runs_ok max_address_depth_nat (vt_of_pty t) = true ->
  CallFrame.elab_assign t p ad = Some (rs, tfin) ->
  exists taken ct,
    assign_loop no_members (vt_of_pty t) (map astep_of_step p) = AsgAt taken ct /\
    assignment_steps no_members (vt_of_pty t) (map astep_of_step p) (N.of_nat ad)
    = AOk (taken ++ repeat TAutoderef (N.to_nat (pointer_depth ct - N.of_nat ad))) 0 /\
    map rstep_of_tstep (taken ++ repeat TAutoderef (N.to_nat (pointer_depth ct - N.of_nat ad)))
    = map forget_index rs /\
    vt_of_pty tfin = strip_pointers_n (N.to_nat (pointer_depth ct - N.of_nat ad)) ct.
Proof.
  intros Hsf Hruns H.
  apply elab_assign_inv in H as (rs0 & t' & E & Ele & -> & ->).
  destruct (elaborate_then_assign_loop t p rs0 t' Hsf Hruns E) as (taken & Ha & Hm).
  exists taken, (vt_of_pty t').
  assert (Hk : N.to_nat (pointer_depth (vt_of_pty t') - N.of_nat ad)
               = (CallFrame.ptr_depth t' - ad)%nat)
    by (rewrite pointer_depth_vt_of_pty; lia).
  split; [exact Ha|split; [|split]].
  - apply trailing_autoderefs; [exact Ha|]. rewrite pointer_depth_vt_of_pty. lia.
  - rewrite Hk, !map_app, Hm, !map_repeat. reflexivity.
  - rewrite Hk. apply strip_ptrs_vt_of_pty.
Qed.

(* A compiler crash.  [types_within] -- the limit under which the READ side is
   total -- allows 128 Pointer constructors in a row; the inner loop of the assignment
   side removes at most MAX_ADDRESS_DEPTH = 127.  The parser does not limit the number of
   `&` in a written type.
       fn f(x: &^128 [4]i32) { x[0] = 1; }        (128 ampersands)
   get_type_of_reference accepts the target (i32), a read `x[0]` is elaborated to 128
   Autoderefs and an Element, and analyze_assignment_steps reaches `unreachable!()` at
   typer.rs:2206: a Pointer is left on current_type, and get_element_type of a Pointer is
   None.  So the hypothesis [types_within_assign] of the theorems above cannot be
   weakened to [types_within]. *)
Example assignment_panics_where_read_works :
  let known := ptrs 128 (VArray i32 4) in
  let steps := [AElement None] in
  is_wellformed known = true /\ can_be_parameter known = true /\
  fits no_members known steps = true /\ steps_within steps /\
  types_within no_members known /\ arraylike_free no_members known /\
  type_of_reference no_members known steps 0 = Some i32 /\
  autoderef no_members known i32 steps 0
  = ADOk (repeat TAutoderef 128 ++ [TElement (Some false)]) false i32 None /\
  assignment_steps no_members known steps 0 = APanic 1.
Proof.
  cbv zeta. split; [vm_compute; reflexivity|]. split; [vm_compute; reflexivity|].
  split; [vm_compute; reflexivity|]. split; [apply steps_within_small; cbn; lia|].
  split; [apply no_members_within; vm_compute; reflexivity|].
  split; [split; [vm_compute; reflexivity|discriminate]|].
  split; [vm_compute; reflexivity|]. split; vm_compute; reflexivity.
Qed.

(* with 127 the two sides agree *)
Example assignment_127_pointers :
  let known := ptrs 127 (VArray i32 4) in
  assignment_steps no_members known [AElement None] 0
  = AOk (repeat TAutoderef 127 ++ [TElement (Some false)]) 0 /\
  autoderef_loop no_members max_num_autoderef_steps known [AElement None]
  = LoopDone (repeat TAutoderef 127 ++ [TElement (Some false)]) i32 [].
Proof. vm_compute. split; reflexivity. Qed.

(* Wrong steps, no panic.  The Member arm does not look at current_type after
   its 127 iterations: with 128 pointers in front of a structure it takes the member of a
   POINTER.
       struct S { m: i32 }   fn f(x: &^128 S) { x.m = 1; }
   The read side takes 128 Autoderefs and the Member; the assignment side 127 Autoderefs
   and the Member, steps that do not apply to the type of x ([apply_tsteps] = None):
   whatever the generator makes of it, it is not the member m of the structure. *)
Definition one_member (m : N) : option vt :=
  if N.eqb m 7 then Some i32 else None.

Example member_of_a_pointer :
  let known := ptrs 128 (VStruct 5%N) in
  let steps := [AMember 7] in
  fits one_member known steps = true /\ steps_within steps /\
  types_within one_member known /\ arraylike_free one_member known /\
  autoderef_loop one_member max_num_autoderef_steps known steps
  = LoopDone (repeat TAutoderef 128 ++ [TMember 7]) i32 [] /\
  assignment_steps one_member known steps 0
  = AOk (repeat TAutoderef 127 ++ [TMember 7]) 0 /\
  apply_tsteps one_member known (repeat TAutoderef 127 ++ [TMember 7]) = None /\
  apply_tsteps one_member known (repeat TAutoderef 128 ++ [TMember 7]) = Some i32.
Proof.
  assert (Hm : forall m t, one_member m = Some t -> t = i32).
  { intros m t. unfold one_member. destruct (N.eqb m 7); [now intros [= <-]|discriminate]. }
  cbv zeta. split; [vm_compute; reflexivity|]. split; [apply steps_within_small; cbn; lia|].
  split; [split; [vm_compute; reflexivity|intros m t E; rewrite (Hm m t E); reflexivity]|].
  split; [split; [vm_compute; reflexivity|intros m t E; rewrite (Hm m t E); reflexivity]|].
  repeat split; vm_compute; reflexivity.
Qed.

(* The hypothesis [arraylike_free] cannot be dropped either: on an
   Arraylike `[]T` the two functions disagree on is_endless (read: Some(true),
   assignment: None, which resolver.rs turns into false), and on `&[]T` / `([]T)` the read
   side indexes the pointer itself while the assignment side dereferences first. *)
Example arraylike_is_endless_differs :
  let known := VArraylike i32 in
  fits no_members known [AElement None] = true /\
  autoderef_loop no_members max_num_autoderef_steps known [AElement None]
  = LoopDone [TElement (Some true)] i32 [] /\
  assign_loop no_members known [AElement None] = AsgAt [TElement None] i32.
Proof. vm_compute. repeat split. Qed.

Example pointer_to_arraylike_differs :
  let known := VPointer (VArraylike i32) in
  is_wellformed known = true /\ can_be_parameter known = true /\
  fits no_members known [AElement None] = true /\
  autoderef_loop no_members max_num_autoderef_steps known [AElement None]
  = LoopDone [TElement None] i32 [] /\
  assign_loop no_members known [AElement None] = AsgAt [TAutoderef; TElement None] i32.
Proof. vm_compute. repeat split. Qed.

(* pointer_depth counts a SlicePointer as a pointer, the trailing
   loop pushes an Autoderef for it, and Autoderef is not a step that applies to a
   SlicePointer: the side condition of [trailing_autoderefs_reach] and
   [assignment_target_is_scalar] cannot be dropped.  (`x = y` with x: &[]i32 written
   without `&`: analyze_assignment reports MismatchedAddressInAssignment or a type
   conflict afterwards, so the steps are not used.) *)
Example slice_pointer_autoderef :
  assignment_steps no_members (VSlicePointer i32) [] 0 = AOk [TAutoderef] 0 /\
  apply_tsteps no_members (VSlicePointer i32) [TAutoderef] = None /\
  assignment_steps no_members (VSlicePointer i32) [] 1 = AOk [] 0.
Proof. vm_compute. repeat split. Qed.

(* Outside [fits] the second `unreachable!()` is within reach of the model:
   get_type_of_reference returns None (not an error) for a Member step on
   UnresolvedStructOrWord{None} (typer.rs:345-347), the caller only keeps
   Some(Err(_)) away, and analyze_assignment_steps is then called with a base whose
   type is known.  Whether typer.get_symbol(member) can be None at that point depends
   on the symbol table (resolution ids of members), which this model does not cover. *)
Example member_without_symbol :
  fits no_members (VUnresolved None) [AMember 7] = false /\
  assignment_steps no_members (VUnresolved None) [AMember 7] 0 = APanic 2.
Proof. vm_compute. split; reflexivity. Qed.

(* the hypotheses of [assignment_steps_are_read_steps] are satisfiable by non-trivial objects *)
Example sample_assignment :
  let known := VView (VStruct 5%N) in
  let steps := [AMember 2; AMember 2; AMember 1; AElement None] in
  fits sample_members known steps = true /\ steps_within steps /\
  types_within_assign sample_members known /\ arraylike_free sample_members known /\
  assignment_steps sample_members known steps 0
  = AOk [TAutoview; TMember 2; TAutoderef; TMember 2; TAutoderef; TMember 1;
         TElement (Some false)] 0 /\
  assignment_steps sample_members known [AMember 2] 0
  = AOk [TAutoview; TMember 2; TAutoderef] 0 /\
  assignment_steps sample_members known [AMember 2] 1 = AOk [TAutoview; TMember 2] 0 /\
  assignment_steps sample_members known [AMember 2] 3 = AOk [TAutoview; TMember 2] 2.
Proof.
  pose proof sample_members_inv as Hm. cbv zeta. split; [reflexivity|]. split; [apply steps_within_small; cbn; lia|].
  split; [split; [vm_compute; reflexivity|
                  intros m t E; destruct (Hm m t E) as [-> | ->]; vm_compute; reflexivity]|].
  split; [split; [vm_compute; reflexivity|
                  intros m t E; destruct (Hm m t E) as [-> | ->]; vm_compute; reflexivity]|].
  repeat split; vm_compute; reflexivity.
Qed.

(* CallFrame.elab_assign without the bound: MemLower.elaborate has the budget of the read
   side, so it gets through 128 pointers; analyze_assignment_steps does not. *)
Fixpoint pptrs (n : nat) (t : MemLower.pty) : MemLower.pty :=
  match n with O => t | S n' => MemLower.PPtr (pptrs n' t) end.

Example elab_assign_needs_the_bound :
  let t := pptrs 128 (MemLower.PArr 4 (MemLower.PInt 4)) in
  let p := [MemLower.SElem 0%Z] in
  struct_free t = true /\
  (exists rs, CallFrame.elab_assign t p 0 = Some (rs, MemLower.PInt 4)) /\
  assignment_steps no_members (vt_of_pty t) (map astep_of_step p) 0 = APanic 1.
Proof.
  cbv zeta. split; [vm_compute; reflexivity|]. split; [|vm_compute; reflexivity].
  eexists. vm_compute. reflexivity.
Qed.

(* elab_assign = None covers three things: the path does not fit the type (the typer's
   caller keeps those away), the budget of MemLower.elaborate (none here), and an excess
   of addresses, which the typer reports through a positive remaining depth
   (ExcessAddressInAssignment).  Only the Some direction is proved above. *)
Example elab_assign_none_is_excess :
  CallFrame.elab_assign (MemLower.PPtr (MemLower.PInt 4)) [] 2 = None /\
  assignment_steps no_members (vt_of_pty (MemLower.PPtr (MemLower.PInt 4))) [] 2 = AOk [] 1.
Proof. vm_compute. split; reflexivity. Qed.

Print Assumptions assign_panic_iff.
Print Assumptions assign_total.
Print Assumptions assignment_steps_never_panics.
Print Assumptions assignment_steps_are_read_steps.
Print Assumptions assignment_steps_are_walk_steps.
Print Assumptions read_steps_then_assignment_steps.
Print Assumptions trailing_autoderefs_reach.
Print Assumptions assignment_target_is_scalar.
Print Assumptions elab_assign_is_assignment_steps.
