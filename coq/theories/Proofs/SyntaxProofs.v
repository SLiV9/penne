(* Proofs about Model/Syntax.v: the three-flag analyzer of the current tree emits
   exactly the structural specification's codes, and the linter raises L1800
   exactly for branch blocks that start with `loop`. *)
From PV Require Import Base.Common Model.Syntax.

(* The generated [stmt_ind] has no hypothesis for the statements inside [SBlock b] or under the
   [Some] of an else-branch; this principle has: [Forall P b], and [P e'] under [Some e']. *)
Section stmt_ind2.
  Variable P : stmt -> Prop.
  Hypothesis HS : P SSimple.
  Hypothesis HG : P SGoto.
  Hypothesis HL : P SLoop.
  Hypothesis HP : P SPoison.
  Hypothesis HI : forall t e, P t -> match e with Some e' => P e' | None => True end -> P (SIf t e).
  Hypothesis HB : forall b, Forall P b -> P (SBlock b).
  Fixpoint stmt_ind2 (s : stmt) : P s :=
    match s with
    | SSimple => HS | SGoto => HG | SLoop => HL | SPoison => HP
    | SIf t e => HI t e (stmt_ind2 t) (match e with Some e' => stmt_ind2 e' | None => I end)
    | SBlock b => HB b (Forall_all P stmt_ind2 b)
    end.
End stmt_ind2.

(* The local fixpoint of the block arm of [an_stmt], as a function of its own: a [fix] closed over
   [fixed], as the local one is, so that the two are convertible. *)
Definition an_block (fixed : bool) : list stmt -> flags -> flags * list code :=
  fix an_block (ss : list stmt) (f : flags) : flags * list code :=
  match ss with
  | [] => (f, [])
  | [last] =>
      let '(f, c, _) := an_stmt fixed last (set_ib f true) in
      (set_ib f false, c)
  | s :: rest =>
      let '(f, c, still_loop) := an_stmt fixed s (set_ib f true) in
      let c := if still_loop then [E800] else c in
      let '(f, cr) := an_block rest f in
      (f, c ++ cr)
  end.

Lemma an_stmt_block fixed b f :
  an_stmt fixed (SBlock b) f =
  let '(f, c) := an_block fixed b (set_ne (set_nt f false) false) in (f, c, false).
Proof. cbn [an_stmt]. now rewrite andb_false_r. Qed.

Lemma spec_stmt_block c b : spec_stmt c (SBlock b) = spec_block b.
Proof.
  cbn [spec_stmt]. induction b as [|s rest IH]; [reflexivity|].
  destruct rest as [|s2 rest]; [reflexivity|]. cbn [spec_block]. now rewrite IH.
Qed.

(* the position the flags stand for; they do not tell the last statement of a block from an earlier
   one, [ib] is read as CLast and [an_block_good] accounts for the difference ([spec_other_last]) *)
Definition ctxf (f : flags) : ctx :=
  if nt f then CThen else if ne f then CElse else if ib f then CLast else CBody.

Definition is_last (c : ctx) : bool := match c with CLast => true | _ => false end.

Lemma spec_other_last s : is_loop s = false -> spec_stmt COther s = spec_stmt CLast s.
Proof. destruct s; try reflexivity. discriminate. Qed.

(* the flags with which the analyzer leaves [s]: an `if` that is not refused and a block that is
   not empty leave all three false *)
Definition flags_after (s : stmt) (f : flags) : flags :=
  match s with
  | SIf _ _ => if nt f then f else init_flags
  | SBlock [] => set_ne (set_nt f false) false
  | SBlock _ => init_flags
  | _ => f
  end.

Lemma flags_after_cleared s f :
  (nt f = false -> nt (flags_after s f) = false) /\
  (ne f = false -> ne (flags_after s f) = false) /\
  (ib f = false -> ib (flags_after s f) = false).
Proof. destruct f as [[] ? ?], s as [| | | | |[|? ?]]; cbn; auto. Qed.

(* At [s] the analyzer emits the specification's codes for the position its flags stand for and
   reports "still a loop" exactly for a loop in last position. *)
Definition good (s : stmt) : Prop := forall f, nt f && ne f = false ->
  an_stmt true s f = (flags_after s f, spec_stmt (ctxf f) s, is_loop s && is_last (ctxf f)).

Lemma an_block_good : forall b, Forall good b -> forall f,
  nt f = false -> ne f = false ->
  an_block true b f = (match b with [] => f | _ => init_flags end, spec_block b).
Proof.
  induction 1 as [|s rest Hs Hrest IH]; intros f Hnt Hne; [reflexivity|].
  specialize (Hs (set_ib f true)). unfold ctxf in Hs. cbn [set_ib nt ne ib] in Hs.
  rewrite Hnt, Hne in Hs. specialize (Hs eq_refl). cbn [is_last] in Hs. rewrite andb_true_r in Hs.
  destruct (flags_after_cleared s (set_ib f true)) as (N1 & N2 & _).
  specialize (N1 Hnt). specialize (N2 Hne).
  destruct rest as [|s2 rest].
  - cbn [an_block spec_block]. rewrite Hs. unfold set_ib at 1. now rewrite N1, N2.
  - change (an_block true (s :: s2 :: rest) f) with
      (let '(f1, c, still_loop) := an_stmt true s (set_ib f true) in
       let c0 := if still_loop then [E800] else c in
       let '(f2, cr) := an_block true (s2 :: rest) f1 in (f2, c0 ++ cr)).
    change (spec_block (s :: s2 :: rest)) with (spec_stmt COther s ++ spec_block (s2 :: rest)).
    rewrite Hs, (IH _ N1 N2). cbn zeta. f_equal. f_equal.
    (* a loop that is not last is E800; anything else reports as it would in last position *)
    destruct (is_loop s) eqn:El; [now destruct s|]. symmetry. now apply spec_other_last.
Qed.

Lemma good_all : forall s, good s.
Proof.
  induction s as [| | | |t e IHt IHe|b IHb] using stmt_ind2.
  1-4: (intros [[] [] []] Hf; try discriminate Hf; reflexivity).
  - intros f Hf. unfold ctxf. cbn [an_stmt flags_after]. destruct (nt f) eqn:A.
    { (* directly in then-position an `if` is refused *)
      cbn [andb] in Hf. now rewrite Hf. }
    (* anywhere else its arm runs, whatever the other flags *)
    rewrite orb_false_l, andb_negb_r.
    replace (spec_stmt _ (SIf t e))
      with (spec_stmt CThen t ++ match e with Some e' => spec_stmt CElse e' | None => [] end)
      by now destruct (ne f), (ib f).
    replace (is_loop _ && _) with false by now destruct (ne f), (ib f).
    rewrite (IHt (set_nt (set_ne (set_ib f false) false) true) eq_refl).
    destruct (flags_after_cleared t (set_nt (set_ne (set_ib f false) false) true)) as (_ & T2 & T3).
    specialize (T2 eq_refl). specialize (T3 eq_refl).
    destruct e as [e|].
    + rewrite (IHe (set_ne (set_nt (flags_after t _) false) true) eq_refl).
      destruct (flags_after_cleared e (set_ne (set_nt (flags_after t
                  (set_nt (set_ne (set_ib f false) false) true)) false) true)) as (E1 & _ & E3).
      unfold set_ne at 1. cbn [nt ne ib set_ne set_nt] in *. now rewrite (E1 eq_refl), (E3 T3).
    + rewrite app_nil_r. unfold set_nt at 1. now rewrite T2, T3.
  - (* block *)
    intros f Hf. rewrite an_stmt_block, spec_stmt_block.
    rewrite (an_block_good b IHb (set_ne (set_nt f false) false) eq_refl eq_refl).
    now destruct b.
Qed.

Lemma an_body_good : forall body, snd (an_body true body init_flags) = flat_map (spec_stmt CBody) body.
Proof.
  induction body as [|s rest IH]; [reflexivity|].
  cbn [an_body flat_map]. rewrite (good_all s init_flags eq_refl).
  replace (flags_after s init_flags) with init_flags by now destruct s as [| | | | |[|? ?]].
  destruct (an_body true rest init_flags) as [f2 cr]. cbn [snd] in *. now rewrite IH.
Qed.

Theorem syntax_codes_eq_spec : forall body, body_codes true body = spec_body body.
Proof. exact an_body_good. Qed.

(* D1: the analyzer of the pinned commit accepted `if .. {} else if .. if .. goto` *)
Definition d1 : list stmt := [SIf (SBlock []) (Some (SIf (SIf SGoto None) None))].
Lemma syntax_unfixed_refuted : body_codes false d1 = [] /\ spec_body d1 = [E840].
Proof. split; vm_compute; reflexivity. Qed.

Lemma lint_stmt_block first others st :
  lint_stmt (SBlock (first :: others)) st =
  let st := {| nb := false; fs := nb st |} in
  let '(st, c1) := lint_stmt first st in
  let st := {| nb := nb st; fs := false |} in
  let '(st, c2) := lint_list others st in
  (st, c1 ++ c2).
Proof. reflexivity. Qed.

Lemma lint_spec_block b : lint_spec (SBlock b) = flat_map lint_spec b.
Proof.
  cbn [lint_spec]. induction b as [|s rest IH]; [reflexivity|].
  cbn [flat_map]. now rewrite IH.
Qed.

(* what the linter says of [s] itself, from the state in which it meets it *)
Definition pre (s : stmt) (st : lstate) : list code :=
  match s with
  | SLoop => if fs st then [L1800] else []
  | SBlock (SLoop :: _) => if nb st then [L1800] else []
  | _ => []
  end.

Definition quiet : lstate := {| nb := false; fs := false |}.

(* the state in which the linter leaves [s] *)
Definition left_by (s : stmt) (st : lstate) : lstate :=
  match s with
  | SLoop => if fs st then {| nb := nb st; fs := false |} else st
  | SIf _ _ | SBlock (_ :: _) => quiet
  | _ => st
  end.

Lemma pre_naked s : pre s {| nb := true; fs := false |} =
  if first_is_loop s then [L1800] else [].
Proof. destruct s as [| | | | |b]; try reflexivity. destruct b as [|[] ?]; reflexivity. Qed.

(* the first statement of a block says what the block has to *)
Lemma pre_first s ss st : pre s {| nb := false; fs := nb st |} = pre (SBlock (s :: ss)) st.
Proof. destruct s as [| | | | |b]; try reflexivity. destruct b as [|[] ?]; reflexivity. Qed.

Lemma left_by_fs s st : fs st = false -> fs (left_by s st) = false.
Proof. intros H. destruct s as [| | | | |[|? ?]]; cbn [left_by]; rewrite ?H; auto. Qed.

Lemma left_by_nb s st : nb st = false -> nb (left_by s st) = false.
Proof. intros H. destruct s as [| | | | |[|? ?]]; cbn [left_by]; try destruct (fs st); auto. Qed.

(* At [s] the linter emits what it says of [s] itself ([pre]), then the specification's codes for
   what [s] contains. *)
Definition lgood (s : stmt) : Prop := forall st,
  lint_stmt s st = (left_by s st, pre s st ++ lint_spec s).

Lemma lint_list_good l : Forall lgood l -> lint_list l quiet = (quiet, flat_map lint_spec l).
Proof.
  induction 1 as [|s rest Hs _ IH]; [reflexivity|].
  cbn [lint_list flat_map]. rewrite Hs.
  replace (left_by s quiet) with quiet by (destruct s as [| | | | |[|? ?]]; reflexivity).
  rewrite IH. now destruct s as [| | | | |[|[] ?]].
Qed.

Lemma lgood_all : forall s, lgood s.
Proof.
  induction s as [| | | |t e IHt IHe|b IHb] using stmt_ind2; intros st; try reflexivity.
  - cbn [lint_stmt pre left_by lint_spec]. now destruct (fs st).
  - cbn [lint_stmt]. rewrite IHt, pre_naked.
    rewrite (left_by_fs t {| nb := true; fs := false |} eq_refl).
    destruct e as [e|]; cbn [pre lint_spec left_by app]; [|now rewrite app_nil_r].
    rewrite IHe, pre_naked, (left_by_fs e {| nb := true; fs := false |} eq_refl). now rewrite <- !app_assoc.
  - destruct IHb as [|first others Hfirst Hothers]; [reflexivity|].
    rewrite lint_stmt_block, lint_spec_block. cbn zeta. rewrite Hfirst, (pre_first first others st).
    rewrite (left_by_nb first {| nb := false; fs := nb st |} eq_refl).
    fold quiet. rewrite (lint_list_good others Hothers). cbn [flat_map left_by]. now rewrite app_assoc.
Qed.

Theorem lint_iff_first_loop_of_branch : forall body, lint_body body = lint_spec_body body.
Proof.
  intros body. unfold lint_body, lint_spec_body. fold quiet.
  now rewrite (lint_list_good body (Forall_all lgood lgood_all body)).
Qed.
