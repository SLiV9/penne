(* C08: soundness of the mutability analyzer and of the aggregate-copy check
   (src/alpha/analyzer/mutability.rs, function_calls.rs) against the permission
   system of Model/Mutability.v. *)
From PV Require Import Base.Common Model.Mutability.

(* Expressions are nested in lists of expressions and of steps, and a step holds at most one
   expression; a reference is the list of its steps. *)
Definition step_arg (P : expr -> Prop) (s : rstep) : Prop :=
  match s with Element a => P a | _ => True end.

Section expr_ind2.
  Variable P : expr -> Prop.
  Hypothesis HLeaf : P ELeaf.
  Hypothesis HBinary : forall l r, P l -> P r -> P (EBinary l r).
  Hypothesis HUnary : forall e, P e -> P (EUnary e).
  Hypothesis HArrayLit : forall es, Forall P es -> P (EArrayLit es).
  Hypothesis HStructural : forall es, Forall P es -> P (EStructural es).
  Hypothesis HParen : forall e, P e -> P (EParen e).
  Hypothesis HAutocoerce : forall e, P e -> P (EAutocoerce e).
  Hypothesis HCast : forall e, P e -> P (ECast e).
  Hypothesis HDeref : forall b ss ad t, Forall (step_arg P) ss -> P (EDeref (Ref b ss ad) t).
  Hypothesis HLengthOf : forall b ss ad, Forall (step_arg P) ss -> P (ELengthOf (Ref b ss ad)).
  Hypothesis HCall : forall f es, Forall P es -> P (ECall f es).
  Hypothesis HPoison : P EPoison.

  Fixpoint expr_ind2 (e : expr) : P e :=
    let exprs := Forall_all P expr_ind2 in
    let steps := Forall_all (step_arg P)
      (fun s => match s return step_arg P s with Element a => expr_ind2 a | _ => I end) in
    match e with
    | ELeaf => HLeaf
    | EBinary l r => HBinary l r (expr_ind2 l) (expr_ind2 r)
    | EUnary x => HUnary x (expr_ind2 x)
    | EArrayLit es => HArrayLit es (exprs es)
    | EStructural es => HStructural es (exprs es)
    | EParen x => HParen x (expr_ind2 x)
    | EAutocoerce x => HAutocoerce x (expr_ind2 x)
    | ECast x => HCast x (expr_ind2 x)
    | EDeref (Ref b ss ad) t => HDeref b ss ad t (steps ss)
    | ELengthOf (Ref b ss ad) => HLengthOf b ss ad (steps ss)
    | ECall f es => HCall f es (exprs es)
    | EPoison => HPoison
    end.
End expr_ind2.

Section stmts_ind.
  Variables (P : stmt -> Prop) (Ps : list stmt -> Prop).
  Hypothesis HDecl : forall x value t, P (SDeclaration x value t).
  Hypothesis HAssign : forall r value, P (SAssignment r value).
  Hypothesis HCall : forall f args, P (SMethodCall f args).
  Hypothesis HIf : forall cl cr th el,
    P th -> match el with Some e => P e | None => True end -> P (SIf cl cr th el).
  Hypothesis HBlock : forall b, Ps b -> P (SBlock b).
  Hypothesis HOther : P SOther.
  Hypothesis HNil : Ps [].
  Hypothesis HCons : forall s l, P s -> Ps l -> Ps (s :: l).

  Fixpoint stmt_ind2 (s : stmt) : P s :=
    match s with
    | SDeclaration x value t => HDecl x value t
    | SAssignment r value => HAssign r value
    | SMethodCall f args => HCall f args
    | SIf cl cr th el =>
        HIf cl cr th el (stmt_ind2 th)
          match el as o return match o return Prop with Some e => P e | None => True end with
          | Some e => stmt_ind2 e
          | None => I
          end
    | SBlock b =>
        HBlock b (list_ind Ps HNil (fun x xs => HCons x xs (stmt_ind2 x)) b)
    | SOther => HOther
    end.

  Lemma stmts_ind : (forall s, P s) /\ (forall l, Ps l).
  Proof. split; [exact stmt_ind2|]. induction l; auto using stmt_ind2. Qed.
End stmts_ind.

(* The local fixes of the model are the list functions defined beside them: up to
   conversion where the two fixpoints take the same arguments, by induction where the
   list function also takes the analyzer state. *)
Lemma mut_expr_arraylit v es : mut_expr v (EArrayLit es) = mut_exprs v es.
Proof.
  cbn [mut_expr]. induction es as [|x xs IH]; [reflexivity|].
  cbn [mut_exprs]. now rewrite IH.
Qed.

Lemma mut_expr_structural v es : mut_expr v (EStructural es) = mut_exprs v es.
Proof. exact (mut_expr_arraylit v es). Qed.

Lemma mut_expr_call v f es : mut_expr v (ECall f es) = mut_exprs v es.
Proof. exact (mut_expr_arraylit v es). Qed.

Lemma mut_ref_unfold v b ss ad m :
  mut_ref v (Ref b ss ad) m =
  match use_variable v b m with
  | UvOk => mut_steps v ss
  | UvError c => [c]
  | UvPoisoned => [E_SILENT]
  end.
Proof.
  cbn [mut_ref]. destruct (use_variable v b m); try reflexivity.
  induction ss as [|s xs IH]; [reflexivity|]. cbn [mut_steps]. now rewrite IH.
Qed.

Lemma mut_stmt_block v b : mut_stmt v (SBlock b) = mut_stmts v b.
Proof. reflexivity. Qed.

Lemma deref_sites_arraylit es : deref_sites (EArrayLit es) = deref_sites_list es.
Proof. reflexivity. Qed.

Lemma deref_sites_structural es : deref_sites (EStructural es) = deref_sites_list es.
Proof. reflexivity. Qed.

Lemma deref_sites_call f es : deref_sites (ECall f es) = deref_sites_list es.
Proof. reflexivity. Qed.

Lemma ref_sites_unfold b ss ad : ref_sites (Ref b ss ad) = steps_sites ss.
Proof. reflexivity. Qed.

Lemma stmt_sites_block v b : stmt_sites v (SBlock b) = stmts_sites v b.
Proof. reflexivity. Qed.

Lemma declared_vars_block b : declared_vars (SBlock b) = declared_vars_list b.
Proof. reflexivity. Qed.

Lemma fc_expr_arraylit imm es : fc_expr imm (EArrayLit es) = fc_seq false es.
Proof. reflexivity. Qed.

Lemma fc_expr_structural imm es : fc_expr imm (EStructural es) = fc_seq false es.
Proof. reflexivity. Qed.

Lemma fc_expr_call imm f es : fc_expr imm (ECall f es) = (false, fc_args es).
Proof. reflexivity. Qed.

Lemma fc_ref_unfold imm b ss ad : fc_ref imm (Ref b ss ad) = fc_steps imm ss.
Proof. reflexivity. Qed.

Lemma fc_stmt_block b : fc_stmt (SBlock b) = fc_stmts false b.
Proof. reflexivity. Qed.

Lemma needs_outer_crosses ss : needs_outer_mutability ss = negb (crosses_pointer ss).
Proof.
  unfold crosses_pointer.
  induction ss as [|s rest IH]; [reflexivity|].
  destruct s; cbn [needs_outer_mutability existsb is_pointer_step orb negb]; auto.
Qed.

(* [mutated] is [true] for an assignment and [0 <? ad] where an address is taken. *)
Lemma use_variable_spec v r mutated :
  uv_codes (use_variable v (r_base r) (mutated && needs_outer_mutability (r_steps r))) =
  match r_base r with
  | Some x =>
      match lookup v x with
      | Some _ => if mutated && negb (writable v r) then [E530] else []
      | None => [E_SILENT]
      end
  | None => []
  end.
Proof.
  unfold use_variable, writable. rewrite needs_outer_crosses.
  destruct (r_base r) as [x|]; [|reflexivity].
  destruct (lookup v x) as [m|]; [|reflexivity].
  now destruct mutated, m, (crosses_pointer (r_steps r)).
Qed.

Lemma check_assignment_spec v r :
  check_assignment v r =
  match r_base r with
  | Some x =>
      match lookup v x with
      | Some _ => if negb (writable v r) then [E530] else []
      | None => [E_SILENT]
      end
  | None => []
  end.
Proof. exact (use_variable_spec v r true). Qed.

Lemma check_address_taken_spec v r :
  check_address_taken v r =
  match r_base r with
  | Some x =>
      match lookup v x with
      | Some _ => if N.ltb 0 (r_ad r) && negb (writable v r) then [E530] else []
      | None => [E_SILENT]
      end
  | None => []
  end.
Proof. exact (use_variable_spec v r (N.ltb 0 (r_ad r))). Qed.

Theorem assignment_sound v r x :
  r_base r = Some x -> check_assignment v r = [] -> writable v r = true.
Proof.
  intros Hb. rewrite check_assignment_spec, Hb.
  now destruct (lookup v x), (writable v r).
Qed.

(* The hypothesis on the base is needed: a poisoned base (an error was reported
   for the identifier earlier) is waved through. *)
Theorem assignment_sound_poisoned_base_refuted :
  exists v r, check_assignment v r = [] /\ writable v r = false.
Proof. exists [], (Ref None [] 0%N). split; reflexivity. Qed.

Theorem assignment_complete v r x :
  r_base r = Some x -> lookup v x <> None ->
  writable v r = false -> check_assignment v r = [E530].
Proof.
  intros Hb Hd Hw. rewrite check_assignment_spec, Hb, Hw.
  now destruct (lookup v x).
Qed.

Corollary assignment_complete_In v r x :
  r_base r = Some x -> lookup v x <> None ->
  writable v r = false -> In E530 (check_assignment v r).
Proof. intros Hb Hd Hw. rewrite (assignment_complete v r x Hb Hd Hw). now left. Qed.

(* Without "declared": no E530, only the silent poison (the compilation fails with
   an empty error list).  Not reachable after the scoper. *)
Theorem assignment_complete_undeclared_refuted :
  exists v r, writable v r = false /\ ~ In E530 (check_assignment v r)
              /\ check_assignment v r = [E_SILENT].
Proof.
  exists [], (Ref (Some 1%N) [] 0%N). split; [reflexivity|split; [|reflexivity]].
  intros [H|[]]; discriminate.
Qed.

Theorem assignment_iff v r x :
  r_base r = Some x -> check_assignment v r = [] <-> writable v r = true.
Proof.
  intros Hb. split; [apply (assignment_sound v r x Hb)|].
  intros Hw. rewrite check_assignment_spec, Hb, Hw.
  unfold writable in Hw. rewrite Hb in Hw. now destruct (lookup v x).
Qed.

Lemma check_assignment_codes v r :
  check_assignment v r = [] \/ check_assignment v r = [E530] \/ check_assignment v r = [E_SILENT].
Proof.
  rewrite check_assignment_spec. destruct (r_base r) as [x|]; [|now left].
  destruct (lookup v x); [destruct (writable v r); [left|right; left]|right; right]; reflexivity.
Qed.

Lemma crosses_pointer_app a b :
  crosses_pointer (a ++ b) = crosses_pointer a || crosses_pointer b.
Proof. unfold crosses_pointer. apply existsb_app. Qed.

Lemma chain_type_app mt t a b :
  chain_type mt t (a ++ b) =
  match chain_type mt t a with Some t' => chain_type mt t' b | None => None end.
Proof.
  revert t. induction a as [|s a IH]; intros t; [reflexivity|].
  cbn [app chain_type]. destruct (step_type mt t s) as [t'|]; [apply IH|reflexivity].
Qed.

Lemma pointer_step_type mt t s t' :
  is_pointer_step s = true -> step_type mt t s = Some t' -> is_pointer_type t = true.
Proof.
  destruct s; cbn [is_pointer_step]; try discriminate; intros _;
    destruct t; cbn [step_type is_pointer_type]; intros H; try discriminate; reflexivity.
Qed.

(* The first pointer-crossing step of a well-typed chain is applied to a value whose
   type is a pointer or a slice pointer. *)
Theorem crossing_has_pointer_type mt : forall ss t t',
  chain_type mt t ss = Some t' -> crosses_pointer ss = true ->
  exists pre s post tp,
    ss = pre ++ s :: post /\ crosses_pointer pre = false /\
    is_pointer_step s = true /\ chain_type mt t pre = Some tp /\
    is_pointer_type tp = true.
Proof.
  induction ss as [|s rest IH]; intros t t' Ht Hc; [discriminate|].
  cbn [chain_type] in Ht. destruct (step_type mt t s) as [t1|] eqn:Hs; [|discriminate].
  destruct (is_pointer_step s) eqn:Hp.
  - exists [], s, rest, t. repeat split; try reflexivity; try assumption.
    eapply pointer_step_type; eassumption.
  - unfold crosses_pointer in Hc. cbn [existsb] in Hc. rewrite Hp in Hc. cbn [orb] in Hc.
    destruct (IH t1 t' Ht Hc) as (pre & s' & post & tp & He & Hpre & Hs' & Htp & Hpt).
    exists (s :: pre), s', post, tp. repeat split; try assumption.
    + cbn [app]. now rewrite He.
    + unfold crosses_pointer in *. cbn [existsb]. now rewrite Hp, Hpre.
    + cbn [chain_type]. now rewrite Hs.
Qed.

Theorem param_write_needs_pointer v mt x t t' ss ad :
  lookup v x = Some false ->                      (* a parameter or a constant *)
  chain_type mt t ss = Some t' ->                 (* t: its declared type *)
  check_assignment v (Ref (Some x) ss ad) = [] -> (* the assignment is accepted *)
  exists pre s post tp,
    ss = pre ++ s :: post /\ crosses_pointer pre = false /\
    is_pointer_step s = true /\ chain_type mt t pre = Some tp /\
    is_pointer_type tp = true.
Proof.
  intros Hl Ht Hc. eapply crossing_has_pointer_type; [eassumption|].
  apply (assignment_sound v (Ref (Some x) ss ad) x eq_refl) in Hc.
  unfold writable in Hc. cbn [r_base r_steps] in Hc. now rewrite Hl in Hc.
Qed.

Corollary head_crossing_pointer_type mt t t' s rest :
  is_pointer_step s = true ->
  chain_type mt t (s :: rest) = Some t' ->
  is_pointer_type t = true.
Proof.
  intros Hp Ht. cbn [chain_type] in Ht.
  destruct (step_type mt t s) as [t1|] eqn:Hs; [|discriminate].
  eapply pointer_step_type; eassumption.
Qed.

Lemma declare_params_lookup_other ps : forall v x,
  ~ In (Some x) (map p_name ps) -> lookup (declare_params v ps) x = lookup v x.
Proof.
  induction ps as [|p rest IH]; intros v x Hn; [reflexivity|].
  cbn [declare_params]. rewrite IH.
  - unfold declare_param. destruct (p_name p) as [y|] eqn:Hy; [|reflexivity].
    unfold declare_variable. cbn [lookup].
    destruct (N.eqb x y) eqn:E; [|reflexivity].
    apply N.eqb_eq in E. subst y. exfalso. apply Hn. cbn [map]. left. exact Hy.
  - intros Hin. apply Hn. cbn [map]. now right.
Qed.

Lemma opt_name_dec (a b : option name) : {a = b} + {a <> b}.
Proof. decide equality. apply N.eq_dec. Qed.

Theorem params_are_immutable ps : forall v x,
  Forall (fun p => p_type p <> None) ps ->
  In (Some x) (map p_name ps) ->
  lookup (declare_params v ps) x = Some false.
Proof.
  induction ps as [|p rest IH]; intros v x Hok Hin; [destruct Hin|].
  apply Forall_cons_iff in Hok. destruct Hok as [Hp Hrest].
  cbn [declare_params].
  destruct (in_dec opt_name_dec (Some x) (map p_name rest)) as [Hr|Hr].
  - now apply IH.
  - rewrite declare_params_lookup_other by assumption.
    destruct Hin as [Hh|Hh]; [|contradiction].
    unfold declare_param. rewrite Hh. unfold declare_variable. cbn [lookup].
    rewrite N.eqb_refl. destruct (p_type p); [reflexivity|congruence].
Qed.

Theorem constant_is_immutable v x t :
  lookup (fst (mut_decl v (DConstant x (Some t)))) x = Some false.
Proof. cbn [mut_decl fst declare_variable lookup]. now rewrite N.eqb_refl. Qed.

(* A poisoned type makes the parameter / constant "mutable" (error faking). *)
Theorem poisoned_type_fakes_mutability :
  lookup (declare_params [] [{| p_name := Some 1%N; p_type := None |}]) 1%N = Some true /\
  lookup (fst (mut_decl [] (DConstant 1%N None))) 1%N = Some true.
Proof. split; reflexivity. Qed.

Theorem view_is_readonly v x ss ad :
  lookup v x = Some false ->
  crosses_pointer ss = false ->
  check_assignment v (Ref (Some x) ss ad) = [E530].
Proof.
  intros Hl Hc. apply (assignment_complete v (Ref (Some x) ss ad) x eq_refl).
  - rewrite Hl. discriminate.
  - unfold writable. cbn [r_base r_steps]. now rewrite Hl, Hc.
Qed.

Lemma pointer_free_step mt t s t' :
  pointer_free t = true -> step_type mt t s = Some t' ->
  is_pointer_step s = false /\ pointer_free t' = true.
Proof.
  intros Hp Hs. destruct t; try discriminate Hp; destruct s; try discriminate Hs;
    injection Hs as <-; now split.
Qed.

Lemma pointer_free_never_crosses mt : forall ss t t',
  pointer_free t = true -> chain_type mt t ss = Some t' -> crosses_pointer ss = false.
Proof.
  induction ss as [|s rest IH]; intros t t' Hp Ht; [reflexivity|].
  cbn [chain_type] in Ht. destruct (step_type mt t s) as [t1|] eqn:Hs; [|discriminate].
  destruct (pointer_free_step mt t s t1 Hp Hs) as [Hns Hp1].
  unfold crosses_pointer in *. cbn [existsb]. rewrite Hns. cbn [orb]. eapply IH; eassumption.
Qed.

(* Typed form: no well-typed chain from a [pointer_free] type crosses a pointer; so an
   array passed by view ([]T, [:]T, ([N]T)) of such an element type can never be
   assigned through. *)
Theorem view_is_readonly_typed v mt x t t' ss ad :
  lookup v x = Some false ->
  pointer_free t = true -> chain_type mt t ss = Some t' ->
  check_assignment v (Ref (Some x) ss ad) = [E530].
Proof.
  intros Hl Hp Ht. apply view_is_readonly; [assumption|].
  eapply pointer_free_never_crosses; eassumption.
Qed.

Theorem address_of_immutable_rejected v x ss ad :
  lookup v x = Some false -> (0 < ad)%N -> crosses_pointer ss = false ->
  check_address_taken v (Ref (Some x) ss ad) = [E530].
Proof.
  intros Hl Had Hc. rewrite check_address_taken_spec.
  unfold writable. cbn [r_base r_steps r_ad]. apply N.ltb_lt in Had.
  now rewrite Hl, Had, Hc.
Qed.

Theorem address_taken_sound v x ss ad :
  (0 < ad)%N -> check_address_taken v (Ref (Some x) ss ad) = [] ->
  writable v (Ref (Some x) ss ad) = true.
Proof.
  intros Had. rewrite check_address_taken_spec. cbn [r_base r_ad].
  apply N.ltb_lt in Had. rewrite Had.
  now destruct (lookup v x), (writable v (Ref (Some x) ss ad)).
Qed.

Theorem plain_read_accepted v x ss m :
  lookup v x = Some m -> check_address_taken v (Ref (Some x) ss 0%N) = [].
Proof.
  intros Hl. rewrite check_address_taken_spec. cbn [r_base]. now rewrite Hl.
Qed.

Theorem no_aggregate_copy imm t :
  check_value_use imm (POk t) =
  match aggregate_code t with
  | Some c => if imm then [] else [c]
  | None => []
  end.
Proof. destruct t; reflexivity. Qed.

Corollary no_aggregate_copy_array e n : check_value_use false (POk (MArray e n)) = [E531].
Proof. reflexivity. Qed.
Corollary no_aggregate_copy_endless e : check_value_use false (POk (MEndless e)) = [E531].
Proof. reflexivity. Qed.
Corollary no_aggregate_copy_slice e : check_value_use false (POk (MSlice e)) = [E532].
Proof. reflexivity. Qed.
Corollary no_aggregate_copy_slice_pointer e :
  check_value_use false (POk (MSlicePointer e)) = [E532].
Proof. reflexivity. Qed.
Corollary no_aggregate_copy_struct id : check_value_use false (POk (MStruct id)) = [E533].
Proof. reflexivity. Qed.

Theorem immediate_argument_may_copy t : check_value_use true t = [].
Proof. destruct t as [| |t]; [reflexivity|reflexivity|destruct t; reflexivity]. Qed.

(* Not covered by the rule (the `_ => deref_type` arm): arrays whose length is still a
   name, views, words, pointers, untyped and poisoned uses. *)
Theorem value_use_uncovered :
  (forall e n imm, check_value_use imm (POk (MArrayNamed e n)) = []) /\
  (forall d imm, check_value_use imm (POk (MView d)) = []) /\
  (forall d imm, check_value_use imm (POk (MPointer d)) = []) /\
  (forall id imm, check_value_use imm (POk (MWord id)) = []) /\
  (forall imm, check_value_use imm PNone = []) /\
  (forall imm, check_value_use imm PErr = []).
Proof. repeat split; reflexivity. Qed.

(* Once cleared, the flag stays cleared until the next argument list: through a sequence of
   two walks, hence through every expression and every statement. *)
Lemma fc_flag_seq (p : bool * list code) (q : bool -> bool * list code) :
  fst p = false -> fst (q false) = false ->
  fst (let '(i1, c1) := p in let '(i2, c2) := q i1 in (i2, c1 ++ c2)) = false.
Proof. destruct p as [i1 c1]. cbn [fst]. intros ->. now destruct (q false). Qed.

Lemma fc_expr_false : forall e, fst (fc_expr false e) = false.
Proof.
  assert (L : forall es, Forall (fun e => fst (fc_expr false e) = false) es ->
                         fst (fc_seq false es) = false).
  { induction 1 as [|e es He _ IH]; [reflexivity|]. exact (fc_flag_seq _ (fun i => fc_seq i es) He IH). }
  assert (S : forall ss, Forall (step_arg (fun e => fst (fc_expr false e) = false)) ss ->
                         fst (fc_steps false ss) = false).
  { induction 1 as [|s ss Hs _ IH]; [reflexivity|].
    apply (fc_flag_seq _ (fun i => fc_steps i ss)); [|exact IH]. destruct s; try reflexivity. exact Hs. }
  (* [exact He]: the forms that pass the flag on to their one operand; array and structure
     literals walk their elements by [fc_seq false], up to conversion *)
  apply expr_ind2; try reflexivity; try (intros e He; exact He); try exact L.
  - (* EBinary *) intros l r Hl Hr. exact (fc_flag_seq _ (fun i => fc_expr i r) Hl Hr).
  - (* EDeref *) intros b ss ad t Hss. cbn [fc_expr]. rewrite fc_ref_unfold.
    specialize (S ss Hss). now destruct (fc_steps false ss).
  - (* ELengthOf *) intros b ss ad. exact (S ss).
Qed.

Lemma fc_ref_false r : fst (fc_ref false r) = false.
Proof. exact (fc_expr_false (ELengthOf r)). Qed.

Lemma fc_stmt_flag :
  (forall s, fst (fc_stmt s) = false) /\ (forall l, fst (fc_stmts false l) = false).
Proof.
  apply stmts_ind; try reflexivity.
  - (* SDeclaration *) intros x [e|] t; [|reflexivity]. cbn [fc_stmt].
    pose proof (fc_expr_false e) as H. now destruct (fc_expr false e).
  - (* SAssignment *) intros r value.
    exact (fc_flag_seq _ (fun i => fc_expr i value) (fc_ref_false r) (fc_expr_false value)).
  - (* SIf *) intros cl cr th el Ht He. cbn [fc_stmt].
    destruct (fc_expr false cl) as [i1 c1], (fc_expr i1 cr) as [i2 c2], (fc_stmt th) as [i3 c3].
    destruct el as [e|]; [now destruct (fc_stmt e)|exact Ht].
  - (* SBlock *) intros b Hb. exact Hb.
  - (* s :: l *) intros s l Hs Hl. exact (fc_flag_seq _ (fun i => fc_stmts i l) Hs Hl).
Qed.

(* Hence the value of a declaration, the value of an assignment and the return value
   are never "immediate": a whole aggregate there is always rejected. *)
Lemma deref_copy_rejected r t c :
  aggregate_code t = Some c -> In c (snd (fc_expr false (EDeref r (POk t)))).
Proof.
  intros Ha. cbn [fc_expr]. destruct (fc_ref false r) as [i1 c1]. cbn [snd].
  apply in_or_app. left. rewrite no_aggregate_copy, Ha. now left.
Qed.

Theorem declaration_copy_rejected x r t c ty :
  aggregate_code t = Some c ->
  In c (snd (fc_stmt (SDeclaration x (Some (EDeref r (POk t))) ty))).
Proof.
  intros Ha. apply (deref_copy_rejected r) in Ha. cbn [fc_stmt].
  destruct (fc_expr false (EDeref r (POk t))) as [i1 c1]. apply in_or_app. now right.
Qed.

Theorem assignment_copy_rejected r0 r t c :
  aggregate_code t = Some c ->
  In c (snd (fc_stmt (SAssignment r0 (EDeref r (POk t))))).
Proof.
  intros Ha. apply (deref_copy_rejected r) in Ha. cbn [fc_stmt].
  pose proof (fc_ref_false r0) as H. destruct (fc_ref false r0) as [i1 c1].
  cbn [fst] in H. subst i1.
  destruct (fc_expr false (EDeref r (POk t))) as [i2 c2]. apply in_or_app. now right.
Qed.

Theorem return_copy_rejected ss r t c :
  aggregate_code t = Some c ->
  In c (fc_body {| fb_statements := ss; fb_return := Some (EDeref r (POk t)) |}).
Proof.
  intros Ha. apply (deref_copy_rejected r) in Ha. unfold fc_body. cbn [fb_statements fb_return].
  pose proof (proj2 fc_stmt_flag ss) as H. destruct (fc_stmts false ss) as [i1 c1].
  cbn [fst] in H. subst i1. apply in_or_app. now right.
Qed.

(* A bare reference (also parenthesized / coerced / cast) that IS an argument raises
   nothing for itself; only its index expressions are inspected. *)
Theorem argument_copy_accepted f b ss ad t :
  snd (fc_expr false (ECall f [EDeref (Ref b ss ad) t])) = snd (fc_steps true ss).
Proof.
  rewrite fc_expr_call. cbn [snd fc_args fc_expr]. rewrite fc_ref_unfold.
  destruct (fc_steps true ss) as [i1 c1]. cbn [snd].
  rewrite immediate_argument_may_copy. now rewrite app_nil_r.
Qed.

Theorem argument_wrappers_transparent e :
  fc_expr true (EParen e) = fc_expr true e /\
  fc_expr true (EAutocoerce e) = fc_expr true e /\
  fc_expr true (ECast e) = fc_expr true e.
Proof. repeat split; reflexivity. Qed.

Definition tag (v : menv) (l : list reference) : list site :=
  map (fun r => (v, false, r)) l.

Lemma tag_app v a b : tag v (a ++ b) = tag v a ++ tag v b.
Proof. unfold tag. apply map_app. Qed.

Lemma expr_sites_tag v e : expr_sites v e = tag v (deref_sites e).
Proof. reflexivity. Qed.

Definition sites_ok (l : list site) : Prop := Forall (fun st => site_ok st = true) l.

(* Codes and sites are collected in the same order: if the codes of a sequence are
   empty, so are those of its parts. *)
Lemma sites_ok_seq (c1 c2 : list code) (s1 s2 : list site) :
  (c1 = [] -> sites_ok s1) -> (c2 = [] -> sites_ok s2) ->
  c1 ++ c2 = [] -> sites_ok (s1 ++ s2).
Proof. intros H1 H2 Hc. apply app_eq_nil in Hc. apply Forall_app. tauto. Qed.

(* A site is permitted where [use_variable] has passed it: [a] is [true] at an assignment
   ([check_assignment], up to conversion) and [false] at a Deref ([is_addressed]). *)
Lemma passed_site_ok v a r :
  use_variable v (r_base r) ((a || N.ltb 0 (r_ad r)) && needs_outer_mutability (r_steps r)) = UvOk ->
  site_ok (v, a, r) = true.
Proof.
  intros Hu. pose proof (use_variable_spec v r (a || N.ltb 0 (r_ad r))) as E. rewrite Hu in E.
  unfold site_ok. destruct (r_base r) as [x|]; [|reflexivity].
  now destruct (lookup v x), (a || N.ltb 0 (r_ad r)), (writable v r).
Qed.

(* The local fixes over a list of expressions or of steps are [flat_map]s up to conversion. *)
Lemma flat_sound {A} v (c : A -> list code) (f : A -> list reference) l :
  Forall (fun x => c x = [] -> sites_ok (tag v (f x))) l ->
  flat_map c l = [] -> sites_ok (tag v (flat_map f l)).
Proof.
  induction 1 as [|x l Hx _ IH]; [now constructor|].
  cbn [flat_map]. rewrite tag_app. exact (sites_ok_seq _ _ _ _ Hx IH).
Qed.

Lemma mut_expr_sound v : forall e, mut_expr v e = [] -> sites_ok (expr_sites v e).
Proof.
  set (P := fun e => mut_expr v e = [] -> sites_ok (tag v (deref_sites e))).
  assert (S : forall ss, Forall (step_arg P) ss ->
    flat_map (mut_step v) ss = [] -> sites_ok (tag v (flat_map step_sites ss))).
  { intros ss H. apply flat_sound. eapply Forall_impl; [|exact H].
    intros [a| | | | | | ] Ha; [exact Ha|now constructor..]. }
  (* [exact He]: the forms with one operand, whose codes and sites are the operand's up to
     conversion; likewise the forms over a list of expressions and [flat_sound] *)
  apply (expr_ind2 P); subst P; cbn beta in *;
    try (intros; now constructor); try (intros e He; exact He);
    try exact (flat_sound v (mut_expr v) deref_sites).
  - (* EBinary *) intros l r Hl Hr. cbn [deref_sites]. rewrite tag_app.
    exact (sites_ok_seq _ _ _ _ Hl Hr).
  - (* EDeref *) intros b ss ad t Hss Hc. cbn [mut_expr mut_ref] in Hc.
    destruct (use_variable v b _) eqn:Hu; try discriminate.
    constructor; [exact (passed_site_ok v false _ Hu)|exact (S ss Hss Hc)].
  - (* ELengthOf *) intros b ss ad Hss Hc. cbn [mut_expr mut_ref] in Hc.
    destruct (use_variable v b false); try discriminate. exact (S ss Hss Hc).
  - (* ECall *) intros f. exact (flat_sound v (mut_expr v) deref_sites).
Qed.

Lemma mut_exprs_sound v es : mut_exprs v es = [] -> sites_ok (tag v (deref_sites_list es)).
Proof. rewrite <- (mut_expr_call v 0%N). apply (mut_expr_sound v (ECall 0%N es)). Qed.

Lemma mut_steps_sound v ss : mut_steps v ss = [] -> sites_ok (tag v (steps_sites ss)).
Proof.
  intros H. apply (mut_expr_sound v (ELengthOf (Ref None ss 0%N))). cbn [mut_expr].
  now rewrite mut_ref_unfold.
Qed.

(* Shape of the analyzer state at a site of a body: the `var`s declared so far (among
   [D]), in front of the state [v] at entry. *)
Definition shape (v D : menv) (st : site) : Prop :=
  exists l, site_env st = l ++ v /\ incl l D.

Lemma shape_here v D a r : shape v D (v, a, r).
Proof. exists []. split; [reflexivity|intros x []]. Qed.

Lemma shape_tag v D l : Forall (shape v D) (tag v l).
Proof.
  apply Forall_forall. intros st Hin. apply in_map_iff in Hin.
  destruct Hin as [r [<- _]]. apply shape_here.
Qed.

Lemma shape_seq v D1 D2 s1 s2 :
  Forall (shape v D1) s1 -> Forall (shape (D1 ++ v) D2) s2 ->
  Forall (shape v (D2 ++ D1)) (s1 ++ s2).
Proof.
  intros H1 H2. apply Forall_app.
  split; [eapply Forall_impl; [|exact H1]|eapply Forall_impl; [|exact H2]];
    intros st [l [He Hl]].
  - exists l. split; [exact He|now apply incl_appr].
  - exists (l ++ D1). split; [now rewrite He, app_assoc|].
    apply incl_app; [now apply incl_appl|apply incl_appr, incl_refl].
Qed.

(* What a walk over statements keeps: the collector of sites and the analyzer leave the same
   state, [D] (the variables declared on the way) in front of the state [v] at entry; every
   site sees [v] behind some of [D]; and where no code is reported every site is permitted. *)
Definition stmt_walk_ok (v D : menv) (r1 : menv * list site) (r2 : menv * list code) : Prop :=
  fst r1 = D ++ v /\ fst r2 = D ++ v /\
  Forall (shape v D) (snd r1) /\ (snd r2 = [] -> sites_ok (snd r1)).

(* the sites and codes of expressions read under the state at entry, in front of a walk *)
Lemma stmt_walk_pre v D s0 c0 r1 r2 :
  (forall D', Forall (shape v D') s0) -> (c0 = [] -> sites_ok s0) ->
  stmt_walk_ok v D r1 r2 -> stmt_walk_ok v D (fst r1, s0 ++ snd r1) (fst r2, c0 ++ snd r2).
Proof.
  intros Hs Hc (E1 & E2 & S & K). repeat split; cbn [fst snd]; try assumption.
  - apply Forall_app. split; [apply Hs|exact S].
  - now apply sites_ok_seq.
Qed.

Lemma stmt_walk_seq v D1 D2 a1 a2 (b1 : menv -> menv * list site) (b2 : menv -> menv * list code) :
  stmt_walk_ok v D1 a1 a2 -> (forall v', stmt_walk_ok v' D2 (b1 v') (b2 v')) ->
  stmt_walk_ok v (D2 ++ D1) (fst (b1 (fst a1)), snd a1 ++ snd (b1 (fst a1)))
                            (fst (b2 (fst a2)), snd a2 ++ snd (b2 (fst a2))).
Proof.
  intros (-> & -> & S1 & K1) Hb. destruct (Hb (D1 ++ v)) as (E1 & E2 & S2 & K2).
  repeat split; cbn [fst snd].
  - rewrite E1. apply app_assoc.
  - rewrite E2. apply app_assoc.
  - now apply shape_seq.
  - now apply sites_ok_seq.
Qed.

Lemma stmt_walk_tag v l c :
  (c = [] -> sites_ok (tag v l)) -> stmt_walk_ok v [] (v, tag v l) (v, c).
Proof. intros H. repeat split; [apply shape_tag|exact H]. Qed.

Lemma stmt_walk :
  (forall s v, stmt_walk_ok v (declared_vars s) (stmt_sites v s) (mut_stmt v s)) /\
  (forall l v, stmt_walk_ok v (declared_vars_list l) (stmts_sites v l) (mut_stmts v l)).
Proof.
  apply stmts_ind.
  - (* SDeclaration *) intros x value t v. cbn [stmt_sites mut_stmt declared_vars].
    repeat split; cbn [fst snd].
    + destruct value; [apply shape_tag|constructor].
    + destruct value; [apply mut_expr_sound|now constructor].
  - (* SAssignment *) intros r value v. cbn [stmt_sites mut_stmt declared_vars].
    repeat split; cbn [fst snd].
    + constructor; [apply shape_here|]. apply Forall_app. split; apply shape_tag.
    + pose proof (passed_site_ok v true r) as Hr.
      destruct (use_variable v (r_base r) _); try discriminate. intros Hc.
      constructor; [now apply Hr|]. revert Hc.
      apply sites_ok_seq; [apply mut_expr_sound|].
      destruct r as [b ss ad]. apply mut_steps_sound.
  - (* SMethodCall *) intros f args v. apply stmt_walk_tag. apply mut_exprs_sound.
  - (* SIf *) intros cl cr th el IHt IHe v. cbn [stmt_sites mut_stmt declared_vars].
    rewrite !let_pair. specialize (IHt v).
    assert (S0 : forall D, Forall (shape v D) (expr_sites v cl ++ expr_sites v cr))
      by (intros D; apply Forall_app; split; apply shape_tag).
    assert (K0 : mut_expr v cl ++ mut_expr v cr = [] ->
                 sites_ok (expr_sites v cl ++ expr_sites v cr))
      by (apply sites_ok_seq; apply mut_expr_sound).
    destruct el as [e|].
    + rewrite !let_pair. apply (stmt_walk_pre v _ _ _ (_, _) (_, _) S0 K0).
      exact (stmt_walk_seq v _ _ _ _ _ _ IHt IHe).
    + rewrite app_nil_l. exact (stmt_walk_pre v _ _ _ _ _ S0 K0 IHt).
  - (* SBlock *) intros b IH. exact IH.
  - (* SOther *) intros v. exact (stmt_walk_tag v [] [] (fun _ => Forall_nil _)).
  - (* [] *) intros v. exact (stmt_walk_tag v [] [] (fun _ => Forall_nil _)).
  - (* s :: l *) intros s l IHs IHl v. cbn [stmts_sites mut_stmts declared_vars_list].
    rewrite !let_pair. exact (stmt_walk_seq v _ _ _ _ _ _ (IHs v) IHl).
Qed.

Lemma mut_stmt_env s v : fst (mut_stmt v s) = declared_vars s ++ v.
Proof. apply (proj1 stmt_walk s v). Qed.

Lemma mut_stmts_env l v : fst (mut_stmts v l) = declared_vars_list l ++ v.
Proof. apply (proj2 stmt_walk l v). Qed.

Lemma body_walk v b :
  Forall (shape v (declared_vars_list (fb_statements b))) (body_sites v b) /\
  (snd (mut_body v b) = [] -> sites_ok (body_sites v b)).
Proof.
  unfold body_sites, mut_body. rewrite !let_pair. cbn [snd].
  destruct (proj2 stmt_walk (fb_statements b) v) as (E1 & E2 & S & K). rewrite E1, E2.
  split.
  - apply (shape_seq v _ []); [exact S|]. destruct (fb_return b); [apply shape_tag|constructor].
  - apply sites_ok_seq; [exact K|]. destruct (fb_return b); [apply mut_expr_sound|now constructor].
Qed.

Theorem function_sound v ps b v' :
  mut_decl v (DFunction ps (Some b)) = (v', []) ->
  Forall (fun st => site_ok st = true) (body_sites (declare_params v ps) b).
Proof. cbn [mut_decl]. intros H. apply body_walk. now rewrite H. Qed.

Lemma lookup_app l v x :
  lookup (l ++ v) x = match lookup l x with Some m => Some m | None => lookup v x end.
Proof.
  induction l as [|[y m] l IH]; [reflexivity|].
  cbn [app lookup]. destruct (N.eqb x y); [reflexivity|exact IH].
Qed.

Lemma lookup_In l x m : lookup l x = Some m -> In (x, m) l.
Proof.
  induction l as [|[y m'] l IH]; [discriminate|].
  cbn [lookup]. destruct (N.eqb x y) eqn:E.
  - intros H. injection H as <-. apply N.eqb_eq in E. subst. now left.
  - intros H. right. now apply IH.
Qed.

(* Corollary: in an accepted function with well-typed parameters, every write (and
   every address handed out) goes through a pointer value, or targets a `var` of
   mutable type declared in that same body, or -- third case, excluded by the
   scoper -- a name that is not a parameter of this function and was already
   "mutable" before it (error-faked constant/parameter, struct member id, `var` of
   an earlier function: the map is never cleared). *)
Theorem callee_can_only_write_through_pointers v ps b v' :
  Forall (fun p => p_type p <> None) ps ->
  mut_decl v (DFunction ps (Some b)) = (v', []) ->
  Forall (fun st =>
            let '(vs, is_assignment, r) := st in
            forall x, r_base r = Some x ->
              (is_assignment || N.ltb 0 (r_ad r)) = true ->
              crosses_pointer (r_steps r) = true
              \/ In (x, true) (declared_vars_list (fb_statements b))
              \/ (~ In (Some x) (map p_name ps) /\ lookup v x = Some true))
         (body_sites (declare_params v ps) b).
Proof.
  intros Hps Hd.
  pose proof (function_sound v ps b v' Hd) as Hok.
  pose proof (proj1 (body_walk (declare_params v ps) b)) as Hsh.
  rewrite Forall_forall in Hok, Hsh. apply Forall_forall. intros [[vs ia] r] Hin x Hb Hk.
  specialize (Hok _ Hin). specialize (Hsh _ Hin).
  unfold site_ok in Hok. rewrite Hb, Hk in Hok.
  destruct Hsh as [l [He Hl]]. unfold site_env in He. cbn [fst] in He. subst vs.
  unfold writable in Hok. rewrite Hb in Hok. rewrite lookup_app in Hok.
  destruct (crosses_pointer (r_steps r)); [now left|right].
  destruct (lookup l x) as [m|] eqn:Hlx.
  - rewrite orb_false_r in Hok. subst m. left. apply Hl. now apply lookup_In.
  - right.
    destruct (in_dec opt_name_dec (Some x) (map p_name ps)) as [Hp|Hp].
    + rewrite (params_are_immutable ps v x Hps Hp) in Hok. discriminate.
    + split; [assumption|]. rewrite declare_params_lookup_other in Hok by assumption.
      destruct (lookup v x) as [m|]; [|discriminate].
      rewrite orb_false_r in Hok. now subst m.
Qed.

(* A `var` is in [declared_vars] as mutable only if its type is not a slice or a view
   (nor a slice pointer, which [is_view_type] does not cover). *)
Lemma mutable_var_not_view t : var_is_mutable (POk t) = true -> is_view_type t = false.
Proof. destruct t; cbn; intros H; try reflexivity; discriminate. Qed.

(* The analyzer stops at the FIRST pointer crossing and never looks at view steps.
   On raw chains that is weaker than "the last indirection crossed is a pointer": *)
Theorem strict_refuted_untyped :
  (* a view crossed after a pointer *)
  (exists v r, check_assignment v r = [] /\ writable_strict v r = false
               /\ lookup v 1%N = Some false /\ r_base r = Some 1%N) /\
  (* a mutable binding of view type *)
  (exists v r, check_assignment v r = [] /\ writable_strict v r = false
               /\ lookup v 1%N = Some true /\ r_base r = Some 1%N).
Proof.
  split.
  - exists [(1%N, false)], (Ref (Some 1%N) [Autoderef; Autoview; Member 2%N] 0%N).
    repeat split; reflexivity.
  - exists [(1%N, true)], (Ref (Some 1%N) [Autoview; Member 2%N] 0%N).
    repeat split; reflexivity.
Qed.

(* Both shapes are excluded by the well-formedness of types (views, slices and
   slice pointers only at the top of a declared type, never below a pointer, in an
   array or in a structure) together with the rule that a `var` of view type is
   not mutable ([strict_agrees]). *)
Lemma inner_is_wellformed t : is_wellformed_inner t = true -> is_wellformed t = true.
Proof. destruct t; cbn [is_wellformed_inner is_wellformed]; auto; discriminate. Qed.

Lemma inner_not_toplevel t :
  is_wellformed_inner t = true ->
  is_view_type t = false /\ (forall e, t <> MSlicePointer e).
Proof.
  destruct t; cbn [is_wellformed_inner is_view_type]; intros H; try discriminate;
    (split; [reflexivity|intros e' He; discriminate]).
Qed.

Lemma member_type_ok mt m t :
  mtab_ok mt = true -> member_type mt m = Some t -> is_wellformed_inner t = true.
Proof.
  unfold mtab_ok. induction mt as [|[y ty] rest IH]; [discriminate|].
  cbn [forallb member_type snd]. intros Hok Hm. apply andb_true_iff in Hok.
  destruct Hok as [H1 H2]. destruct (N.eqb m y); [|now apply IH].
  injection Hm as <-.
  destruct ty; cbn [can_be_struct_member is_void negb andb is_wellformed is_wellformed_inner] in *;
    try discriminate; try assumption; try reflexivity.
  now rewrite andb_true_r in H1.
Qed.

Lemma step_gives_inner mt t s t' :
  mtab_ok mt = true -> is_wellformed t = true -> step_type mt t s = Some t' ->
  is_wellformed_inner t' = true.
Proof.
  intros Hmt Hwf Hs.
  destruct s; cbn [step_type] in Hs; destruct t; try discriminate Hs;
    try (injection Hs as <-); try exact Hwf; try reflexivity. (* indirections, the length *)
  1-4: exact (proj2 (andb_prop _ _ Hwf)).                     (* Element *)
  all: exact (member_type_ok mt m t' Hmt Hs).                 (* Member *)
Qed.

Lemma view_step_type mt t s t' :
  is_view_step s = true -> step_type mt t s = Some t' -> is_view_type t = true.
Proof.
  destruct s; cbn [is_view_step]; try discriminate; intros _;
    destruct t; cbn [step_type is_view_type]; intros H; try discriminate; reflexivity.
Qed.

Lemma inner_chain_no_view mt : forall ss t t',
  mtab_ok mt = true -> is_wellformed_inner t = true -> chain_type mt t ss = Some t' ->
  existsb is_view_step ss = false.
Proof.
  induction ss as [|s rest IH]; intros t t' Hmt Hin Ht; [reflexivity|].
  cbn [chain_type] in Ht. destruct (step_type mt t s) as [t1|] eqn:Hs; [|discriminate].
  cbn [existsb]. destruct (is_view_step s) eqn:Hv.
  - pose proof (view_step_type mt t s t1 Hv Hs) as Hvt.
    destruct (inner_not_toplevel t Hin) as [Hnv _]. congruence.
  - cbn [orb]. apply (IH t1 t' Hmt); [|assumption].
    eapply step_gives_inner; try eassumption. now apply inner_is_wellformed.
Qed.

Lemma final_access_no_view : forall ss a,
  existsb is_view_step ss = false ->
  final_access a ss = if crosses_pointer ss then ViaPointer else a.
Proof.
  unfold crosses_pointer.
  induction ss as [|s rest IH]; intros a Hv; [reflexivity|].
  cbn [existsb] in *. apply orb_false_iff in Hv. destruct Hv as [Hs Hrest].
  cbn [final_access]. rewrite Hs. rewrite (IH _ Hrest).
  destruct (is_pointer_step s); cbn [orb]; [|reflexivity].
  destruct (existsb is_pointer_step rest); reflexivity.
Qed.

Theorem strict_agrees v mt x t t' ss ad :
  mtab_ok mt = true ->
  is_wellformed t = true ->                              (* declared type of x *)
  chain_type mt t ss = Some t' ->
  (lookup v x = Some true -> is_view_type t = false) ->  (* see mutable_var_not_view *)
  writable v (Ref (Some x) ss ad) = writable_strict v (Ref (Some x) ss ad).
Proof.
  intros Hmt Hwf Ht Hmv. unfold writable, writable_strict. cbn [r_base r_steps].
  destruct (lookup v x) as [m|] eqn:Hl; [|reflexivity].
  destruct ss as [|s rest]; [cbn; now rewrite orb_false_r|].
  cbn [chain_type] in Ht. destruct (step_type mt t s) as [t1|] eqn:Hs; [|discriminate].
  pose proof (step_gives_inner mt t s t1 Hmt Hwf Hs) as Hin.
  pose proof (inner_chain_no_view mt rest t1 t' Hmt Hin Ht) as Hnv.
  cbn [final_access]. rewrite (final_access_no_view rest _ Hnv).
  unfold crosses_pointer. cbn [existsb]. fold (crosses_pointer rest).
  destruct (is_pointer_step s) eqn:Hp.
  - cbn [orb]. rewrite orb_true_r. now destruct (crosses_pointer rest).
  - cbn [orb]. destruct (is_view_step s) eqn:Hvs.
    + pose proof (view_step_type mt t s t1 Hvs Hs) as Hvt.
      destruct m; [specialize (Hmv eq_refl); congruence|].
      cbn [orb]. now destruct (crosses_pointer rest).
    + destruct (crosses_pointer rest); [now rewrite orb_true_r|now rewrite orb_false_r].
Qed.

Corollary assignment_iff_strict v mt x t t' ss ad :
  mtab_ok mt = true -> is_wellformed t = true -> chain_type mt t ss = Some t' ->
  (lookup v x = Some true -> is_view_type t = false) ->
  check_assignment v (Ref (Some x) ss ad) = [] <->
  writable_strict v (Ref (Some x) ss ad) = true.
Proof.
  intros Hmt Hwf Ht Hmv. rewrite <- (strict_agrees v mt x t t' ss ad Hmt Hwf Ht Hmv).
  apply (assignment_iff v (Ref (Some x) ss ad) x eq_refl).
Qed.

(* mutability.rs has three `false` arms (Slice, SlicePointer, View); function_calls.rs runs
   first and turns SlicePointer and View declarations into Err(E352), which
   mutability.rs then treats as MUTABLE (error faking).  Only the Slice arm is live. *)
Theorem var_mutability_in_pipeline t :
  var_is_mutable_in_pipeline (POk t) = false <->
  exists e, t = MSlice e /\ can_be_variable (MSlice e) = true.
Proof.
  unfold var_is_mutable_in_pipeline, fc_decl_type. split.
  - destruct (can_be_variable t) eqn:Hc; cbn [fst var_is_mutable]; [|discriminate].
    destruct t; try discriminate. intros _. eexists. split; [reflexivity|assumption].
  - intros [e [He Hc]]. subst t. rewrite Hc. reflexivity.
Qed.

Theorem dead_arms_fake_mutability e :
  var_is_mutable (POk (MSlicePointer e)) = false /\
  var_is_mutable_in_pipeline (POk (MSlicePointer e)) = true /\
  var_is_mutable (POk (MView e)) = false /\
  var_is_mutable_in_pipeline (POk (MView e)) = true /\
  snd (fc_decl_type (POk (MSlicePointer e))) = [E352] /\
  snd (fc_decl_type (POk (MView e))) = [E352].
Proof. repeat split; reflexivity. Qed.

Theorem slice_var_cannot_be_rebound v x e ad :
  lookup (fst (mut_stmt v (SDeclaration x None (POk (MSlice e))))) x = Some false /\
  check_assignment (fst (mut_stmt v (SDeclaration x None (POk (MSlice e)))))
                   (Ref (Some x) [] ad) = [E530].
Proof.
  assert (Hl : lookup (fst (mut_stmt v (SDeclaration x None (POk (MSlice e))))) x = Some false).
  { cbn [mut_stmt fst var_is_mutable]. unfold declare_variable. cbn [lookup]. now rewrite N.eqb_refl. }
  split; [exact Hl|exact (view_is_readonly _ x [] ad Hl eq_refl)].
Qed.

Lemma mty_eqb_refl t : mty_eqb t t = true.
Proof.
  induction t; cbn [mty_eqb]; rewrite ?N.eqb_refl; cbn [andb]; auto.
Qed.

Lemma ty_equals_refl t : ty_equals t t = true.
Proof.
  induction t; cbn [ty_equals]; rewrite ?N.eqb_refl; cbn [andb orb]; auto.
Qed.

Lemma mty_eqb_pointer_neq t : mty_eqb (MPointer t) t = false.
Proof.
  induction t; try reflexivity. cbn [mty_eqb] in *. exact IHt.
Qed.

Theorem missing_address_E513 x t :
  argument_code {| p_name := Some x; p_type := Some (MPointer t) |} true (POk t) = Some E513.
Proof.
  unfold argument_code. cbn [p_type p_name]. rewrite mty_eqb_pointer_neq.
  unfold can_hint_missing_address. now rewrite mty_eqb_refl.
Qed.

Theorem missing_address_array_E513 x e n :
  argument_code {| p_name := Some x; p_type := Some (MSlicePointer e) |} true
                (POk (MArray e n)) = Some E513.
Proof.
  unfold argument_code. cbn [p_type p_name mty_eqb].
  unfold can_hint_missing_address, can_coerce_address_into. now rewrite ty_equals_refl.
Qed.

Theorem explicit_address_accepted p t d :
  p_type p = Some t -> argument_code p d (POk t) = None.
Proof. intros H. unfold argument_code. now rewrite H, mty_eqb_refl. Qed.

(* The hint is only for bare references; any other expression gets the plain E512. *)
Theorem mismatch_without_hint x pt a :
  mty_eqb pt a = false ->
  argument_code {| p_name := Some x; p_type := Some pt |} false (POk a) = Some E512.
Proof. intros H. unfold argument_code. cbn [p_type p_name]. now rewrite H. Qed.

Lemma zip_accepts_equal : forall ps args,
  zip_argument_codes ps args = None ->
  forall i p d a pt, nth_error ps i = Some p -> nth_error args i = Some (d, POk a) ->
    p_type p = Some pt -> p_name p <> None -> mty_eqb pt a = true.
Proof.
  induction ps as [|p0 ps IH]; intros args Hz i p d a pt Hp Ha Hpt Hn.
  - destruct i; discriminate.
  - destruct args as [|[d0 a0] args]; [destruct i; discriminate|].
    cbn [zip_argument_codes] in Hz.
    destruct (argument_code p0 d0 a0) as [c|] eqn:Hc; [discriminate|].
    destruct i as [|i].
    + cbn [nth_error] in Hp, Ha. injection Hp as ->. injection Ha as -> ->.
      unfold argument_code in Hc. rewrite Hpt in Hc.
      destruct (mty_eqb pt a); [reflexivity|].
      destruct (p_name p); [|congruence].
      destruct (can_hint_missing_address d a pt); discriminate.
    + cbn [nth_error] in Hp, Ha. eapply IH; eassumption.
Qed.

(* An accepted call passes, for every named and typed parameter, an argument of exactly
   the parameter's type; in particular never a `T` for a `&T`. *)
Theorem accepted_call_types_match ps args :
  use_function ps args = None ->
  length ps = length args /\
  forall i p d a pt, nth_error ps i = Some p -> nth_error args i = Some (d, POk a) ->
    p_type p = Some pt -> p_name p <> None -> mty_eqb pt a = true.
Proof.
  unfold use_function. intros H.
  destruct (Nat.ltb (length args) (length ps)) eqn:H1; [discriminate|].
  destruct (Nat.ltb (length ps) (length args)) eqn:H2; [discriminate|].
  apply Nat.ltb_ge in H1. apply Nat.ltb_ge in H2. split; [now apply Nat.le_antisymm|].
  now apply zip_accepts_equal.
Qed.

Corollary pointer_parameter_needs_address ps args i p d t :
  use_function ps args = None ->
  nth_error ps i = Some p -> p_type p = Some (MPointer t) -> p_name p <> None ->
  nth_error args i <> Some (d, POk t).
Proof.
  intros Hu Hp Hpt Hn Ha.
  destruct (accepted_call_types_match ps args Hu) as [_ H].
  specialize (H i p d t (MPointer t) Hp Ha Hpt Hn).
  rewrite mty_eqb_pointer_neq in H. discriminate.
Qed.

Lemma strip_typed mt : forall fuel t pre ct,
  strip_indirections fuel t = (pre, ct) -> chain_type mt t pre = Some ct.
Proof.
  induction fuel as [|f IH]; intros t pre ct H; cbn [strip_indirections] in H.
  - injection H as <- <-. reflexivity.
  - destruct t; try (injection H as <- <-; reflexivity);
      destruct (strip_indirections f t) as [ss t'] eqn:E; injection H as <- <-;
      cbn [chain_type step_type]; now apply IH.
Qed.

Lemma deslice_element_typed mt ct e a :
  get_element_type ct = Some e ->
  chain_type mt ct (match ct with
                    | MSlice _ => [AutodesliceByView]
                    | MSlicePointer _ => [AutodesliceByPointer]
                    | _ => []
                    end ++ [Element a]) = Some e.
Proof.
  destruct ct; cbn [get_element_type]; intros H; try discriminate;
    injection H as <-; reflexivity.
Qed.

Lemma assignment_steps_fuel_typed fuel mt : forall prev t ss ct,
  source_chain_ok_fuel fuel mt t prev = true ->
  assignment_steps_fuel fuel mt t prev = Some (ss, ct) ->
  chain_type mt t ss = Some ct.
Proof.
  induction prev as [|s rest IH]; intros t ss ct Hok Ha.
  - cbn [assignment_steps_fuel] in Ha. injection Ha as <- <-. reflexivity.
  - destruct s; cbn [source_chain_ok_fuel] in Hok; try discriminate Hok.
    + (* Element *)
      cbn [assignment_steps_fuel] in Ha.
      destruct (strip_indirections fuel t) as [pre c0] eqn:Hs.
      cbn [snd] in Hok.
      destruct (get_element_type c0) as [e|] eqn:He; [|discriminate Hok].
      destruct (assignment_steps_fuel fuel mt e rest) as [[ss' t']|] eqn:Hr; [|discriminate Ha].
      injection Ha as <- <-.
      rewrite chain_type_app, (strip_typed mt _ _ _ _ Hs).
      change (Element arg :: ss') with ([Element arg] ++ ss').
      rewrite app_assoc, chain_type_app, (deslice_element_typed mt c0 e arg He).
      now apply IH.
    + (* Member *)
      cbn [assignment_steps_fuel] in Ha.
      destruct (strip_indirections fuel t) as [pre c0] eqn:Hs.
      cbn [snd] in Hok.
      destruct c0; try discriminate Hok;
        (destruct (member_type mt m) as [tm|] eqn:Hm; [|discriminate Hok]);
        (destruct (assignment_steps_fuel fuel mt tm rest) as [[ss' t']|] eqn:Hr; [|discriminate Ha]);
        injection Ha as <- <-; rewrite chain_type_app, (strip_typed mt _ _ _ _ Hs);
        cbn [chain_type step_type]; rewrite Hm; now apply IH.
Qed.

Theorem assignment_steps_typed mt prev t ss ct :
  source_chain_ok mt t prev = true ->
  assignment_steps mt t prev = Some (ss, ct) ->
  chain_type mt t ss = Some ct.
Proof. apply assignment_steps_fuel_typed. Qed.

Lemma repeat_autoderef_typed mt : forall k t,
  is_wellformed_inner t = true -> k <= pointer_depth t ->
  exists t', chain_type mt t (repeat Autoderef k) = Some t'.
Proof.
  induction k as [|k IH]; intros t Hw Hk; [exists t; reflexivity|].
  destruct t; cbn [pointer_depth] in Hk; try (inversion Hk; fail); [discriminate Hw|].
  cbn [repeat chain_type step_type]. apply IH; [exact Hw|now apply le_S_n].
Qed.

Lemma chain_preserves_wf mt : forall ss t t',
  mtab_ok mt = true -> is_wellformed t = true -> chain_type mt t ss = Some t' ->
  is_wellformed t' = true.
Proof.
  induction ss as [|s rest IH]; intros t t' Hmt Hwf Ht.
  - cbn [chain_type] in Ht. injection Ht as <-. exact Hwf.
  - cbn [chain_type] in Ht. destruct (step_type mt t s) as [t1|] eqn:Hs; [|discriminate].
    apply (IH t1 t' Hmt); [|assumption].
    apply inner_is_wellformed. eapply step_gives_inner; eassumption.
Qed.

Theorem elaborated_assignment_typed mt t prev ad ss ct ex :
  mtab_ok mt = true -> is_wellformed t = true ->
  source_chain_ok mt t prev = true ->
  elaborate_assignment mt t prev ad = Some (ss, ct, ex) ->
  ((forall e, ct <> MSlicePointer e) \/ 1 <= ad) ->
  exists t', chain_type mt t ss = Some t'.
Proof.
  intros Hmt Hwf Hok He Hsp. unfold elaborate_assignment in He.
  destruct (assignment_steps mt t prev) as [[ss0 c0]|] eqn:Ha; [|discriminate].
  pose proof (assignment_steps_typed mt prev t ss0 c0 Hok Ha) as Ht.
  pose proof (chain_preserves_wf mt ss0 t c0 Hmt Hwf Ht) as Hwf0.
  destruct (Nat.leb ad (pointer_depth c0)) eqn:Hle.
  - injection He as <- <- <-. rewrite chain_type_app, Ht.
    destruct c0; cbn [pointer_depth]; try (eexists; reflexivity).
    + destruct Hsp as [Hsp|Hsp]; [now elim (Hsp c0)|].
      replace (1 - ad) with 0 by lia. eexists; reflexivity.
    + apply repeat_autoderef_typed; [exact Hwf0|apply Nat.le_sub_l].
  - injection He as <- <- <-. now exists c0.
Qed.

(* The side condition is needed: for `s = ...` with s of type &[]T the typer appends an
   Autoderef (pointer_depth counts the slice pointer) that no pointer value backs, and
   mutability.rs then waves the assignment to the PARAMETER ITSELF through.  In the real
   pipeline the statement is still rejected, by E504 or by a typer panic
   ("This currently has no solution", typer.rs), never by E530. *)
Theorem elaborated_slice_pointer_refuted :
  exists t ss ct,
    elaborate_assignment [] t [] 0 = Some (ss, ct, 0) /\
    is_wellformed t = true /\ can_be_parameter t = true /\
    chain_type [] t ss = None /\
    check_assignment [(1%N, false)] (Ref (Some 1%N) ss 0%N) = [].
Proof.
  exists (MSlicePointer (MPrim prim_i32)), [Autoderef], (MSlicePointer (MPrim prim_i32)).
  repeat split; reflexivity.
Qed.

(* End to end, for the two programs of docs/errors.md E530. *)
Example doc_E530_rejected :
  elaborate_assignment [] (MPrim prim_i32) [] 0 = Some ([], MPrim prim_i32, 0) /\
  check_assignment (declare_params [] [{| p_name := Some 1%N; p_type := Some (MPrim prim_i32) |}])
                   (Ref (Some 1%N) [] 0%N) = [E530].
Proof. split; reflexivity. Qed.

Example doc_E530_accepted :
  elaborate_assignment [] (MPointer (MPrim prim_i32)) [] 0
    = Some ([Autoderef], MPointer (MPrim prim_i32), 0) /\
  check_assignment
    (declare_params [] [{| p_name := Some 1%N; p_type := Some (MPointer (MPrim prim_i32)) |}])
    (Ref (Some 1%N) [Autoderef] 0%N) = [].
Proof. split; reflexivity. Qed.

(* Examples; each is checked against the real compiler through the harness. *)
Definition i32 := MPrim prim_i32.
Definition pX : name := 1%N.   (* a parameter *)
Definition vY : name := 2%N.   (* a local `var` *)
Definition cC : name := 3%N.   (* a constant *)
Definition env0 : menv := [(vY, true); (pX, false); (cC, false)].
Definition rd (x : name) (t : mty) : expr := EDeref (Ref (Some x) [] 0%N) (POk t).

(* E530, assignments.  fn f(s: []i32) { s[0] = 7; }  /  fn f(s: &[]i32) { s[0] = 7; } *)
Example ex_slice_view_write :
  check_assignment env0 (Ref (Some pX) [AutodesliceByView; Element ELeaf] 0%N) = [E530].
Proof. reflexivity. Qed.
Example ex_slice_pointer_write :
  check_assignment env0 (Ref (Some pX) [AutodesliceByPointer; Element ELeaf] 0%N) = [].
Proof. reflexivity. Qed.
(* fn f(s: S) { s.a = 1; }  /  fn f(s: &S) { s.a = 1; } *)
Example ex_struct_view_write :
  check_assignment env0 (Ref (Some pX) [Autoview; Member 7%N] 0%N) = [E530].
Proof. reflexivity. Qed.
Example ex_struct_pointer_write :
  check_assignment env0 (Ref (Some pX) [Autoderef; Member 7%N] 0%N) = [].
Proof. reflexivity. Qed.
(* struct T { p: &S }  fn f(t: T) { t.p.a = 1; }   a pointer stored in a viewed struct *)
Example ex_pointer_inside_view :
  check_assignment env0 (Ref (Some pX) [Autoview; Member 8%N; Autoderef; Member 7%N] 0%N) = []
  /\ chain_type [(8%N, MPointer (MStruct 20%N)); (7%N, i32)] (MView (MStruct 21%N))
       [Autoview; Member 8%N; Autoderef; Member 7%N] = Some i32.
Proof. split; reflexivity. Qed.
(* fn f(t: []&i32, q: &i32) { t[0] = 1; }  accepted;  { &t[0] = &q; }  rejected *)
Example ex_pointer_element_of_view :
  check_assignment env0 (Ref (Some pX) [AutodesliceByView; Element ELeaf; Autoderef] 0%N) = []
  /\ check_assignment env0 (Ref (Some pX) [AutodesliceByView; Element ELeaf] 0%N) = [E530].
Proof. split; reflexivity. Qed.
(* const C: i32 = 5; fn f() { C = 7; }   /   var y: i32 = 0; y = 1; *)
Example ex_constant_write : check_assignment env0 (Ref (Some cC) [] 0%N) = [E530].
Proof. reflexivity. Qed.
Example ex_var_write : check_assignment env0 (Ref (Some vY) [Element ELeaf; Member 7%N] 0%N) = [].
Proof. reflexivity. Qed.
(* Autodeslice{Length} needs the outer binding to be mutable; `|x| = 3` does not parse
   (E300), so the arm is only reached by reads. *)
Example ex_length_step :
  check_assignment env0 (Ref (Some pX) [AutodesliceLength] 0%N) = [E530] /\
  check_assignment env0 (Ref (Some vY) [AutodesliceLength] 0%N) = [].
Proof. split; reflexivity. Qed.

(* E530, addresses.  fn f(x: i32) { bar(&x); }  /  var y: i32 = 1; bar(&y); *)
Example ex_address_of_parameter : check_address_taken env0 (Ref (Some pX) [] 1%N) = [E530].
Proof. reflexivity. Qed.
Example ex_address_of_var : check_address_taken env0 (Ref (Some vY) [] 1%N) = [].
Proof. reflexivity. Qed.
(* fn f(s: S) { bar(&s.a); }  /  fn f(s: &S) { bar(&s.a); } *)
Example ex_address_in_view :
  check_address_taken env0 (Ref (Some pX) [Autoview; Member 7%N] 1%N) = [E530] /\
  check_address_taken env0 (Ref (Some pX) [Autoderef; Member 7%N] 1%N) = [].
Proof. split; reflexivity. Qed.

(* Error shadowing inside the pass: the failing node replaces everything below it. *)
Example ex_shadowing :
  snd (mut_stmt env0
         (SAssignment (Ref (Some pX) [Element (EDeref (Ref (Some cC) [] 1%N) PNone)] 0%N)
                      (EDeref (Ref (Some pX) [] 1%N) PNone))) = [E530].
Proof. reflexivity. Qed.
Example ex_silent_poison :
  snd (mut_stmt env0 (SAssignment (Ref (Some 99%N) [] 0%N) (rd pX i32))) = [E_SILENT].
Proof. reflexivity. Qed.

(* E531-E533.  const DATA: [2]i32 = ...; fn main() { var data = DATA; } *)
Definition arr := MArray i32 2%N.
Example ex_copy_array :
  fc_body {| fb_statements := [SDeclaration vY (Some (rd cC arr)) (POk arr)];
             fb_return := None |} = [E531].
Proof. reflexivity. Qed.
(* fn main(data: []i32) { var copy = data; }   E532, and the illegal `var` type is legal
   for a slice; struct: E533 *)
Example ex_copy_slice_struct :
  fc_body {| fb_statements := [SDeclaration vY (Some (rd pX (MSlice i32))) (POk (MSlice i32))];
             fb_return := None |} = [E532] /\
  fc_body {| fb_statements := [SDeclaration vY (Some (rd pX (MStruct 20%N))) (POk (MStruct 20%N))];
             fb_return := None |} = [E533].
Proof. split; reflexivity. Qed.
(* bar(d);  bar((d));  both accepted *)
Example ex_argument :
  snd (fc_stmt (SMethodCall 30%N [rd vY arr])) = [] /\
  snd (fc_stmt (SMethodCall 30%N [EParen (EAutocoerce (rd vY arr))])) = [].
Proof. split; reflexivity. Qed.
(* but not below an operator, an array literal or an index *)
Example ex_not_immediate :
  snd (fc_stmt (SMethodCall 30%N [EBinary (rd vY arr) ELeaf])) = [E531] /\
  snd (fc_stmt (SMethodCall 30%N [EArrayLit [rd vY arr]])) = [E531] /\
  snd (fc_stmt (SMethodCall 30%N
         [EDeref (Ref (Some vY) [Element (rd cC arr)] 0%N) (POk i32)])) = [E531].
Proof. repeat split; reflexivity. Qed.

(* A structure literal clears the flag as an array literal does (D79, repaired: at the pinned commit
   `take(S { b: d, a: 1 })` copied the whole array d, and whether `take(S { a: id(1), b: d })` did
   depended on the order of the members):
     take(S { b: d, a: 1 });                 E531
     var s = S { b: d, a: 1 };               E531 *)
Theorem aggregate_copy_inside_structural_argument_rejected :
  snd (fc_stmt (SMethodCall 30%N [EStructural [rd vY arr; ELeaf]])) = [E531] /\
  snd (fc_stmt (SDeclaration 5%N (Some (EStructural [rd vY arr; ELeaf])) PNone)) = [E531].
Proof. split; reflexivity. Qed.

Theorem structural_argument_order_does_not_matter :
  snd (fc_stmt (SMethodCall 30%N [EStructural [rd vY arr; ECall 31%N [ELeaf]]])) = [E531] /\
  snd (fc_stmt (SMethodCall 30%N [EStructural [ECall 31%N [ELeaf]; rd vY arr]])) = [E531].
Proof. split; reflexivity. Qed.

(* E513.  fn bar(p: &i32); bar(d)  /  bar(&d)  /  fn bar(p: &[]u8); var d: [4]u8; bar(d) *)
Example ex_E513 :
  use_function [{| p_name := Some 1%N; p_type := Some (MPointer i32) |}] [(true, POk i32)]
    = Some E513 /\
  use_function [{| p_name := Some 1%N; p_type := Some (MPointer i32) |}]
               [(true, POk (MPointer i32))] = None /\
  use_function [{| p_name := Some 1%N; p_type := Some (MSlicePointer (MPrim prim_u8)) |}]
               [(true, POk (MArray (MPrim prim_u8) 4%N))] = Some E513 /\
  use_function [{| p_name := Some 1%N; p_type := Some (MPointer i32) |}] [(false, POk i32)]
    = Some E512 /\
  use_function [{| p_name := Some 1%N; p_type := Some (MPointer i32) |}] [] = Some E510.
Proof. repeat split; reflexivity. Qed.

(* A whole function:
     fn foo(x: i32, p: &i32) { var y: i32 = x; y = 1; p = y; bar(&y); if y == x { var z = y; z = 2; } }
   accepted; adding `x = 1;` or `bar(&x);` is rejected. *)
Definition foo_params : list param :=
  [{| p_name := Some 1%N; p_type := Some i32 |};
   {| p_name := Some 4%N; p_type := Some (MPointer i32) |}].
Definition foo_body (extra : list stmt) : fbody :=
  {| fb_statements :=
       [SDeclaration 2%N (Some (rd 1%N i32)) (POk i32);
        SAssignment (Ref (Some 2%N) [] 0%N) ELeaf;
        SAssignment (Ref (Some 4%N) [Autoderef] 0%N) (rd 2%N i32);
        SMethodCall 30%N [EDeref (Ref (Some 2%N) [] 1%N) (POk (MPointer i32))];
        SIf (rd 2%N i32) (rd 1%N i32)
            (SBlock [SDeclaration 5%N (Some (rd 2%N i32)) PNone;
                     SAssignment (Ref (Some 5%N) [] 0%N) ELeaf]) None] ++ extra;
     fb_return := None |}.

Example ex_function_accepted :
  snd (mut_decl [] (DFunction foo_params (Some (foo_body [])))) = [] /\
  fc_body (foo_body []) = [] /\
  length (body_sites (declare_params [] foo_params) (foo_body [])) = 9.
Proof. repeat split; reflexivity. Qed.

Example ex_function_rejected :
  snd (mut_decl [] (DFunction foo_params
         (Some (foo_body [SAssignment (Ref (Some 1%N) [] 0%N) ELeaf])))) = [E530] /\
  snd (mut_decl [] (DFunction foo_params
         (Some (foo_body [SMethodCall 30%N [EDeref (Ref (Some 1%N) [] 1%N) (POk (MPointer i32))]]))))
    = [E530].
Proof. split; reflexivity. Qed.

(* The hypotheses of the main theorems are satisfiable by these objects. *)
Example ex_corollary_applies :
  Forall (fun p => p_type p <> None) foo_params /\
  exists v', mut_decl [] (DFunction foo_params (Some (foo_body []))) = (v', []).
Proof.
  split.
  - repeat constructor; discriminate.
  - eexists. reflexivity.
Qed.

Example ex_strict_agrees_applies :
  let mt := [(8%N, MPointer (MStruct 20%N)); (7%N, i32)] in
  mtab_ok mt = true /\ is_wellformed (MView (MStruct 21%N)) = true /\
  chain_type mt (MView (MStruct 21%N)) [Autoview; Member 8%N; Autoderef; Member 7%N] = Some i32.
Proof. repeat split; reflexivity. Qed.

(* The analyzer's map outlives a function: a `var` of f is still "mutable" while g is
   analyzed (harmless only because resolution ids are unique). *)
Example ex_state_is_never_cleared :
  lookup (fst (mut_program []
                 [DFunction [] (Some {| fb_statements := [SDeclaration 2%N None (POk i32)];
                                        fb_return := None |});
                  DFunction [] (Some {| fb_statements := []; fb_return := None |})])) 2%N
  = Some true.
Proof. reflexivity. Qed.

Print Assumptions assignment_sound.
Print Assumptions assignment_complete.
Print Assumptions assignment_iff.
Print Assumptions param_write_needs_pointer.
Print Assumptions params_are_immutable.
Print Assumptions view_is_readonly.
Print Assumptions view_is_readonly_typed.
Print Assumptions address_of_immutable_rejected.
Print Assumptions address_taken_sound.
Print Assumptions no_aggregate_copy.
Print Assumptions declaration_copy_rejected.
Print Assumptions assignment_copy_rejected.
Print Assumptions return_copy_rejected.
Print Assumptions argument_copy_accepted.
Print Assumptions function_sound.
Print Assumptions callee_can_only_write_through_pointers.
Print Assumptions strict_agrees.
Print Assumptions assignment_iff_strict.
Print Assumptions var_mutability_in_pipeline.
Print Assumptions accepted_call_types_match.
Print Assumptions pointer_parameter_needs_address.
Print Assumptions elaborated_assignment_typed.
Print Assumptions elaborated_slice_pointer_refuted.
Print Assumptions structural_argument_order_does_not_matter.
