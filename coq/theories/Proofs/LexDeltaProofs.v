(* Proofs about Model/LexDelta.v (second-generation lexer, src/delta/lexer.rs and
   src/delta/lexer/tokens.rs).  Every scanner returns a suffix of its input and keeps
   `location.end` equal to the iterator position ([adv], [step_ok]).  The main loop is taken apart
   into the cutting of the source into tokens ([scan]) and the filling of the buffers ([fill]):
   buffer bounds, totality and the error cap are facts about [fill], spans and line numbers
   about [scan]; then the values of integer literals.  The examples at the top are test vectors,
   one or more per arm of the main `match`. *)
From Coq Require Import Ascii String.
From PV Require Import Base.Common Base.IR Base.Tok Model.LexDelta.
Open Scope N_scope.

(* a token as the examples write it: [mk_tok] with the line offset given directly *)
Definition T (k : tkind) (v : Z) (ty : option tykw) (st en ln off : N) : tok :=
  {| kind := k; value := v; vtype := ty; bytes := []; tstart := st; tend := en;
     line := ln; lstart := off |}.
Definition nl : list N := [10].
Definition cr : list N := [13].
Definition bsl : list N := [92].
Definition dq : list N := [34].

(* CR is plain whitespace, only LF counts lines *)
Example ex_lone_cr : lex_delta (bs "a" ++ cr ++ bs "b") =
  [T KIdentifier 0 None 0 1 1 0; T KIdentifier 0 None 2 3 1 2].
Proof. vm_compute. reflexivity. Qed.
Example ex_crlf : lex_delta (bs "a" ++ cr ++ nl ++ [9] ++ bs "b") =
  [T KIdentifier 0 None 0 1 1 0; T KIdentifier 0 None 4 5 2 1].
Proof. vm_compute. reflexivity. Qed.
Example ex_end_location : end_location (bs "a" ++ nl ++ bs "  ") = Some (4, 2, 2).
Proof. vm_compute. reflexivity. Qed.

Example ex_punct : lex_delta (bs "// c" ++ nl ++ bs "/ |: .. . -> <= << >>= ! != == = | - < >") =
  [T KDivide 0 None 5 6 2 0; T KPipeForType 0 None 7 9 2 2; T KDots 0 None 10 12 2 5;
   T KDot 0 None 13 14 2 8; T KArrow 0 None 15 17 2 10; T KIsLE 0 None 18 20 2 13;
   T KShiftLeft 0 None 21 23 2 16; T KShiftRight 0 None 24 26 2 19;
   T KAssignment 0 None 26 27 2 21; T KExclamation 0 None 28 29 2 23;
   T KDoesNotEqual 0 None 30 32 2 25; T KEquals 0 None 33 35 2 28;
   T KAssignment 0 None 36 37 2 31; T KPipe 0 None 38 39 2 33; T KMinus 0 None 40 41 2 35;
   T KAngleLeft 0 None 42 43 2 37; T KAngleRight 0 None 44 45 2 39].
Proof. vm_compute. reflexivity. Qed.
Example ex_singles : map kind (lex_delta (bs "(){}[]&^+*%:;,")) =
  [KParenLeft; KParenRight; KBraceLeft; KBraceRight; KBracketLeft; KBracketRight;
   KAmpersand; KCaret; KPlus; KTimes; KModulo; KColon; KSemicolon; KComma].
Proof. vm_compute. reflexivity. Qed.
Example ex_comment_cr_eof : lex_delta (bs "x//" ++ cr ++ [255; 0] ++ bs "'") = [T KIdentifier 0 None 0 1 1 0].
Proof. vm_compute. reflexivity. Qed.

Example ex_return : lex_delta (bs "return") = [T KReturn 0 None 0 6 1 0].
Proof. vm_compute. reflexivity. Qed.
Example ex_keywords :
  map kind (lex_delta (bs "fn var const if goto loop return else cast as import pub extern struct word8 word16 word32 word64 word128 _")) =
  [KFn; KVar; KConst; KIf; KGoto; KLoop; KReturn; KElse; KCast; KAs; KImport; KPub; KExtern;
   KStruct; KWord8; KWord16; KWord32; KWord64; KWord128; KPlaceholder].
Proof. vm_compute. reflexivity. Qed.
Example ex_types :
  map vtype (lex_delta (bs "void bool char8 i8 i16 i32 i64 i128 u8 u16 u32 u64 u128 usize")) =
  map Some ([TyVoid; TyPrim Bool; TyPrim Char8] ++
            map TyPrim [Int8; Int16; Int32; Int64; Int128; Uint8; Uint16; Uint32; Uint64; Uint128; Usize]).
Proof. vm_compute. reflexivity. Qed.
Example ex_bools : lex_delta (bs "true false True") =
  [T KBool 1 None 0 4 1 0; T KBool 0 None 5 10 1 5; T KIdentifier 0 None 11 15 1 11].
Proof. vm_compute. reflexivity. Qed.
(* a builtin is an identifier followed by '!', even when '=' follows; keywords never are *)
Example ex_builtin : lex_delta (bs "foo!= if!= _! __ x_1") =
  [T KBuiltin 0 None 0 4 1 0; T KAssignment 0 None 4 5 1 4; T KIf 0 None 6 8 1 6;
   T KDoesNotEqual 0 None 8 10 1 8; T KPlaceholder 0 None 11 12 1 11;
   T KExclamation 0 None 12 13 1 12; T KIdentifier 0 None 14 16 1 14;
   T KIdentifier 0 None 17 20 1 17].
Proof. vm_compute. reflexivity. Qed.

Example ex_zero : lex_delta (bs "0 007 0x 0xg 0x_1_u8 0b2 0b 0b_ 0u8 0_ 0x0 0b0 0xfu8 0x1b 0xABCDEFi8") =
  [T KNakedDecimal 0 None 0 1 1 0; T KError E141 None 2 5 1 2; T KError E141 None 6 8 1 6;
   T KError E141 None 9 12 1 9; T KSuffixedInteger 1 (Some (TyPrim Uint8)) 13 20 1 13;
   T KError E141 None 21 24 1 21; T KError E141 None 25 27 1 25; T KError E141 None 28 31 1 28;
   T KSuffixedInteger 0 (Some (TyPrim Uint8)) 32 35 1 32; T KError E141 None 36 38 1 36;
   T KBitInteger 0 None 39 42 1 39; T KBitInteger 0 None 43 46 1 43;
   T KSuffixedInteger 15 (Some (TyPrim Uint8)) 47 52 1 47; T KBitInteger 27 None 53 57 1 53;
   T KSuffixedInteger 11259375 (Some (TyPrim Int8)) 58 68 1 58].
Proof. vm_compute. reflexivity. Qed.
Example ex_hex_max : lex_delta (bs "0xffffffffffffffffffffffffffffffff 0x100000000000000000000000000000000 0x0000000000000000000000000000000000001") =
  [T KBitInteger 340282366920938463463374607431768211455 None 0 34 1 0; T KError E140 None 35 70 1 35;
   T KBitInteger 1 None 71 110 1 71].
Proof. vm_compute. reflexivity. Qed.
(* 0b: at most 128 digits whatever their value; 129 zeros and a one is E140 *)
Example ex_bin_128 : lex_delta (bs "0b" ++ repeat 48 127 ++ bs "1") = [T KBitInteger 1 None 0 130 1 0].
Proof. vm_compute. reflexivity. Qed.
Example ex_bin_129 : lex_delta (bs "0b" ++ repeat 48 129 ++ bs "1_u8") = [T KError E140 None 0 135 1 0].
Proof. vm_compute. reflexivity. Qed.

Example ex_decimal : lex_delta (bs "1_000i32 12ab 9 1__ 340282366920938463463374607431768211455 340282366920938463463374607431768211460 99u64") =
  [T KSuffixedInteger 1000 (Some (TyPrim Int32)) 0 8 1 0; T KError E141 None 9 13 1 9;
   T KNakedDecimal 9 None 14 15 1 14; T KNakedDecimal 1 None 16 19 1 16;
   T KNakedDecimal 340282366920938463463374607431768211455 None 20 59 1 20;
   T KError E140 None 60 99 1 60; T KSuffixedInteger 99 (Some (TyPrim Uint64)) 100 105 1 100].
Proof. vm_compute. reflexivity. Qed.
Example ex_chars : lex_delta (bs "'a' '' 'ab' '\x41' '\x4' '\n' '\'' '""' ' ' '\0' '\q' '" ++ [9] ++ bs "' '" ++ [233] ++ bs "' '" ++ [195;169] ++ bs "'") =
  [T KCharLiteral 97 None 0 3 1 0; T KError E163 None 4 6 1 4; T KError E163 None 7 11 1 7;
   T KCharLiteral 65 None 12 18 1 12; T KError E162 None 20 23 1 20; T KCharLiteral 10 None 25 29 1 25;
   T KCharLiteral 39 None 30 34 1 30; T KCharLiteral 34 None 35 38 1 35; T KCharLiteral 32 None 39 42 1 39;
   T KCharLiteral 0 None 43 47 1 43; T KError E162 None 49 51 1 49; T KError E110 None 54 55 1 54;
   T KCharLiteral 233 None 57 60 1 57; T KError E163 None 61 65 1 61].
Proof. vm_compute. reflexivity. Qed.
(* '\u{41}' is NOT accepted in a char literal (the char arm has no `u` case) *)
Example ex_char_u : lex_delta (bs "'\u{41}'") = [T KError E162 None 1 3 1 1].
Proof. vm_compute. reflexivity. Qed.
Example ex_char_unclosed : lex_delta (bs "'a" ++ nl ++ bs "'") =
  [T KError E160 None 2 2 1 2; T KError E160 None 4 4 2 1].
Proof. vm_compute. reflexivity. Qed.
Example ex_trailing_backslash : lex_delta (bs "'\") = [T KError E161 None 1 2 1 1].
Proof. vm_compute. reflexivity. Qed.

Example ex_strings : lex_delta (bs """a b"" ""\u{41}\x41\n"" ""\u{}"" ""\u{d800}"" ""\u{10FFFF}"" ""\u{110000}"" ""\u{0000041}"" ""\u41"" ""\u{4" ++ nl ++ bs """\x4g"" ""'""") =
  [T KStringLiteral 0 None 0 5 1 0; T KStringLiteral 0 None 6 20 1 6; T KError E162 None 22 26 1 22;
   T KError E162 None 29 37 1 29; T KStringLiteral 0 None 39 51 1 39; T KError E162 None 53 63 1 53;
   T KError E162 None 66 77 1 66; T KError E162 None 80 82 1 80; T KError E162 None 87 91 1 87;
   T KError E162 None 93 96 2 1; T KStringLiteral 0 None 99 102 2 7].
Proof. vm_compute. reflexivity. Qed.
(* unterminated literal before CRLF: the CR is inside the literal, so E110 at the CR, not E160 *)
Example ex_unterminated_crlf : lex_delta (dq ++ bs "abc" ++ cr ++ nl ++ bs "x") =
  [T KError E110 None 4 5 1 4; T KIdentifier 0 None 6 7 2 0].
Proof. vm_compute. reflexivity. Qed.
Example ex_unterminated_lf : lex_delta (dq ++ bs "abc" ++ nl ++ bs "x") =
  [T KError E160 None 4 4 1 4; T KIdentifier 0 None 5 6 2 0].
Proof. vm_compute. reflexivity. Qed.
(* backslash-newline: the newline is swallowed by the escape, the line counter is NOT advanced *)
Example ex_backslash_newline : lex_delta (dq ++ bs "a" ++ bsl ++ nl ++ dq ++ bs " x" ++ nl ++ bs "y") =
  [T KError E162 None 2 4 1 2; T KIdentifier 0 None 6 7 1 6; T KIdentifier 0 None 8 9 2 0].
Proof. vm_compute. reflexivity. Qed.

(* arm `_`: one E110 per byte *)
Example ex_non_ascii : lex_delta [195; 169; 0; 127; 35] =
  [T KError E110 None 0 1 1 0; T KError E110 None 1 2 1 1; T KError E110 None 2 3 1 2;
   T KError E110 None 3 4 1 3; T KError E110 None 4 5 1 4].
Proof. vm_compute. reflexivity. Qed.

Example ex_empty : (lex_delta [], num_end_tokens [], end_location []) = ([T KError E101 None 0 0 0 0], 0, None).
Proof. vm_compute. reflexivity. Qed.
Example ex_caps : (token_capacity 10, token_capacity 131072, token_capacity 200000, token_capacity 2147483648,
                   error_capacity 7, error_capacity 1000) = (65536, 65536, 100000, 16777216, 7, 100).
Proof. vm_compute. reflexivity. Qed.
(* the error cap: errors beyond the 100th leave NO token behind *)
Example ex_error_cap : let r := lex_delta (repeat 35 120 ++ bs "x") in
  (length r, map kind (skipn 99 r), num_end_tokens (repeat 35 120 ++ bs "x")) = (101%nat, [KError; KIdentifier], 2).
Proof. vm_compute. reflexivity. Qed.
(* with fewer than 100 source bytes the cap is the source length: never reached *)
Example ex_error_cap_small : length (lex_delta (repeat 35 50)) = 50%nat.
Proof. vm_compute. reflexivity. Qed.

Lemma lenN_nil : lenN [] = 0.
Proof. reflexivity. Qed.
Lemma lenN_cons y l : lenN (y :: l) = lenN l + 1.
Proof. unfold lenN. cbn [length]. lia. Qed.
Lemma lenN_app l1 l2 : lenN (l1 ++ l2) = lenN l1 + lenN l2.
Proof. unfold lenN. rewrite app_length. lia. Qed.

Lemma skipn_app_exact (pre l : list N) : skipn (N.to_nat (lenN pre)) (pre ++ l) = l.
Proof.
  unfold lenN. rewrite Nat2N.id. rewrite skipn_app, skipn_all, Nat.sub_diag. reflexivity.
Qed.
Lemma slice_mid (a b c : list N) from to : from = lenN a -> to = from + lenN b -> slice (a ++ b ++ c) from to = b.
Proof.
  intros -> ->. unfold slice. rewrite skipn_app_exact. replace (lenN a + lenN b - lenN a) with (lenN b) by lia.
  unfold lenN. rewrite Nat2N.id, firstn_app, firstn_all, Nat.sub_diag. apply app_nil_r.
Qed.

Definition lenT (l : list tok) : N := N.of_nat (length l).
Lemma lenT_nil : lenT [] = 0.
Proof. reflexivity. Qed.
Lemma lenT_cons y l : lenT (y :: l) = lenT l + 1.
Proof. unfold lenT. cbn [length]. lia. Qed.
Ltac llia := rewrite ?lenN_app, ?lenN_cons, ?lenN_nil, ?lenT_cons, ?lenT_nil in *; lia.

Section Generic.
Variable push : dacc -> N -> dacc.

Definition nonl (l : list N) : Prop := Forall (fun y => y <> 10) l.

(* the two-byte sequence backslash, newline occurs in [l] *)
Fixpoint has_bsnl (l : list N) : bool :=
  match l with
  | [] => false
  | a :: r => (match r with c :: _ => (a =? 92) && (c =? 10) | [] => false end) || has_bsnl r
  end.
(* a consumed segment contains a newline only as part of backslash-newline *)
Definition nl_ok (l : list N) : Prop := has_bsnl l = false -> nonl l.

Lemma has_bsnl_app l1 l2 : has_bsnl (l1 ++ l2) = false -> has_bsnl l1 = false /\ has_bsnl l2 = false.
Proof.
  induction l1 as [|x l1 IH]; cbn [app has_bsnl]; [auto|].
  intros H. apply orb_false_iff in H as [H1 H2]. destruct (IH H2) as [Ha Hb].
  split; [|assumption]. apply orb_false_iff; split; [|assumption].
  destruct l1 as [|c l1']; [reflexivity|]. cbn [app] in H1. exact H1.
Qed.

Lemma nonl_app l1 l2 : nonl l1 -> nonl l2 -> nonl (l1 ++ l2).
Proof. unfold nonl. intros. apply Forall_app. auto. Qed.
Lemma nl_ok_nonl l : nonl l -> nl_ok l.
Proof. intros H _. exact H. Qed.
Lemma nonl_cons_ok x seg : x <> 10 -> nonl seg -> nl_ok (x :: seg).
Proof. intros. apply nl_ok_nonl. constructor; assumption. Qed.
Lemma nl_ok_app l1 l2 : nl_ok l1 -> nl_ok l2 -> nl_ok (l1 ++ l2).
Proof. intros H1 H2 H. apply has_bsnl_app in H as [Ha Hb]. apply nonl_app; auto. Qed.
Lemma nl_ok_cons x l : x <> 10 -> nl_ok l -> nl_ok (x :: l).
Proof.
  intros Hx Hl H. cbn [has_bsnl] in H. apply orb_false_iff in H as [_ H].
  constructor; [exact Hx|]. apply Hl, H.
Qed.
Lemma nl_ok_esc y l : nonl l -> nl_ok (92 :: y :: l).
Proof.
  intros Hl H. cbn [has_bsnl] in H. apply orb_false_iff in H as [H _].
  rewrite N.eqb_refl in H. cbn [andb] in H. apply N.eqb_neq in H.
  constructor; [lia|]. constructor; assumption.
Qed.

(* [seg] was consumed from [l] leaving [l'], with end moving from [e] to [e'] *)
Definition adv (e : N) (l : list N) (e' : N) (l' : list N) : Prop :=
  exists seg, l = seg ++ l' /\ e' = e + lenN seg /\ nonl seg.

Lemma adv_refl e l : adv e l e l.
Proof. exists []. cbn. repeat split; [lia|constructor]. Qed.
Lemma adv_step y e r e' l' : y <> 10 -> adv (e + 1) r e' l' -> adv e (y :: r) e' l'.
Proof.
  intros Hy (seg & Hr & He & Hn). exists (y :: seg). subst r. cbn [app].
  rewrite lenN_cons. repeat split; [lia|constructor; assumption].
Qed.
Lemma adv_trans e1 l1 e2 l2 e3 l3 : adv e1 l1 e2 l2 -> adv e2 l2 e3 l3 -> adv e1 l1 e3 l3.
Proof.
  intros (s1 & H1 & E1 & N1) (s2 & H2 & E2 & N2). exists (s1 ++ s2). subst.
  rewrite lenN_app, app_assoc. repeat split; [lia|apply nonl_app; assumption].
Qed.
Lemma adv_length e l e' l' : adv e l e' l' -> (length l' <= length l)%nat.
Proof. intros (seg & -> & _). rewrite app_length. lia. Qed.

(* where [span_while p] stops: at the end, or before a byte that [p] refuses *)
Definition stops_at (p : N -> bool) (l : list N) : Prop :=
  match l with [] => True | y :: _ => p y = false end.

Lemma span_while_spec p l : forall t r, span_while p l = (t, r) ->
  l = t ++ r /\ forallb p t = true /\ stops_at p r.
Proof.
  induction l as [|y l IH]; intros t r H; cbn [span_while] in H.
  - inversion H; subst. repeat split.
  - destruct (p y) eqn:Hp.
    + destruct (span_while p l) as [t0 r0] eqn:Hs. inversion H; subst.
      destruct (IH _ _ eq_refl) as (Hl & Ht & Hr). subst l. cbn [forallb]. rewrite Hp. repeat split; assumption.
    + inversion H; subst. repeat split. assumption.
Qed.

Lemma span_while_all p : forall l tail, forallb p l = true -> stops_at p tail ->
  span_while p (l ++ tail) = (l, tail).
Proof.
  induction l as [|y l IH]; intros tail Hl Ht.
  - cbn [app]. destruct tail as [|z t]; [reflexivity|]. cbn [span_while]. rewrite Ht. reflexivity.
  - cbn [forallb] in Hl. apply andb_true_iff in Hl as [Hy Hl]. cbn [app span_while]. now rewrite Hy, IH.
Qed.

Lemma forallb_nonl (p : N -> bool) t : p 10 = false -> forallb p t = true -> nonl t.
Proof.
  intros H10 H. apply Forall_forall. intros a Ha ->. rewrite forallb_forall in H. rewrite (H 10 Ha) in H10. discriminate.
Qed.

Lemma span_while_adv p l t r e : p 10 = false -> span_while p l = (t, r) -> adv e l (e + lenN t) r.
Proof.
  intros H10 H. apply span_while_spec in H as (Hl & Ht & _). exists t. repeat split; [assumption|].
  eapply forallb_nonl; eassumption.
Qed.

(* skipping to the end of the line *)
Lemma span_while_line body tail : nonl body -> match tail with [] => True | y :: _ => y = 10 end ->
  span_while (fun z => negb (z =? 10)) (body ++ tail) = (body, tail).
Proof.
  intros Hb Ht. apply span_while_all; [|destruct tail; [exact I|now subst]].
  apply forallb_forall. intros y Hy. apply negb_true_iff, N.eqb_neq. exact (proj1 (Forall_forall _ _) Hb y Hy).
Qed.

Lemma hex_digit_10 d : hex_digit 10 = Some d -> False.
Proof. vm_compute. discriminate. Qed.

(* The scanners of decimal and of hexadecimal digits are the same loop over a digit function
   [dg] and an accumulation [upd]: [span_while] of the digits and underscores, and a fold over
   what it took.  [scanf] stands for the scanner; its two equations hold by computation. *)
Section DigitScan.
Context {A : Type} (dg : N -> option N) (upd : A -> N -> A).
Variable scanf : A -> N -> list N -> A * N * list N.
Hypothesis scanf_nil : forall a e, scanf a e [] = (a, e, []).
Hypothesis scanf_cons : forall a e y r, scanf a e (y :: r) =
  match dg y with
  | Some d => scanf (upd a d) (e + 1) r
  | None => if y =? 95 then scanf a (e + 1) r else (a, e, y :: r)
  end.
Definition digit_byte (y : N) : bool := match dg y with Some _ => true | None => y =? 95 end.

Fixpoint dfold (a : A) (l : list N) : A :=
  match l with
  | [] => a
  | y :: r => dfold (match dg y with Some d => upd a d | None => a end) r
  end.

Lemma scan_span : forall l a e,
  scanf a e l = let '(t, r) := span_while digit_byte l in (dfold a t, e + lenN t, r).
Proof.
  induction l as [|y l IH]; intros a e; cbn [span_while]; [now rewrite scanf_nil, N.add_0_r|].
  rewrite scanf_cons. unfold digit_byte at 1. destruct (dg y) as [d|] eqn:Hd; [|destruct (y =? 95)]; [..|now rewrite N.add_0_r];
    rewrite IH; destruct (span_while digit_byte l) as [t r]; cbn [dfold]; rewrite Hd, lenN_cons; do 2 f_equal; lia.
Qed.

End DigitScan.

Lemma scan_dec_span l a e : scan_dec_with push a e l =
  let '(t, r) := span_while (digit_byte dec_digit) l in (dfold dec_digit push a t, e + lenN t, r).
Proof. exact (scan_span _ _ (scan_dec_with push) (fun _ _ => eq_refl) (fun _ _ _ _ => eq_refl) l a e). Qed.
Lemma scan_hex_span l a e : scan_hex a e l =
  let '(t, r) := span_while (digit_byte hex_digit) l in (dfold hex_digit hex_push a t, e + lenN t, r).
Proof. exact (scan_span _ _ scan_hex (fun _ _ => eq_refl) (fun _ _ _ _ => eq_refl) l a e). Qed.

Lemma scan_bin_adv : forall l nd v e nd' v' e' l', scan_bin nd v e l = (nd', v', e', l') -> adv e l e' l'.
Proof.
  induction l as [|y r IH]; intros nd v e nd' v' e' l' H; cbn [scan_bin] in H.
  - inversion H; subst. apply adv_refl.
  - destruct (128 <? nd); [inversion H; subst; apply adv_refl|].
    destruct (N.eqb_spec y 48) as [->|H48]; [apply adv_step; [lia|]; eapply IH; eassumption|].
    destruct (N.eqb_spec y 49) as [->|H49]; [apply adv_step; [lia|]; eapply IH; eassumption|].
    destruct (N.eqb_spec y 95) as [->|H95]; [apply adv_step; [lia|]; eapply IH; eassumption|].
    inversion H; subst; apply adv_refl.
Qed.

Lemma scan_udigits_adv : forall l sod cu e nd cu' e' l',
  scan_udigits sod cu e l = (nd, cu', e', l') -> adv e l e' l'.
Proof.
  induction l as [|y r IH]; intros sod cu e nd cu' e' l' H; cbn [scan_udigits] in H.
  - inversion H; subst. apply adv_refl.
  - destruct (hex_digit y) as [d|] eqn:Hd.
    + apply adv_step; [intros ->; eapply hex_digit_10; eassumption|]. eapply IH; eassumption.
    + destruct (N.eqb_spec y 125) as [->|Hy].
      * inversion H; subst. apply adv_step; [lia|]. apply adv_refl.
      * inversion H; subst. apply adv_refl.
Qed.

(* escapes: the segment after the backslash is empty (end of input) or one
   arbitrary byte (possibly a NEWLINE) followed by newline-free bytes *)
Definition esc_bounds (soe e' : N) (o : esc) : Prop :=
  match o with
  | EErr _ st en => soe <= st /\ st <= en /\ en <= e'
  | _ => True
  end.
Definition esc_post (soe : N) (r : list N) (o : esc) (e' : N) (r' : list N) : Prop :=
  exists seg, r = seg ++ r' /\ e' = soe + 1 + lenN seg /\ nonl (tl seg) /\ esc_bounds soe e' o.

Lemma scan_escape_spec au soe r o e' r' : scan_escape au soe r = (o, e', r') -> esc_post soe r o e' r'.
Proof.
  assert (Hret : forall seg rr o1 e1, e1 = soe + 1 + lenN seg -> nonl (tl seg) -> esc_bounds soe e1 o1 ->
            (o1, e1, rr) = (o, e', r') -> esc_post soe (seg ++ rr) o e' r').
  { intros seg rr o1 e1 He Hn Hb H. inversion H; subst. exists seg. auto. }
  unfold scan_escape. destruct r as [|y r1]; [apply (Hret []); [llia|constructor|cbn; lia]|].
  destruct (assoc_N y simple_escape_table); [apply (Hret [y]); [llia|constructor|exact I]|].
  destruct (y =? 120).
  { destruct r1 as [|h1 r2]; [apply (Hret [y]); [llia|constructor|cbn; lia]|].
    destruct (hex_digit h1) eqn:Hd1; [|apply (Hret [y]); [llia|constructor|cbn; lia]].
    assert (Hh1 : h1 <> 10) by (intros ->; eapply hex_digit_10; eassumption).
    destruct r2 as [|h2 r3]; [apply (Hret [y; h1]); [llia|repeat constructor; assumption|cbn; lia]|].
    destruct (hex_digit h2) eqn:Hd2; [|apply (Hret [y; h1]); [llia|repeat constructor; assumption|cbn; lia]].
    assert (Hh2 : h2 <> 10) by (intros ->; eapply hex_digit_10; eassumption).
    apply (Hret [y; h1; h2]); [llia|repeat constructor; assumption|exact I]. }
  destruct (au && (y =? 117)); [|apply (Hret [y]); [llia|constructor|cbn; lia]].
  (* the scrutinee is what follows `\u`: `{` and digits, or nothing *)
  match goal with |- context [match ?m with _ => _ end] => destruct m as [[[nd cu] e3] r3] eqn:Hm end.
  assert (Hud : adv (soe + 2) r1 e3 r3).
  { destruct r1 as [|z r2]; [inversion Hm; subst; apply adv_refl|].
    destruct (N.eqb_spec z 123) as [->|_]; [|inversion Hm; subst; apply adv_refl].
    apply adv_step; [lia|]. eapply scan_udigits_adv, Hm. }
  destruct Hud as (seg' & -> & -> & Hn).
  destruct ((1 <=? nd) && (nd <=? 6) && is_scalar_value cu); apply (Hret (y :: seg')); try assumption; try llia;
    cbn [esc_bounds]; llia.
Qed.

Definition ferr_ok (i e : N) (s : lit) : Prop :=
  match ferr s with
  | Some (_, st, en) => i <= st /\ st <= en /\ en <= e
  | None => True
  end.

Lemma ferr_ok_mono i e e' s : e <= e' -> ferr_ok i e s -> ferr_ok i e' s.
Proof. unfold ferr_ok. destruct (ferr s) as [[[c st] en]|]; [lia|auto]. Qed.
Lemma ferr_ok_err i e c st en s : i <= st -> st <= en -> en <= e -> ferr_ok i e s -> ferr_ok i e (lit_err c st en s).
Proof.
  unfold ferr_ok, lit_err. intros. destruct (ferr s) as [[[c0 st0] en0]|] eqn:Hf.
  - rewrite Hf. assumption.
  - cbn. lia.
Qed.

Definition lit_post (i e : N) (l : list N) (res : option (lit * N * list N)) : Prop :=
  exists s' e' l', res = Some (s', e', l') /\
    (exists seg, l = seg ++ l' /\ e' = e + lenN seg /\ nl_ok seg) /\ ferr_ok i e' s'.

Lemma lit_post_prefix i e pre l res : nl_ok pre -> lit_post i (e + lenN pre) l res -> lit_post i e (pre ++ l) res.
Proof.
  intros Hp (s' & e' & l' & -> & (seg & -> & -> & Hn) & Hf). exists s', (e + lenN pre + lenN seg), l'.
  split; [reflexivity|]. split; [|assumption]. exists (pre ++ seg).
  rewrite app_assoc, lenN_app. repeat split; [lia|now apply nl_ok_app].
Qed.

Lemma scan_lit_spec q au i : forall fuel s e l,
  (length l < fuel)%nat -> i <= e -> ferr_ok i e s -> lit_post i e l (scan_lit fuel q au s e l).
Proof.
  induction fuel as [|f IH]; intros s e l Hf Hie Hs; [lia|].
  assert (Hstop : forall l', lit_post i e l' (Some (s, e, l'))).
  { intros l'. exists s, e, l'. split; [reflexivity|]. split; [|assumption].
    exists []. repeat split; [llia|apply nl_ok_nonl; constructor]. }
  cbn [scan_lit]. destruct l as [|x r]; [apply Hstop|]. cbn [length] in Hf.
  destruct (N.eqb_spec x 10) as [->|Hx10]; [apply Hstop|].
  assert (Hmono : forall e1, e <= e1 -> ferr_ok i e1 s) by (intros; eapply ferr_ok_mono; eassumption).
  assert (Hone : forall s1, ferr_ok i (e + 1) s1 -> lit_post i e (x :: r) (scan_lit f q au s1 (e + 1) r)).
  { intros s1 Hs1. apply (lit_post_prefix i e [x]); [apply nonl_cons_ok; [assumption|constructor]|].
    apply IH; [lia|lia|assumption]. }
  destruct (N.eqb_spec x 92) as [->|Hx92].
  { destruct (scan_escape au e r) as [[o e1] r1] eqn:Hesc.
    apply scan_escape_spec in Hesc as (segE & -> & -> & HsegE & Hb). rewrite app_length in Hf.
    apply (lit_post_prefix i e (92 :: segE)).
    - destruct segE as [|y seg']; [apply nonl_cons_ok; [lia|constructor]|apply nl_ok_esc; exact HsegE].
    - replace (e + lenN (92 :: segE)) with (e + 1 + lenN segE) by llia. apply IH; [lia|lia|].
      destruct o as [v| |c st en]; cbn [lit_esc]; [apply Hmono; lia|apply Hmono; lia|].
      cbn in Hb. apply ferr_ok_err; try lia. apply Hmono; lia. }
  destruct (N.eqb_spec x q) as [->|Hxq].
  { exists (lit_close s), (e + 1), r. split; [reflexivity|]. split; [|apply Hmono; lia].
    exists [q]. split; [reflexivity|]. split; [llia|apply nonl_cons_ok; [assumption|constructor]]. }
  destruct (x =? 32); [apply Hone, Hmono; lia|].
  destruct (is_ascii_graphic x); [apply Hone, Hmono; lia|].
  destruct (x <? 128); [|apply Hone, Hmono; lia].
  apply Hone, ferr_ok_err; try lia. apply Hmono; lia.
Qed.

Definition act_ok (x : N) (seg : list N) (i sendv : N) (a : action) : Prop :=
  match a with
  | ASkip => nl_ok (x :: seg)
  | ANewline => x = 10 /\ seg = []
  | ATok k _ _ en => en = sendv /\ nl_ok (x :: seg) /\ k <> KError
  | AErr _ st en => i <= st /\ st <= en /\ en <= sendv /\ nl_ok (x :: seg)
  | AFuel => False
  end.

Definition step_ok (x : N) (r : list N) (i : N) (s : step) : Prop :=
  exists seg, r = seg ++ srest s /\ send s = i + 1 + lenN seg /\ act_ok x seg i (send s) (act s).

Lemma assoc_bytes_In {A} (k : list N) (t : list (list N * A)) v :
  assoc_bytes k t = Some v -> In v (map snd t).
Proof.
  induction t as [|[k' v'] t IH]; cbn [assoc_bytes map snd]; [discriminate|].
  destruct (bytes_eqb k k'); intros H; [inversion H; now left|right; auto].
Qed.
Lemma assoc_N_In {A} (k : N) (t : list (N * A)) v : assoc_N k t = Some v -> In (k, v) t.
Proof.
  induction t as [|[k' v'] t IH]; cbn [assoc_N]; [discriminate|].
  destruct (N.eqb_spec k k') as [->|_]; intros H; [inversion H; now left|right; auto].
Qed.

Lemma kw_table_kinds :
  Forall (fun r : tkind * Z * option tykw => fst (fst r) <> KError) (map snd kw_table).
Proof. cbn. repeat constructor; discriminate. Qed.

Lemma lookup_keyword_kind ident k v ty : lookup_keyword ident = Some (k, v, ty) -> k <> KError.
Proof.
  unfold lookup_keyword. destruct (assoc_bytes ident kw_table) as [r|] eqn:Hk.
  - intros H; inversion H; subst r. apply assoc_bytes_In in Hk.
    pose proof kw_table_kinds as HF. rewrite Forall_forall in HF. apply (HF _ Hk).
  - destruct (parse_integer_suffix ident); intros H; inversion H; discriminate.
Qed.

Definition punct_good (e : list (N * tkind) * tkind) : Prop :=
  snd e <> KError /\ Forall (fun p : N * tkind => fst p <> 10 /\ snd p <> KError) (fst e) /\ has_payload (snd e) = false.
Lemma punct_table_good : Forall punct_good (map snd punct_table).
Proof.
  cbn. repeat (constructor; cbn); try discriminate; vm_compute; discriminate.
Qed.

Lemma punct_kinds x seconds k1 : assoc_N x punct_table = Some (seconds, k1) ->
  k1 <> KError /\ (forall y k2, assoc_N y seconds = Some k2 -> k2 <> KError /\ y <> 10).
Proof.
  intros H. apply assoc_N_In, (in_map snd) in H.
  pose proof punct_table_good as HF. rewrite Forall_forall in HF.
  destruct (HF _ H) as (Hk1 & Hs & _). cbn [fst snd] in *. split; [assumption|].
  intros y k2 H2. apply assoc_N_In in H2. rewrite Forall_forall in Hs. destruct (Hs _ H2). now split.
Qed.

(* the arms of the main `match` *)
Definition punct_arm (seconds : list (N * tkind)) (k1 : tkind) (r : list N) (i : N) : step :=
  match r with
  | y :: r' =>
      match assoc_N y seconds with
      | Some k2 => mk_step (ATok k2 0%Z None (i + 1 + 1)) r' (i + 1 + 1)
      | None => mk_step (ATok k1 0%Z None (i + 1)) r (i + 1)
      end
  | [] => mk_step (ATok k1 0%Z None (i + 1)) r (i + 1)
  end.
Definition slash_arm (r : list N) (i : N) : step :=
  match r with
  | y :: r' => if y =? 47
               then let '(t, r'') := span_while (fun z => negb (z =? 10)) r' in
                    mk_step ASkip r'' (i + 1 + 1 + lenN t)
               else mk_step (ATok KDivide 0%Z None (i + 1)) r (i + 1)
  | [] => mk_step (ATok KDivide 0%Z None (i + 1)) r (i + 1)
  end.
Definition plain_arm (fuel : nat) (x : N) (r : list N) (i : N) : step :=
  if is_ident_start x then lex_ident x r i
  else if x =? 48 then lex_zero r i
  else if in_range 49 57 x then lex_decimal_with push x r i
  else if x =? 39 then lex_literal fuel true 39 r i
  else if x =? 34 then lex_literal fuel false 34 r i
  else mk_step (AErr E110 i (i + 1)) r (i + 1).

(* no key of the table is a byte the loop tests for before it consults the table *)
Lemma step_punct f x seconds k1 r i : assoc_N x punct_table = Some (seconds, k1) ->
  lex_step_with push f x r i = punct_arm seconds k1 r i.
Proof.
  intros H. assert (Hne : forall c, assoc_N c punct_table = None -> (x =? c) = false).
  { intros c Hc. destruct (N.eqb_spec x c) as [->|]; congruence. }
  unfold lex_step_with. now rewrite !Hne, H by reflexivity.
Qed.
Lemma step_slash f r i : lex_step_with push f 47 r i = slash_arm r i.
Proof. reflexivity. Qed.
Lemma step_plain f x r i :
  assoc_N x punct_table = None -> x <> 47 -> x <> 10 -> x <> 13 -> x <> 32 -> x <> 9 ->
  lex_step_with push f x r i = plain_arm f x r i.
Proof.
  intros H H47 H10 H13 H32 H9. apply N.eqb_neq in H47, H10, H13, H32, H9.
  unfold lex_step_with. now rewrite H, H47, H10, H13, H32, H9.
Qed.

(* [step_ex seg] opens [step_ok] with [seg] as the consumed segment: it leaves the equation
   [r = seg ++ srest], the one for [send] where [llia] does not settle it, and [act_ok];
   [act_tok] / [act_err] split [act_ok] of a token / an error and settle its arithmetic *)
Ltac act_tok :=
  cbn [act_ok]; split; [try reflexivity; try llia|split; [try assumption|try assumption; try discriminate]].
Ltac act_err :=
  cbn [act_ok]; split; [try llia|split; [try llia|split; [try llia|try assumption]]].
Ltac step_ex seg :=
  exists seg; cbn [srest send act mk_step]; split; [|split; [try llia|]].

Lemma lex_ident_ok x r i : x <> 10 -> step_ok x r i (lex_ident x r i).
Proof.
  intros Hx. unfold lex_ident. destruct (span_while is_ident_cont r) as [t r1] eqn:Hs.
  apply span_while_spec in Hs as (Hr & Ht & _).
  assert (Hnt : nonl t) by (eapply forallb_nonl; [|exact Ht]; reflexivity).
  assert (Hok : nl_ok (x :: t)) by now apply nonl_cons_ok.
  destruct (lookup_keyword (x :: t)) as [[[k v] ty]|] eqn:Hk.
  - step_ex t; [assumption|]. act_tok. eapply lookup_keyword_kind; eassumption.
  - assert (Hid : step_ok x r i (mk_step (ATok KIdentifier 0%Z None (i + 1 + lenN t)) r1 (i + 1 + lenN t))).
    { step_ex t; [assumption|]. act_tok. }
    destruct r1 as [|y r2]; [exact Hid|].
    destruct (N.eqb_spec y 33) as [->|Hy]; [|exact Hid].
    step_ex (t ++ [33]).
    + subst r. rewrite <- app_assoc. reflexivity.
    + act_tok. apply nonl_cons_ok; [assumption|]. apply nonl_app; [assumption|]. constructor; [lia|constructor].
Qed.

Lemma suffixed_ok x seg v sfx i e2 :
  nl_ok (x :: seg) -> i <= e2 -> act_ok x seg i e2 (suffixed v sfx i e2).
Proof.
  intros Hn Hie. unfold suffixed. destruct (parse_integer_suffix sfx); [act_tok|act_err].
Qed.

Lemma lex_decimal_ok x r i : x <> 10 -> step_ok x r i (lex_decimal_with push x r i).
Proof.
  intros Hx. unfold lex_decimal_with.
  rewrite scan_dec_span. destruct (span_while (digit_byte dec_digit) r) as [t r1] eqn:Hd. apply (span_while_adv _ _ _ _ (i + 1) eq_refl) in Hd.
  destruct (span_while is_ident_cont r1) as [sfx r2] eqn:Hs. apply (span_while_adv _ _ _ _ (i + 1 + lenN t) eq_refl) in Hs.
  destruct (adv_trans _ _ _ _ _ _ Hd Hs) as (seg & Hr & He & Hn).
  assert (Hok : nl_ok (x :: seg)) by now apply nonl_cons_ok.
  step_ex seg; [assumption|].
  destruct (dov _); [act_err|].
  destruct sfx as [|c sfx']; [act_tok|]. apply suffixed_ok; [assumption|lia].
Qed.

Lemma zero_prefix_adv r e val eol e1 r1 : zero_prefix r e = (val, eol, e1, r1) -> adv e r e1 r1.
Proof.
  unfold zero_prefix. destruct r as [|y r'].
  - intros H; inversion H; subst. apply adv_refl.
  - destruct (N.eqb_spec y 120) as [->|Hx].
    + rewrite scan_hex_span. destruct (span_while (digit_byte hex_digit) r') as [t r2] eqn:Hh.
      apply (span_while_adv _ _ _ _ (e + 1) eq_refl) in Hh.
      destruct (hdigits _); intros H; inversion H; subst; (apply adv_step; [lia|assumption]).
    + destruct (N.eqb_spec y 98) as [->|Hb].
      * destruct (scan_bin 0 0 (e + 1) r') as [[[nd v] e2] r2] eqn:Hh.
        apply scan_bin_adv in Hh.
        destruct (128 <? nd); [|destruct (0 <? nd)]; intros H; inversion H; subst;
          (apply adv_step; [lia|assumption]).
      * intros H; inversion H; subst. apply adv_refl.
Qed.

Lemma lex_zero_ok r i : step_ok 48 r i (lex_zero r i).
Proof.
  unfold lex_zero.
  destruct (zero_prefix r (i + 1)) as [[[val eol] e1] r1] eqn:Hz. apply zero_prefix_adv in Hz.
  destruct (span_while is_ident_cont r1) as [t r2] eqn:Hs. apply (span_while_adv _ _ _ _ e1 eq_refl) in Hs.
  destruct (adv_trans _ _ _ _ _ _ Hz Hs) as (seg & Hr & He & Hn).
  assert (Hok : nl_ok (48 :: seg)) by (apply nonl_cons_ok; [lia|assumption]).
  step_ex seg; [assumption|].
  destruct val as [v|]; [|act_err].
  destruct ((v =? 0) && (e1 + lenN t =? i + 1)); [act_tok|].
  destruct (e1 + lenN t =? eol); [act_tok|].
  apply suffixed_ok; [assumption|lia].
Qed.

Lemma lex_literal_ok fuel is_char q r i :
  (length r < fuel)%nat -> q <> 10 -> step_ok q r i (lex_literal fuel is_char q r i).
Proof.
  intros Hf Hq. unfold lex_literal.
  destruct (scan_lit_spec q (negb is_char) i fuel lit0 (i + 1) r) as (s & e & r' & Hsc & (seg & Hr & He & Hn) & Hfe);
    [assumption|lia|exact I|].
  rewrite Hsc.
  assert (Hok : nl_ok (q :: seg)) by (apply nl_ok_cons; assumption).
  step_ex seg; [assumption|].
  unfold finish_lit.
  set (s' := if lclosed s then s else lit_err E160 e e s).
  assert (Hfe' : ferr_ok i e s').
  { subst s'. destruct (lclosed s); [assumption|]. apply ferr_ok_err; try lia. assumption. }
  unfold ferr_ok in Hfe'. destruct (ferr s') as [[[c st] en]|]; [act_err|].
  destruct is_char; [|act_tok].
  destruct (nb s' =? 1); [act_tok|act_err].
Qed.

Theorem lex_step_ok_gen fuel x r i : (length r < fuel)%nat -> step_ok x r i (lex_step_with push fuel x r i).
Proof.
  intros Hf. unfold lex_step_with.
  destruct ((x =? 32) || (x =? 9) || (x =? 13)) eqn:Hws.
  { step_ex (@nil N); [reflexivity|]. cbn [act_ok]. apply nl_ok_nonl.
    constructor; [|constructor]. intros ->. discriminate. }
  destruct (N.eqb_spec x 10) as [->|Hx10].
  { step_ex (@nil N); [reflexivity|]. cbn [act_ok]. auto. }
  assert (Hx1 : nl_ok [x]) by (apply nl_ok_nonl; constructor; [assumption|constructor]).
  destruct (N.eqb_spec x 47) as [->|Hx47].
  { assert (Hdiv : step_ok 47 r i (mk_step (ATok KDivide 0%Z None (i + 1)) r (i + 1))).
    { step_ex (@nil N); [reflexivity|]. act_tok. }
    destruct r as [|y r']; [exact Hdiv|].
    destruct (N.eqb_spec y 47) as [->|Hy]; [|exact Hdiv].
    destruct (span_while (fun z => negb (z =? 10)) r') as [t r''] eqn:Hs.
    apply (span_while_adv _ _ _ _ (i + 1 + 1) eq_refl) in Hs as (seg & -> & He & Hn).
    step_ex (47 :: seg); [reflexivity|]. cbn [act_ok].
    apply nl_ok_nonl. constructor; [lia|]. constructor; [lia|exact Hn]. }
  destruct (assoc_N x punct_table) as [[seconds k1]|] eqn:Hp.
  { apply punct_kinds in Hp as (Hk1 & Hk2).
    assert (Hone : step_ok x r i (mk_step (ATok k1 0%Z None (i + 1)) r (i + 1))).
    { step_ex (@nil N); [reflexivity|]. act_tok. }
    destruct r as [|y r']; [exact Hone|].
    destruct (assoc_N y seconds) as [k2|] eqn:H2; [|exact Hone].
    destruct (Hk2 _ _ H2) as [Hk Hy].
    step_ex [y]; [reflexivity|]. act_tok.
    apply nl_ok_nonl. repeat constructor; assumption. }
  destruct (is_ident_start x); [now apply lex_ident_ok|].
  destruct (N.eqb_spec x 48) as [->|Hx48]; [apply lex_zero_ok|].
  destruct (in_range 49 57 x); [now apply lex_decimal_ok|].
  destruct (N.eqb_spec x 39) as [->|Hx39]; [apply lex_literal_ok; [assumption|lia]|].
  destruct (N.eqb_spec x 34) as [->|Hx34]; [apply lex_literal_ok; [assumption|lia]|].
  step_ex (@nil N); [reflexivity|]. act_err.
Qed.

(* the loop has not run out of fuel; [F] if it could not allocate, [P] of what it returns *)
Definition lr_all (F : Prop) (P : list tok -> N -> N -> Prop) (r : loop_result) : Prop :=
  match r with
  | OutOfFuel => False
  | AllocFail _ => F
  | Done t a c _ => P t a c
  end.
Lemma lr_all_panic F P p r : lr_all F P (lr_panic p r) <-> lr_all F P r.
Proof. destruct r; reflexivity. Qed.
Lemma lr_all_cons F (P : list tok -> N -> N -> Prop) t r :
  lr_all F (fun l a c => P (t :: l) a c) r -> lr_all F P (lr_cons t r).
Proof. destruct r; auto. Qed.
Lemma lr_all_impl (F G : Prop) (P Q : list tok -> N -> N -> Prop) r :
  (F -> G) -> (forall l a c, P l a c -> Q l a c) -> lr_all F P r -> lr_all G Q r.
Proof. destruct r; cbn; auto. Qed.

(* [lr_all True P], written out; the three lemmas below are those of [lr_all] by conversion *)
Definition lr_prop (P : list tok -> N -> N -> Prop) (r : loop_result) : Prop :=
  match r with
  | OutOfFuel => False
  | AllocFail _ => True
  | Done t a c _ => P t a c
  end.
Lemma lr_prop_panic P p r : lr_prop P (lr_panic p r) <-> lr_prop P r.
Proof. exact (lr_all_panic True P p r). Qed.
Lemma lr_prop_cons (P : list tok -> N -> N -> Prop) t r :
  lr_prop (fun l a c => P (t :: l) a c) r -> lr_prop P (lr_cons t r).
Proof. exact (lr_all_cons True P t r). Qed.
Lemma lr_prop_impl (P Q : list tok -> N -> N -> Prop) r :
  (forall l a c, P l a c -> Q l a c) -> lr_prop P r -> lr_prop Q r.
Proof. exact (lr_all_impl True True P Q r (fun H => H)). Qed.

Definition is_error (t : tok) : bool := match kind t with KError => true | _ => false end.
Fixpoint count_err (l : list tok) : N :=
  match l with
  | [] => 0
  | t :: r => (if is_error t then 1 else 0) + count_err r
  end.

Lemma is_error_mk_tok k v ty st en ln sol : k <> KError -> is_error (mk_tok k v ty st en ln sol) = false.
Proof. unfold is_error. cbn. destruct k; congruence. Qed.

(* the postcondition of the main loop started on [rest] at line [ln] with [ntok] tokens and
   [nerr] errors already in the buffers: what it says of the tokens [toks] the loop returns *)
Definition loop_post (cap errcap ntok nerr ln : N) (rest : list N) (toks : list tok) : Prop :=
  ntok + lenT toks + 2 <= cap /\
  lenT toks <= lenN rest /\
  (nerr <= errcap -> nerr + count_err toks <= errcap) /\
  (errcap <= nerr -> count_err toks = 0) /\
  Forall (fun t => ln <= line t) toks.

(* The main loop does two things at once.  It cuts the source into tokens, which depends on the
   position and the line only; it fills the buffers, which depends on the kinds of the tokens only.
   [scan] is the first without the second: every token of [rest], every error included, and the
   line state at the end (never [AllocFail], the flag always [false]).  [fill] is the second, over
   any list of tokens: those that reach the buffer, or [None] for TokenAllocError. *)
Fixpoint scan (fuel : nat) (rest : list N) (pos ln sol : N) : loop_result :=
  match fuel with
  | O => OutOfFuel
  | S f =>
      match rest with
      | [] => Done [] ln sol false
      | x :: r =>
          let s := lex_step_with push f x r pos in
          match act s with
          | AFuel => OutOfFuel
          | ASkip => scan f (srest s) (send s) ln sol
          | ANewline => scan f (srest s) (send s) (ln + 1) (pos + 1)
          | ATok k v ty en => lr_cons (mk_tok k v ty pos en ln sol) (scan f (srest s) (send s) ln sol)
          | AErr c st en => lr_cons (mk_tok KError c None st en ln sol) (scan f (srest s) (send s) ln sol)
          end
      end
  end.

Fixpoint fill (cap errcap : N) (l : list tok) (ntok npay nerr : N) : option (list tok) :=
  match l with
  | [] => if cap <=? ntok + 1 then None else Some []
  | t :: l' =>
      if is_error t && (errcap <=? nerr) then fill cap errcap l' ntok npay nerr
      else if (has_payload (kind t) && (MAX_NUM_PAYLOADS <=? npay)) || (cap <=? ntok) then None
      else option_map (cons t) (fill cap errcap l' (ntok + 1) (if has_payload (kind t) then npay + 1 else npay)
                                     (if is_error t then nerr + 1 else nerr))
  end.

Definition noflag (r : loop_result) : loop_result :=
  match r with
  | OutOfFuel => OutOfFuel
  | AllocFail _ => AllocFail false
  | Done l a c _ => Done l a c false
  end.

Lemma lr_all_noflag F P r : lr_all F P (noflag r) -> lr_all F P r.
Proof. now destruct r. Qed.

(* the two together are the main loop, up to the flag; and what [scan] alone decides: a token
   per byte at most, lines that only grow *)
Theorem lex_loop_split cap errcap : forall fuel rest pos ln sol, (length rest < fuel)%nat ->
  lr_all False
    (fun l a c => lenT l <= lenN rest /\ Forall (fun t => ln <= line t) l /\
       forall ntok npay nerr,
         noflag (lex_loop_with push fuel rest pos ln sol ntok npay nerr cap errcap) =
         match fill cap errcap l ntok npay nerr with Some t => Done t a c false | None => AllocFail false end)
    (scan fuel rest pos ln sol).
Proof.
  assert (Hp : forall p r, noflag (lr_panic p r) = noflag r) by (intros p [| |]; reflexivity).
  assert (Hc : forall t r, noflag (lr_cons t r) = lr_cons t (noflag r)) by (intros t [| |]; reflexivity).
  induction fuel as [|f IH]; intros rest pos ln sol Hf; [lia|].
  cbn [lex_loop_with scan]. destruct rest as [|x r].
  - cbn [lr_all]. split; [rewrite lenT_nil; lia|]. split; [constructor|]. intros ntok npay nerr.
    cbn [fill]. now destruct (cap <=? ntok + 1).
  - cbn [length] in Hf. remember (lex_step_with push f x r pos) as s eqn:Hs.
    destruct (lex_step_ok_gen f x r pos ltac:(lia)) as (seg & Hr & _ & Hact). rewrite <- Hs in *.
    assert (Hlen : lenN (srest s) < lenN (x :: r)) by (rewrite Hr, lenN_cons, lenN_app; lia).
    assert (Hf' : (length (srest s) < f)%nat) by (rewrite Hr, app_length in Hf; lia).
    pose proof (fun ln' sol' => IH (srest s) (send s) ln' sol' Hf') as Hrec. clear IH Hs Hr Hf Hf'.
    destruct (act s) as [| |k v ty en|c st en|]; cbn [act_ok] in Hact; [| | | |contradiction].
    + eapply lr_all_impl; [| |apply Hrec]; [auto|]. cbn beta. intros l a c (H1 & H2 & H3).
      split; [lia|]. split; [exact H2|]. intros. now rewrite Hp, H3.
    + eapply lr_all_impl; [| |apply Hrec]; [auto|]. cbn beta. intros l a c (H1 & H2 & H3).
      split; [lia|]. split; [eapply Forall_impl; [|exact H2]; cbn beta; intros; lia|]. intros. now rewrite Hp, H3.
    + destruct Hact as (_ & _ & Hk). apply lr_all_cons. eapply lr_all_impl; [| |apply Hrec]; [auto|]. cbn beta.
      intros l a c (H1 & H2 & H3). split; [rewrite lenT_cons; lia|]. split; [constructor; [cbn; lia|exact H2]|].
      intros ntok npay nerr. rewrite Hp. cbn [fill]. rewrite (is_error_mk_tok _ _ _ _ _ _ _ Hk). cbn [mk_tok kind andb].
      destruct ((has_payload k && (MAX_NUM_PAYLOADS <=? npay)) || (cap <=? ntok)); [reflexivity|].
      rewrite Hc, H3. now destruct (fill cap errcap l _ _ _).
    + apply lr_all_cons. eapply lr_all_impl; [| |apply Hrec]; [auto|]. cbn beta.
      intros l a c0 (H1 & H2 & H3). split; [rewrite lenT_cons; lia|]. split; [constructor; [cbn; lia|exact H2]|].
      intros ntok npay nerr. rewrite Hp. cbn [fill is_error mk_tok kind has_payload andb orb].
      destruct (errcap <=? nerr); [now rewrite H3|]. destruct (cap <=? ntok); [reflexivity|].
      rewrite Hc, H3. now destruct (fill cap errcap l _ _ _).
Qed.

(* what the buffers alone guarantee, whatever the tokens offered: [None] only when the tokens or
   the payloads could outgrow their buffers if every token offered were pushed *)
Lemma fill_post cap errcap : forall l ntok npay nerr,
  match fill cap errcap l ntok npay nerr with
  | None => cap < ntok + lenT l + 2 \/ MAX_NUM_PAYLOADS < npay + lenT l
  | Some t => ntok + lenT t + 2 <= cap /\ lenT t <= lenT l /\
              (nerr <= errcap -> nerr + count_err t <= errcap) /\ (errcap <= nerr -> count_err t = 0) /\
              (forall P, Forall P l -> Forall P t)
  end.
Proof.
  induction l as [|t l IH]; intros ntok npay nerr; cbn [fill].
  - destruct (N.leb_spec cap (ntok + 1)); rewrite ?lenT_nil; cbn [count_err]; repeat split; try lia. auto.
  - rewrite lenT_cons. destruct (is_error t && (errcap <=? nerr)) eqn:Ed.
    + apply andb_true_iff in Ed as [_ He%N.leb_le]. specialize (IH ntok npay nerr).
      destruct (fill cap errcap l ntok npay nerr); [|lia].
      destruct IH as (H1 & H2 & H3 & H4 & H5). repeat split; try lia. intros P HP. apply H5. now inversion HP.
    + destruct ((has_payload (kind t) && (MAX_NUM_PAYLOADS <=? npay)) || (cap <=? ntok)) eqn:Hfull.
      * apply orb_true_iff in Hfull as [[_ H]%andb_true_iff|H]; apply N.leb_le in H; lia.
      * apply orb_false_iff in Hfull as [_ H%N.leb_gt].
        specialize (IH (ntok + 1) (if has_payload (kind t) then npay + 1 else npay) (if is_error t then nerr + 1 else nerr)).
        destruct (fill cap errcap l (ntok + 1) _ _); cbn [option_map]; [|destruct (has_payload (kind t)); lia].
        destruct IH as (H1 & H2 & H3 & H4 & H5). rewrite lenT_cons. cbn [count_err].
        destruct (is_error t); cbn [andb] in Ed; [apply N.leb_gt in Ed|];
          (repeat split; try lia; intros P HP; inversion HP; subst; constructor; auto).
Qed.

(* with room for every token offered, nothing is dropped and nothing fails *)
Lemma fill_id cap errcap : forall l ntok npay nerr,
  ntok + lenT l + 2 <= cap -> npay + lenT l <= MAX_NUM_PAYLOADS -> nerr + count_err l <= errcap ->
  fill cap errcap l ntok npay nerr = Some l.
Proof.
  induction l as [|t l IH]; intros ntok npay nerr Hc Hp He; cbn [fill]; rewrite ?lenT_cons, ?lenT_nil in *.
  - destruct (N.leb_spec cap (ntok + 1)); [lia|reflexivity].
  - cbn [count_err] in He. destruct (N.leb_spec cap ntok); [lia|].
    destruct (N.leb_spec MAX_NUM_PAYLOADS npay); [lia|]. rewrite andb_false_r. cbn [orb].
    destruct (is_error t); cbn [andb]; [destruct (N.leb_spec errcap nerr); [lia|]|];
      (rewrite IH by (try destruct (has_payload (kind t)); lia); reflexivity).
Qed.

(* the loop keeps [loop_post], and fails to allocate only when the tokens or the payloads
   could outgrow their buffers if every remaining byte were one *)
Lemma lex_loop_all cap errcap : forall fuel rest pos ln sol ntok npay nerr,
  (length rest < fuel)%nat ->
  lr_all (cap < ntok + lenN rest + 2 \/ MAX_NUM_PAYLOADS < npay + lenN rest)
         (fun toks _ _ => loop_post cap errcap ntok nerr ln rest toks)
         (lex_loop_with push fuel rest pos ln sol ntok npay nerr cap errcap).
Proof.
  intros fuel rest pos ln sol ntok npay nerr Hf. apply lr_all_noflag.
  pose proof (lex_loop_split cap errcap fuel rest pos ln sol Hf) as H.
  destruct (scan fuel rest pos ln sol) as [| |l a c p]; cbn [lr_all] in H; try contradiction.
  destruct H as (H1 & H2 & ->). pose proof (fill_post cap errcap l ntok npay nerr) as Hfill.
  destruct (fill cap errcap l ntok npay nerr) as [t|]; cbn [lr_all]; [|lia].
  destruct Hfill as (F1 & F2 & F3 & F4 & F5). unfold loop_post. repeat split; auto; lia.
Qed.

Lemma token_capacity_bounds n : 65536 <= token_capacity n <= MAX_NUM_TOKENS.
Proof. unfold token_capacity, MAX_NUM_TOKENS. lia. Qed.

Lemma lex_result_run src r : lex_result_with push src = LexRun r ->
  r = lex_loop_with push (S (length src)) src 0 1 0 0 1 0 (token_capacity (lenN src)) (error_capacity (lenN src)).
Proof.
  unfold lex_result_with. destruct (lenN src =? 0); [discriminate|].
  destruct (MAX_SOURCE_LEN <? lenN src); [discriminate|]. now intros [= <-].
Qed.

Lemma lex_result_inv src r : lex_result_with push src = LexRun r ->
  lr_all (token_capacity (lenN src) < 0 + lenN src + 2 \/ MAX_NUM_PAYLOADS < 1 + lenN src)
         (fun toks _ _ => loop_post (token_capacity (lenN src)) (error_capacity (lenN src)) 0 0 1 src toks) r.
Proof.
  intros H. apply lex_result_run in H as ->. apply lex_loop_all. lia.
Qed.

Lemma lex_result_post src toks ln sol p : lex_result_with push src = LexRun (Done toks ln sol p) ->
  loop_post (token_capacity (lenN src)) (error_capacity (lenN src)) 0 0 1 src toks.
Proof. exact (lex_result_inv src _). Qed.

Definition blank (x : N) : bool := (x =? 32) || (x =? 9) || (x =? 13) || (x =? 10).
(* a punctuation byte that no second byte extends *)
Definition solo (x : N) : bool :=
  match assoc_N x punct_table with Some ([], _) => true | _ => false end.

Lemma solo_step x : solo x = true -> exists k, has_payload k = false /\
  forall f r i, lex_step_with push f x r i = mk_step (ATok k 0%Z None (i + 1)) r (i + 1).
Proof.
  unfold solo. destruct (assoc_N x punct_table) as [[[|] k]|] eqn:Hp; try discriminate. intros _.
  exists k. split.
  - apply assoc_N_In, (in_map snd) in Hp. pose proof punct_table_good as HF. rewrite Forall_forall in HF. apply (HF _ Hp).
  - intros f r i. rewrite (step_punct f x _ _ r i Hp). now destruct r.
Qed.

Lemma lr_panic_false r : lr_panic false r = r.
Proof. destruct r; reflexivity. Qed.

(* texts of [k] solo bytes among blanks and line comments *)
Inductive solo_text : N -> list N -> Prop :=
| st_nil : solo_text 0 []
| st_solo x k t : solo x = true -> solo_text k t -> solo_text (k + 1) (x :: t)
| st_blank x k t : blank x = true -> solo_text k t -> solo_text k (x :: t)
| st_comment body k t : nonl body -> solo_text k (10 :: t) -> solo_text k (47 :: 47 :: body ++ 10 :: t).

Lemma solo_text_app a s : solo_text a s -> forall b t, solo_text b t -> solo_text (a + b) (s ++ t).
Proof.
  induction 1 as [|x k s Hx _ IH|x k s Hx _ IH|body k s Hb _ IH]; intros b t Ht; cbn [app].
  - exact Ht.
  - replace (k + 1 + b) with (k + b + 1) by lia. constructor; auto.
  - constructor; auto.
  - rewrite <- app_assoc. cbn [app]. constructor; [exact Hb|]. now apply (IH b t).
Qed.

Lemma solo_text_repeat x n : solo x = true -> solo_text (N.of_nat n) (repeat x n).
Proof.
  intros Hx. induction n as [|n IH]; [constructor|].
  rewrite Nat2N.inj_succ, <- N.add_1_r. now constructor.
Qed.

Lemma lex_step_comment f body t pos : nonl body ->
  lex_step_with push f 47 (47 :: body ++ 10 :: t) pos = mk_step ASkip (10 :: t) (pos + 1 + 1 + lenN body).
Proof.
  intros Hb. rewrite step_slash. cbn [slash_arm N.eqb Pos.eqb]. now rewrite span_while_line.
Qed.

(* every solo byte is one token, so the loop fails exactly when their number plus
   the two end tokens exceeds the capacity *)
Lemma lex_loop_solo cap errcap k rest : solo_text k rest ->
  forall fuel pos ln sol ntok npay nerr, (length rest < fuel)%nat ->
  match lex_loop_with push fuel rest pos ln sol ntok npay nerr cap errcap with
  | OutOfFuel => False
  | AllocFail _ => cap < ntok + k + 2
  | Done toks _ _ _ => lenT toks = k /\ ntok + k + 2 <= cap
  end.
Proof.
  induction 1 as [|x k t Hx _ IH|x k t Hx _ IH|body k t Hb _ IH]; intros [|f] pos ln sol ntok npay nerr Hf;
    cbn [length] in Hf; try lia; cbn [lex_loop_with].
  - destruct (N.leb_spec cap (ntok + 1)); llia.
  - destruct (solo_step x Hx) as (kd & Hk & Hst). rewrite Hst. cbn [act srest send spanic mk_step].
    rewrite Hk. cbn [andb orb]. destruct (N.leb_spec cap ntok); cbn [lr_panic]; [lia|].
    specialize (IH f (pos + 1) ln sol (ntok + 1) npay nerr ltac:(lia)).
    destruct (lex_loop_with push f t _ _ _ _ _ _ _ _); cbn [lr_cons lr_panic]; llia.
  - unfold blank in Hx. unfold lex_step_with.
    destruct ((x =? 32) || (x =? 9) || (x =? 13)); cbn [orb] in Hx; [|rewrite Hx];
      cbn [act srest send spanic mk_step]; rewrite lr_panic_false; apply IH; lia.
  - rewrite lex_step_comment by exact Hb. cbn [act srest send spanic mk_step]. rewrite lr_panic_false.
    apply IH. rewrite app_length in Hf. cbn [length] in *. lia.
Qed.

Theorem lex_delta_solo k src : solo_text k src -> 0 < lenN src <= MAX_SOURCE_LEN ->
  if token_capacity (lenN src) <? k + 2
  then lex_delta_with push src = [err_tok0 E103] /\ num_end_tokens_with push src = 0
  else lenT (lex_delta_with push src) = k /\ num_end_tokens_with push src = 2.
Proof.
  intros Hst Hlen. unfold lex_delta_with, num_end_tokens_with, lex_result_with.
  destruct (N.eqb_spec (lenN src) 0); [lia|]. destruct (N.ltb_spec MAX_SOURCE_LEN (lenN src)); [lia|].
  pose proof (lex_loop_solo (token_capacity (lenN src)) (error_capacity (lenN src)) k src Hst
                (S (length src)) 0 1 0 0 1 0 ltac:(lia)) as Hs.
  destruct (lex_loop_with push _ _ _ _ _ _ _ _ _ _); [contradiction| |];
    destruct (N.ltb_spec (token_capacity (lenN src)) (k + 2)); try lia; split; tauto.
Qed.

(* a source that one iteration of the loop consumes whole *)
Lemma lex_delta_single x r t : lenN (x :: r) <= MAX_SOURCE_LEN ->
  let s := lex_step_with push (S (length r)) x r 0 in
  srest s = [] ->
  match act s with
  | ATok k v ty en => t = mk_tok k v ty 0 en 1 0
  | AErr c st en => t = mk_tok KError c None st en 1 0
  | _ => False
  end ->
  lex_delta_with push (x :: r) = [t].
Proof.
  intros Hlen s Hr Ht. unfold lex_delta_with, lex_result_with.
  destruct (N.eqb_spec (lenN (x :: r)) 0) as [H0|_]; [rewrite lenN_cons in H0; lia|].
  destruct (N.ltb_spec MAX_SOURCE_LEN (lenN (x :: r))) as [H1|_]; [lia|].
  pose proof (token_capacity_bounds (lenN (x :: r))) as Hc.
  cbn [lex_loop_with length]. fold s. rewrite Hr.
  destruct (N.leb_spec (token_capacity (lenN (x :: r))) 0) as [H2|_]; [lia|].
  destruct (N.leb_spec (token_capacity (lenN (x :: r))) (0 + 1 + 1)) as [H2|_]; [lia|].
  destruct (act s) as [| |k v ty en|c st en|]; try contradiction; subst t.
  - replace (MAX_NUM_PAYLOADS <=? 1) with false by reflexivity. rewrite andb_false_r.
    reflexivity.
  - destruct (N.leb_spec (error_capacity (lenN (x :: r))) 0) as [H2|_].
    { unfold error_capacity, MAX_NUM_LEXING_ERRORS in H2. rewrite lenN_cons in H2. lia. }
    reflexivity.
Qed.

End Generic.

Lemma dfold_no_panic push : (forall a d, dpanic a = false -> dpanic (push a d) = false) ->
  forall l a, dpanic a = false -> dpanic (dfold dec_digit push a l) = false.
Proof.
  intros Hpush. induction l as [|y r IH]; intros a Ha; cbn [dfold]; [exact Ha|].
  apply IH. destruct (dec_digit y); auto.
Qed.

Lemma lex_step_no_panic push f x r i :
  (forall a d, dpanic a = false -> dpanic (push a d) = false) ->
  spanic (lex_step_with push f x r i) = false.
Proof.
  intros Hpush. unfold lex_step_with. destruct (_ || _); [reflexivity|]. destruct (x =? 10); [reflexivity|].
  destruct (x =? 47).
  { destruct r as [|y r']; [reflexivity|]. destruct (y =? 47); [|reflexivity]. now destruct (span_while _ r'). }
  destruct (assoc_N x punct_table) as [[seconds k1]|].
  { destruct r as [|y r']; [reflexivity|]. now destruct (assoc_N y seconds). }
  destruct (is_ident_start x).
  { unfold lex_ident. destruct (span_while _ r) as [t r1].
    destruct (lookup_keyword (x :: t)) as [[[k v] ty]|]; [reflexivity|].
    destruct r1 as [|y r2]; [reflexivity|]. now destruct (y =? 33). }
  destruct (x =? 48).
  { unfold lex_zero. destruct (zero_prefix r (i + 1)) as [[[val eol] e1] r1]. now destruct (span_while _ r1). }
  destruct (in_range 49 57 x).
  { unfold lex_decimal_with. rewrite scan_dec_span. destruct (span_while (digit_byte dec_digit) r) as [t r1].
    destruct (span_while _ r1). now apply dfold_no_panic. }
  destruct (x =? 39); [unfold lex_literal; now destruct (scan_lit _ _ _ _ _ _) as [[[s e] r']|]|].
  destruct (x =? 34); [unfold lex_literal; now destruct (scan_lit _ _ _ _ _ _) as [[[s e] r']|]|]. reflexivity.
Qed.

Definition lr_flag (r : loop_result) : bool :=
  match r with OutOfFuel => false | AllocFail p => p | Done _ _ _ p => p end.

Lemma lex_loop_no_panic push cap errcap :
  (forall a d, dpanic a = false -> dpanic (push a d) = false) ->
  forall fuel rest pos ln sol ntok npay nerr,
    lr_flag (lex_loop_with push fuel rest pos ln sol ntok npay nerr cap errcap) = false.
Proof.
  intros Hpush. induction fuel as [|f IH]; intros rest pos ln sol ntok npay nerr; [reflexivity|].
  cbn [lex_loop_with]. destruct rest as [|x r].
  - destruct (cap <=? ntok + 1); reflexivity.
  - rewrite (lex_step_no_panic push f x r pos Hpush).
    assert (Hp : forall r0, lr_flag r0 = false -> lr_flag (lr_panic false r0) = false) by (intros [| |]; auto).
    assert (Hc : forall t r0, lr_flag r0 = false -> lr_flag (lr_cons t r0) = false) by (intros t [| |]; auto).
    apply Hp. destruct (act (lex_step_with push f x r pos)) as [| |k v ty en|c st en|]; try apply IH; try reflexivity.
    + destruct ((has_payload k && (MAX_NUM_PAYLOADS <=? npay)) || (cap <=? ntok)); [reflexivity|]. apply Hc, IH.
    + destruct (errcap <=? nerr); [apply IH|]. destruct (cap <=? ntok); [reflexivity|]. apply Hc, IH.
Qed.

(* [dec_push] never raises the flag, and no other arm has one *)
Theorem would_overflow_panic_never : forall src, would_overflow_panic src = false.
Proof.
  intros src. unfold would_overflow_panic, would_overflow_panic_with, lex_result_with.
  destruct (lenN src =? 0); [reflexivity|]. destruct (MAX_SOURCE_LEN <? lenN src); [reflexivity|].
  pose proof (lex_loop_no_panic dec_push (token_capacity (lenN src)) (error_capacity (lenN src))
                ltac:(intros a d H; exact H) (S (length src)) src 0 1 0 0 1 0) as H.
  destruct (lex_loop_with dec_push _ _ _ _ _ _ _ _ _ _) as [|p|toks ln sol p]; [reflexivity|exact H|exact H].
Qed.

(* [push] = [dec_push], the CURRENT lexer *)
Theorem lex_step_ok fuel x r i : (length r < fuel)%nat -> step_ok x r i (lex_step fuel x r i).
Proof. apply (lex_step_ok_gen dec_push). Qed.
(* progress: every iteration consumes at least the byte it looked at *)
Corollary lex_step_progress fuel x r i : (length r < fuel)%nat ->
  (length (srest (lex_step fuel x r i)) <= length r)%nat /\ i < send (lex_step fuel x r i).
Proof.
  intros Hf. destruct (lex_step_ok fuel x r i Hf) as (seg & Hr & He & _).
  rewrite Hr at 2. rewrite app_length. split; lia.
Qed.

(* the fuel length + 1 is always enough *)
Theorem total_result src : lex_result src <> LexRun OutOfFuel.
Proof. exact (lex_result_inv dec_push src OutOfFuel). Qed.

Theorem total src : lex_delta src <> [out_of_fuel_tok].
Proof.
  unfold lex_delta, lex_delta_with. destruct (lex_result_with dec_push src) as [| |[|p|toks ln sol p]] eqn:Hr; try discriminate.
  - exfalso. eapply total_result; eassumption.
  - apply lex_result_post in Hr as (_ & _ & _ & _ & Hl). intros ->.
    inversion Hl as [|? ? H1 _]; subst. cbn in H1. lia.
Qed.

(* the `unsafe set_len` argument: unless the lexer reports E103, all tokens,
   the two EndOfSource tokens included, were written below the capacity *)
Theorem token_push_in_bounds src :
  lex_delta src = [err_tok0 E103] \/
  lenT (lex_delta src) + num_end_tokens src <= token_capacity (lenN src).
Proof.
  unfold lex_delta, lex_delta_with, num_end_tokens, num_end_tokens_with.
  pose proof (token_capacity_bounds (lenN src)) as Hc.
  destruct (lex_result_with dec_push src) as [| |[|p|toks ln sol p]] eqn:Hr.
  - right. cbn. lia.
  - right. cbn. lia.
  - right. cbn. lia.
  - now left.
  - right. apply lex_result_post in Hr as (H1 & _). lia.
Qed.

(* the same, on the run itself: the last write index is [lenT toks + 1] *)
Theorem token_push_in_bounds_run src toks ln sol p :
  lex_result src = LexRun (Done toks ln sol p) -> lenT toks + 1 < token_capacity (lenN src).
Proof. intros Hr. apply (lex_result_post dec_push) in Hr as (H1 & _). lia. Qed.

(* every token consumes at least one byte *)
Theorem tokens_le_bytes src toks ln sol p :
  lex_result src = LexRun (Done toks ln sol p) -> lenT toks <= lenN src.
Proof. intros Hr. apply (lex_result_post dec_push) in Hr as (_ & H2 & _). exact H2. Qed.

Theorem tokens_le_bytes_plus_k src : lenT (lex_delta src) + num_end_tokens src <= lenN src + 2.
Proof.
  unfold lex_delta, lex_delta_with, num_end_tokens, num_end_tokens_with.
  destruct (lex_result_with dec_push src) as [| |[|p|toks ln sol p]] eqn:Hr; try (cbn; lia).
  apply tokens_le_bytes in Hr. lia.
Qed.

(* E103 is impossible below 65535 bytes, by the condition [lex_loop_all] gives for a failed
   allocation (ex_too_many_tokens shows that 65535 bytes can already trigger it) *)
Theorem no_E103_small src : lenN src + 2 <= 65536 -> lex_delta src <> [err_tok0 E103].
Proof.
  intros Hlen. unfold lex_delta, lex_delta_with.
  destruct (lex_result_with dec_push src) as [| |[|p|toks ln sol p]] eqn:Hr; try discriminate.
  - exfalso. apply lex_result_inv in Hr. cbn [lr_all] in Hr.
    pose proof (token_capacity_bounds (lenN src)). unfold MAX_NUM_PAYLOADS in Hr. lia.
  - apply lex_result_post in Hr as (_ & _ & _ & _ & Hl). intros ->.
    inversion Hl as [|? ? H1 _]; subst. cbn in H1. lia.
Qed.

(* at most MAX_NUM_LEXING_ERRORS error tokens exist (an error after the cap leaves no token
   at all: the first branch of [AErr] in [lex_loop_with]) *)
Theorem errors_capped src : count_err (lex_delta src) <= MAX_NUM_LEXING_ERRORS.
Proof.
  unfold lex_delta, lex_delta_with, MAX_NUM_LEXING_ERRORS.
  destruct (lex_result_with dec_push src) as [| |[|p|toks ln sol p]] eqn:Hr; try (cbn; lia).
  apply lex_result_post in Hr as (_ & _ & H3 & _). unfold error_capacity, MAX_NUM_LEXING_ERRORS in H3. lia.
Qed.

Theorem errors_capped_by_length src toks ln sol p :
  lex_result src = LexRun (Done toks ln sol p) -> count_err toks <= error_capacity (lenN src).
Proof. intros Hr. apply (lex_result_post dec_push) in Hr as (_ & _ & H3 & _). lia. Qed.

(* once the cap is reached the rest of the source yields no error token at all *)
Theorem errors_dropped_after_cap cap errcap fuel rest pos ln sol ntok npay nerr toks l2 s2 p :
  (length rest < fuel)%nat -> errcap <= nerr ->
  lex_loop fuel rest pos ln sol ntok npay nerr cap errcap = Done toks l2 s2 p ->
  count_err toks = 0.
Proof.
  intros Hf Hc H. pose proof (lex_loop_all dec_push cap errcap fuel rest pos ln sol ntok npay nerr Hf) as Hinv.
  unfold lex_loop in H. rewrite H in Hinv. destruct Hinv as (_ & _ & _ & H4 & _). auto.
Qed.

Lemma lenN_map (f : tok -> N) l : lenN (map f l) = lenT l.
Proof. unfold lenN, lenT. rewrite map_length. reflexivity. Qed.

Lemma lex_delta_parens k : 0 < k <= MAX_SOURCE_LEN ->
  if token_capacity k <? k + 2
  then lex_delta (repeat 40 (N.to_nat k)) = [err_tok0 E103] /\ num_end_tokens (repeat 40 (N.to_nat k)) = 0
  else lenT (lex_delta (repeat 40 (N.to_nat k))) = k /\ num_end_tokens (repeat 40 (N.to_nat k)) = 2.
Proof.
  intros Hk. assert (Hl : lenN (repeat 40 (N.to_nat k)) = k) by (unfold lenN; rewrite repeat_length; lia).
  pose proof (lex_delta_solo dec_push k (repeat 40 (N.to_nat k))) as H. rewrite Hl in H. apply H; [|exact Hk].
  rewrite <- (N2Nat.id k) at 1. now apply solo_text_repeat.
Qed.

(* E103: 65535 one-byte tokens + 2 end tokens do not fit the 65536 slots.  The source
   stays folded: rewriting only, no conversion may start evaluating the lexer on it. *)
Example ex_too_many_tokens :
  (lex_delta (repeat 40 (N.to_nat 65535)), num_end_tokens (repeat 40 (N.to_nat 65535)),
   lenN (map tstart (lex_delta (repeat 40 (N.to_nat 65534))))) = ([T KError E103 None 0 0 0 0], 0, 65534).
Proof.
  pose proof (lex_delta_parens 65535 ltac:(unfold MAX_SOURCE_LEN; lia)) as H1.
  pose proof (lex_delta_parens 65534 ltac:(unfold MAX_SOURCE_LEN; lia)) as H2.
  replace (token_capacity 65535 <? 65535 + 2) with true in H1 by reflexivity.
  replace (token_capacity 65534 <? 65534 + 2) with false in H2 by reflexivity.
  destruct H1 as [H1 H1']. destruct H2 as [H2 _].
  rewrite H1, H1', lenN_map, H2. reflexivity.
Qed.

Fixpoint dec_value (acc : N) (l : list N) : N :=
  match l with
  | [] => acc
  | y :: r => match dec_digit y with
              | Some d => dec_value (acc * 10 + d) r
              | None => dec_value acc r
              end
  end.
Fixpoint hex_value (acc : N) (l : list N) : N :=
  match l with
  | [] => acc
  | y :: r => match hex_digit y with
              | Some d => hex_value (acc * 16 + d) r
              | None => hex_value acc r
              end
  end.
Definition is_dec_body (l : list N) : bool := forallb (fun y => in_range 48 57 y || (y =? 95)) l.
Definition is_hex_body (l : list N) : bool :=
  forallb (fun y => match hex_digit y with Some _ => true | None => y =? 95 end) l.
Definition has_hex_digit (l : list N) : bool :=
  existsb (fun y => match hex_digit y with Some _ => true | None => false end) l.
(* the literal is followed by the end of the source or by a byte that cannot
   continue an identifier (otherwise that byte starts a type suffix) *)
Definition ends_token (tail : list N) : bool :=
  match tail with [] => true | y :: _ => negb (is_ident_cont y) end.

(* `a & 15` of digits.rs is the remainder modulo 16, in the form [lia] takes *)
Lemma land15 y : exists q, y = 16 * q + N.land y 15 /\ N.land y 15 < 16.
Proof.
  exists (y / 16). change 15 with (N.ones 4). rewrite N.land_ones. split; [apply N.div_mod'|now apply N.mod_lt].
Qed.

Lemma dec_digit_spec y : in_range 48 57 y = true -> dec_digit y = Some (y - 48) /\ y - 48 <= 9.
Proof.
  intros H. unfold dec_digit. rewrite H. apply N_between_iff in H. destruct (land15 y) as (q & Hq & Hlt).
  split; [f_equal|]; lia.
Qed.
Lemma dec_digit_le9 y d : dec_digit y = Some d -> d <= 9 /\ is_ident_cont y = true.
Proof.
  unfold dec_digit. destruct (in_range 48 57 y) eqn:Hr; [|discriminate].
  destruct (dec_digit_spec y Hr) as [Hd Hle]. unfold dec_digit in Hd. rewrite Hr in Hd.
  intros H. rewrite H in Hd. inversion Hd; subst. split; [assumption|].
  unfold is_ident_cont. rewrite Hr. apply orb_true_iff. left. apply orb_true_r.
Qed.

Lemma ends_token_spec tail : ends_token tail = true -> stops_at is_ident_cont tail.
Proof. destruct tail; [exact (fun _ => I)|apply negb_true_iff]. Qed.

Lemma span_while_sfx sfxs tail : forallb is_ident_cont sfxs = true -> ends_token tail = true ->
  span_while is_ident_cont (sfxs ++ tail) = (sfxs, tail).
Proof. intros Hs Ht. apply span_while_all; [exact Hs|]. now apply ends_token_spec. Qed.

(* the scanner of binary digits, and the test for `x`/`b` behind a leading 0, stop at [rest]:
   its first byte is none of theirs (for the other two scanners that is [stops_at] of their
   [digit_byte]).  So it is for a byte that ends the token (digits and the underscore continue
   an identifier) and for the `i` or `u` of a type suffix. *)
Definition bin_stops (rest : list N) : Prop :=
  match rest with [] => True | y :: _ => (y =? 48) = false /\ (y =? 49) = false /\ (y =? 95) = false end.
Definition zero_stops (rest : list N) : Prop :=
  match rest with [] => True | y :: _ => (y =? 120) = false /\ (y =? 98) = false end.

Lemma dec_value_mono : forall l acc, acc <= dec_value acc l.
Proof.
  induction l as [|y l IH]; intros acc; cbn [dec_value]; [lia|].
  destruct (dec_digit y); [|apply IH]. etransitivity; [|apply IH]. lia.
Qed.

(* the accumulator tracks the mathematical value [m] until it reaches 2^128, and
   remembers that it did *)
Definition dinv (a : dacc) (m : N) : Prop :=
  (dov a = false -> dval a = m /\ m < two128) /\ (dov a = true -> two128 <= m).

(* CURRENT code: both steps are checked, the invariant holds unconditionally *)
Lemma dec_push_inv a m d : dinv a m -> dinv (dec_push a d) (m * 10 + d).
Proof.
  intros [H0 H1]. unfold dec_push, dinv. cbn [dval dov].
  destruct (dov a).
  - specialize (H1 eq_refl). cbn [orb]. split; [discriminate|]. intros _. lia.
  - destruct (H0 eq_refl) as [Hv Hm]. rewrite Hv in *. cbn [orb].
    destruct (N.leb_spec two128 (m * 10)) as [Hov|Hov]; cbn [orb].
    + split; [discriminate|]. intros _. lia.
    + destruct (N.leb_spec two128 (m * 10 + d)) as [Hov2|Hov2].
      * split; [discriminate|]. intros _. lia.
      * split; [|discriminate]. intros _. split; [reflexivity|lia].
Qed.

Lemma dec_push_keeps_panic a d : dpanic (dec_push a d) = dpanic a.
Proof. reflexivity. Qed.

Lemma dfold_inv : forall l a m, dinv a m -> dinv (dfold dec_digit dec_push a l) (dec_value m l).
Proof.
  induction l as [|y l IH]; intros a m Hi; cbn [dfold dec_value] in *; [exact Hi|].
  destruct (dec_digit y) as [d|] eqn:Hd; [|apply IH; assumption].
  apply IH. apply dec_push_inv. assumption.
Qed.

Lemma lex_step_decimal push f x r i : in_range 49 57 x = true ->
  lex_step_with push f x r i = lex_decimal_with push x r i.
Proof.
  intros H. assert (Hc : x = 49 \/ x = 50 \/ x = 51 \/ x = 52 \/ x = 53 \/ x = 54 \/ x = 55 \/ x = 56 \/ x = 57).
  { apply N_between_iff in H. lia. }
  (* the tests of [lex_step_with] before the decimal arm compute only on a literal [x] *)
  repeat (destruct Hc as [->|Hc]; [reflexivity|]). subst. reflexivity.
Qed.

Lemma first_digit x : in_range 49 57 x = true -> N.land x 15 = x - 48.
Proof.
  intros H. apply N_between_iff in H. destruct (land15 x) as (q & Hq & Hlt). lia.
Qed.

(* one step of the main loop on a decimal literal with a type suffix [sfxs] (possibly
   empty) behind it, anywhere in a source: no side condition on the value *)
Theorem decimal_step_sfx f x body sfxs tail i :
  in_range 49 57 x = true -> is_dec_body body = true ->
  forallb is_ident_cont sfxs = true -> stops_at (digit_byte dec_digit) (sfxs ++ tail) -> ends_token tail = true ->
  let s := lex_step f x (body ++ sfxs ++ tail) i in
  let M := dec_value (x - 48) body in
  let e := i + 1 + lenN body + lenN sfxs in
  srest s = tail /\ send s = e /\
  act s = if M <? two128
          then match sfxs with
               | [] => ATok KNakedDecimal (Z.of_N M) None e
               | _ :: _ => suffixed M sfxs i e
               end
          else AErr E140 i e.
Proof.
  intros Hx Hb Hs Hst Ht. cbv zeta. unfold lex_step. rewrite lex_step_decimal by assumption. unfold lex_decimal_with.
  rewrite scan_dec_span, span_while_all; [rewrite span_while_sfx by assumption| |exact Hst].
  2:{ apply forallb_forall. intros y Hy. unfold is_dec_body in Hb. rewrite forallb_forall in Hb. rewrite <- (Hb y Hy).
      unfold digit_byte, dec_digit. now destruct (in_range 48 57 y). }
  cbn [srest send act].
  rewrite first_digit by assumption.
  set (a0 := {| dval := x - 48; dov := false; dpanic := false |}).
  assert (Hx48 : x - 48 <= 9) by (apply N_between_iff in Hx; lia).
  assert (Hi0 : dinv a0 (x - 48)).
  { split; [|discriminate]. intros _. split; [reflexivity|]. unfold two128. lia. }
  split; [reflexivity|]. split; [reflexivity|].
  destruct (dfold_inv body a0 _ Hi0) as [H0 H1].
  destruct (dov (dfold dec_digit dec_push a0 body)).
  - specialize (H1 eq_refl). destruct (N.ltb_spec (dec_value (x - 48) body) two128); [lia|reflexivity].
  - destruct (H0 eq_refl) as [Hv Hm]. rewrite Hv.
    destruct (N.ltb_spec (dec_value (x - 48) body) two128); [reflexivity|lia].
Qed.

(* a source consisting of one decimal literal (CURRENT code): KNakedDecimal M
   below 2^128, E140 from 2^128 on, no side condition *)
Theorem decimal_value_delta x body :
  in_range 49 57 x = true -> is_dec_body body = true -> lenN (x :: body) <= MAX_SOURCE_LEN ->
  let M := dec_value (x - 48) body in
  let n := lenN (x :: body) in
  lex_delta (x :: body) =
    [if M <? two128 then mk_tok KNakedDecimal (Z.of_N M) None 0 n 1 0 else mk_tok KError E140 None 0 n 1 0].
Proof.
  intros Hx Hb Hlen. cbv zeta.
  pose proof (decimal_step_sfx (S (length body)) x body [] [] 0 Hx Hb eq_refl I eq_refl) as Hs.
  cbv zeta in Hs. cbn [app] in Hs. rewrite app_nil_r in Hs. destruct Hs as (Hr & _ & Ha).
  eapply (lex_delta_single dec_push x body _ Hlen Hr). fold lex_step. rewrite Ha.
  replace (lenN (x :: body)) with (0 + 1 + lenN body + lenN []) by (rewrite lenN_cons, lenN_nil; lia).
  destruct (dec_value (x - 48) body <? two128); reflexivity.
Qed.

Section PushExt.
Variables p1 p2 : dacc -> N -> dacc.
Hypothesis Hp : forall a d, p1 a d = p2 a d.

Lemma dfold_ext : forall l a, dfold dec_digit p1 a l = dfold dec_digit p2 a l.
Proof. induction l as [|y r IH]; intros a; cbn [dfold]; [reflexivity|]. destruct (dec_digit y); now rewrite ?Hp. Qed.

Lemma lex_step_with_ext f x r i : lex_step_with p1 f x r i = lex_step_with p2 f x r i.
Proof. unfold lex_step_with, lex_decimal_with. cbv zeta. rewrite !scan_dec_span.
  destruct (span_while (digit_byte dec_digit) r). now rewrite dfold_ext.
Qed.

Lemma lex_loop_with_ext cap errcap : forall fuel rest pos ln sol ntok npay nerr,
  lex_loop_with p1 fuel rest pos ln sol ntok npay nerr cap errcap =
  lex_loop_with p2 fuel rest pos ln sol ntok npay nerr cap errcap.
Proof.
  induction fuel as [|f IH]; intros rest pos ln sol ntok npay nerr; cbn [lex_loop_with]; [reflexivity|].
  destruct rest as [|x r]; [reflexivity|]. rewrite lex_step_with_ext.
  destruct (act (lex_step_with p2 f x r pos)); rewrite ?IH; reflexivity.
Qed.

Lemma lex_result_with_ext src : lex_result_with p1 src = lex_result_with p2 src.
Proof. unfold lex_result_with. cbv zeta. rewrite lex_loop_with_ext. reflexivity. Qed.
End PushExt.

(* [dec_push_pinned] with the wrap of `value += digit` done by one subtraction: the
   kernel divides 128-bit numbers slowly, and the test vectors below run the pinned
   lexer on 39 to 77 digits *)
Definition dec_push_pinned_sub (a : dacc) (d : N) : dacc :=
  let m := dval a * 10 in
  let ov := two128 <=? m in
  let s := (if ov then 0 else m) + d in
  {| dval := if s <? two128 then s else if s - two128 <? two128 then s - two128 else s mod two128;
     dov := dov a || ov; dpanic := dpanic a || (two128 <=? s) |}.

Lemma dec_push_pinned_sub_eq a d : dec_push_pinned a d = dec_push_pinned_sub a d.
Proof.
  unfold dec_push_pinned, dec_push_pinned_sub. cbv zeta.
  set (s := (if two128 <=? dval a * 10 then 0 else dval a * 10) + d). f_equal.
  destruct (N.ltb_spec s two128); [now apply N.mod_small|].
  destruct (N.ltb_spec (s - two128) two128); [|reflexivity].
  symmetry. apply N.mod_unique with (q := 1); [assumption|lia].
Qed.

Lemma lex_delta_pinned_sub src : lex_delta_pinned src = lex_delta_with dec_push_pinned_sub src.
Proof.
  unfold lex_delta_pinned, lex_delta_with. now rewrite (lex_result_with_ext _ _ dec_push_pinned_sub_eq).
Qed.
Lemma would_overflow_panic_pinned_sub src :
  would_overflow_panic_pinned src = would_overflow_panic_with dec_push_pinned_sub src.
Proof.
  unfold would_overflow_panic_pinned, would_overflow_panic_with.
  now rewrite (lex_result_with_ext _ _ dec_push_pinned_sub_eq).
Qed.

(* D4 (repaired in 81d8d87): in the PINNED code 2^128 .. 2^128+3 wrapped around
   (release) / panicked (debug); the CURRENT code reports E140 *)
Example ex_decimal_wrap :
  (lex_delta_pinned (bs "340282366920938463463374607431768211456"),
   would_overflow_panic_pinned (bs "340282366920938463463374607431768211456"),
   lex_delta (bs "340282366920938463463374607431768211456"),
   would_overflow_panic (bs "340282366920938463463374607431768211456")) =
  ([T KNakedDecimal 0 None 0 39 1 0], true, [T KError E140 None 0 39 1 0], false).
Proof. rewrite lex_delta_pinned_sub, would_overflow_panic_pinned_sub. vm_compute. reflexivity. Qed.
Example ex_decimal_wrap3 :
  (lex_delta_pinned (bs "340282366920938463463374607431768211459u8"), lex_delta (bs "340282366920938463463374607431768211459u8")) =
  ([T KSuffixedInteger 3 (Some (TyPrim Uint8)) 0 41 1 0], [T KError E140 None 0 41 1 0]).
Proof. rewrite lex_delta_pinned_sub. vm_compute. reflexivity. Qed.
Example ex_decimal_wrap_longer :
  (lex_delta_pinned (bs "3402823669209384634633746074317682114577"), lex_delta (bs "3402823669209384634633746074317682114577")) =
  ([T KNakedDecimal 17 None 0 40 1 0], [T KError E140 None 0 40 1 0]).
Proof. rewrite lex_delta_pinned_sub. vm_compute. reflexivity. Qed.
(* after a checked_mul overflow the accumulator restarts at 0, so the unchecked add can
   still overflow later: E140 in release, panic in debug *)
Example ex_decimal_late_panic :
  let s := bs "99999999999999999999999999999999999999340282366920938463463374607431768211456" in
  (lex_delta_pinned s, would_overflow_panic_pinned s, lex_delta s, would_overflow_panic s) =
  ([T KError E140 None 0 77 1 0], true, [T KError E140 None 0 77 1 0], false).
Proof. cbv zeta. rewrite lex_delta_pinned_sub, would_overflow_panic_pinned_sub. vm_compute. reflexivity. Qed.

(* floor(2^128 / 10): the one accumulator value from which `value * 10` fits and `+ digit` may not *)
Definition K_wrap : N := 34028236692093846346337460743176821145.

(* exactly which accumulator/digit pairs made `value += digit` overflow *)
Lemma dec_push_pinned_panics_iff a d : d <= 9 -> dval a < two128 -> dpanic a = false ->
  (dpanic (dec_push_pinned a d) = true <-> dval a = K_wrap /\ 6 <= d).
Proof.
  intros Hd Hv Hp. unfold dec_push_pinned. cbn [dpanic]. rewrite Hp. cbn [orb].
  unfold two128, K_wrap in *.
  destruct (N.leb_spec 340282366920938463463374607431768211456 (dval a * 10)) as [Hm|Hm].
  - rewrite N.add_0_l. split.
    + intros H. apply N.leb_le in H. lia.
    + intros [H1 H2]. lia.
  - split.
    + intros H. apply N.leb_le in H. lia.
    + intros [H1 H2]. apply N.leb_le. lia.
Qed.

(* the natural statement (E140 for EVERY value >= 2^128) was false for the pinned
   code: the literal 2^128 itself lexed to NakedDecimal 0 in a release build and
   panicked in a debug build.  The current code gives E140. *)
Theorem decimal_value_delta_refuted :
  exists x body,
    in_range 49 57 x = true /\ is_dec_body body = true /\ lenN (x :: body) <= MAX_SOURCE_LEN /\
    two128 <= dec_value (x - 48) body /\
    lex_delta_pinned (x :: body) = [mk_tok KNakedDecimal 0 None 0 39 1 0] /\
    would_overflow_panic_pinned (x :: body) = true /\
    lex_delta (x :: body) = [mk_tok KError E140 None 0 39 1 0].
Proof.
  exists 51, (bs "40282366920938463463374607431768211456").
  rewrite lex_delta_pinned_sub, would_overflow_panic_pinned_sub. vm_compute. repeat split; discriminate.
Qed.

(* pinned: all four values 2^128 .. 2^128+3 wrapped to 0 .. 3; current: E140 *)
Example decimal_wrap_window :
  map (fun s => (map (fun t => (kind t, value t)) (lex_delta_pinned s), map (fun t => (kind t, value t)) (lex_delta s)))
      [bs "340282366920938463463374607431768211455"; bs "340282366920938463463374607431768211456";
       bs "340282366920938463463374607431768211457"; bs "340282366920938463463374607431768211458";
       bs "340282366920938463463374607431768211459"; bs "340282366920938463463374607431768211460"] =
  [([(KNakedDecimal, 340282366920938463463374607431768211455%Z)], [(KNakedDecimal, 340282366920938463463374607431768211455%Z)]);
   ([(KNakedDecimal, 0%Z)], [(KError, E140)]); ([(KNakedDecimal, 1%Z)], [(KError, E140)]);
   ([(KNakedDecimal, 2%Z)], [(KError, E140)]); ([(KNakedDecimal, 3%Z)], [(KError, E140)]);
   ([(KError, E140)], [(KError, E140)])].
Proof.
  erewrite map_ext; [|intros s; rewrite lex_delta_pinned_sub; reflexivity]. vm_compute. reflexivity.
Qed.

Lemma hex_digit_cont y h : hex_digit y = Some h -> is_ident_cont y = true.
Proof.
  unfold hex_digit, is_ident_cont, is_alpha.
  destruct (in_range 65 70 y) eqn:H1.
  { apply N_between_iff in H1. replace (in_range 65 90 y) with true by (symmetry; apply N_between_iff; lia).
    now rewrite orb_true_r. }
  destruct (in_range 97 102 y) eqn:H2.
  { apply N_between_iff in H2. now replace (in_range 97 122 y) with true by (symmetry; apply N_between_iff; lia). }
  destruct (in_range 48 57 y); [now rewrite orb_true_r|discriminate].
Qed.

Lemma hex_digit_lt16 y h : hex_digit y = Some h -> h < 16.
Proof.
  unfold hex_digit. destruct (land15 y) as (q & Hq & Hlt).
  destruct (in_range 65 70 y) eqn:H1; [apply N_between_iff in H1|
  destruct (in_range 97 102 y) eqn:H2; [apply N_between_iff in H2|
  destruct (in_range 48 57 y) eqn:H3; [|discriminate]]]; intros [= <-]; lia.
Qed.

Lemma land_shiftl_small m h k : h < 2 ^ k -> N.land (N.shiftl m k) h = 0.
Proof.
  intros Hh. apply N.bits_inj. intros n. rewrite N.land_spec, N.bits_0.
  destruct (N.lt_ge_cases n k) as [Hn|Hn].
  - rewrite N.shiftl_spec_low by assumption. reflexivity.
  - destruct (N.eq_dec h 0) as [->|Hh0]; [rewrite N.bits_0; apply andb_false_r|].
    rewrite (N.bits_above_log2 h n); [apply andb_false_r|].
    apply N.lt_le_trans with k; [|assumption]. apply N.log2_lt_pow2; lia.
Qed.

Lemma lor_shiftl_add m h k : h < 2 ^ k -> N.lor (N.shiftl m k) h = m * 2 ^ k + h.
Proof.
  intros Hh. rewrite <- N.lxor_lor by (apply land_shiftl_small; assumption).
  rewrite <- N.add_nocarry_lxor by (apply land_shiftl_small; assumption).
  rewrite N.shiftl_mul_pow2. reflexivity.
Qed.

Lemma lor_mul16 m h : h < 16 -> N.lor (m * 16) h = m * 16 + h.
Proof.
  intros Hh. pose proof (lor_shiftl_add m h 4 Hh) as H. rewrite N.shiftl_mul_pow2 in H. exact H.
Qed.

Definition hinv (a : hacc) (m : N) : Prop :=
  (hov a = false -> hval a = m /\ m < two128) /\ (hov a = true -> two128 <= m).

Lemma hex_push_inv a m h : h < 16 -> hinv a m -> hinv (hex_push a h) (m * 16 + h).
Proof.
  intros Hh [H0 H1]. unfold hex_push, hinv. cbn [hval hov].
  destruct (hov a).
  - specialize (H1 eq_refl). cbn [orb]. split; [discriminate|]. intros _. lia.
  - destruct (H0 eq_refl) as [Hv Hm]. rewrite Hv in *. cbn [orb].
    destruct (N.leb_spec two128 (m * 16)) as [Hov|Hov].
    + split; [discriminate|]. intros _. lia.
    + split; [|discriminate]. intros _. rewrite lor_mul16 by assumption.
      split; [reflexivity|]. unfold two128 in *. lia.
Qed.

Lemma hfold_inv : forall l a m, hinv a m -> hinv (dfold hex_digit hex_push a l) (hex_value m l).
Proof.
  induction l as [|y l IH]; intros a m Hi; cbn [dfold hex_value]; [exact Hi|].
  destruct (hex_digit y) as [d|] eqn:Hd; [|apply IH; assumption].
  apply IH. apply hex_push_inv; [eapply hex_digit_lt16; eassumption|assumption].
Qed.

Lemma hfold_digits : forall l a, hdigits (dfold hex_digit hex_push a l) = hdigits a || has_hex_digit l.
Proof.
  induction l as [|y l IH]; intros a; cbn [dfold has_hex_digit existsb]; [now rewrite orb_false_r|].
  rewrite IH. destruct (hex_digit y); cbn [hex_push hdigits orb]; [now rewrite orb_true_r|reflexivity].
Qed.

(* the arm for a leading 0 once [zero_prefix] has read [lit0 ++ lit1], of which [lit0] (nothing,
   `x..` or `b..`) is the literal: what it read past the literal ([lit1]: a prefix character
   without digits, or binary digits beyond the 129th) and the identifier characters [sfxs] behind
   it are cut out of the source again by [slice] as the type suffix *)
Lemma lex_zero_lit lit0 lit1 sfxs tail i val e1 :
  zero_prefix (lit0 ++ lit1 ++ sfxs ++ tail) (i + 1) = (val, i + 1 + lenN lit0, e1, sfxs ++ tail) ->
  e1 = i + 1 + lenN lit0 + lenN lit1 -> (forall v, val = Some v -> lit0 = [] -> v = 0) ->
  forallb is_ident_cont sfxs = true -> ends_token tail = true ->
  let e := e1 + lenN sfxs in
  lex_zero (lit0 ++ lit1 ++ sfxs ++ tail) i =
    mk_step match val with
            | None => AErr E140 i e
            | Some v =>
                match lit1 ++ sfxs with
                | [] => ATok (match lit0 with [] => KNakedDecimal | _ :: _ => KBitInteger end) (Z.of_N v) None e
                | _ :: _ => suffixed v (lit1 ++ sfxs) i e
                end
            end tail e.
Proof.
  intros Hz -> Hv Hs Ht. cbv zeta. unfold lex_zero. rewrite Hz, span_while_sfx by assumption.
  destruct val as [v|]; [|reflexivity].
  rewrite (app_assoc lit1 sfxs tail), slice_mid by (rewrite ?lenN_app; lia).
  pose proof (lenN_app lit1 sfxs) as El. destruct (lit1 ++ sfxs) as [|y l] eqn:E.
  - apply app_eq_nil in E as [-> ->]. rewrite !lenN_nil, !N.add_0_r, (N.eqb_refl (i + 1 + lenN lit0)).
    destruct lit0 as [|c lit0].
    + rewrite (Hv v eq_refl eq_refl), lenN_nil, N.add_0_r, !N.eqb_refl. reflexivity.
    + replace (i + 1 + lenN (c :: lit0) =? i + 1) with false by (symmetry; apply N.eqb_neq; llia).
      rewrite andb_false_r. reflexivity.
  - rewrite lenN_cons in El.
    replace (i + 1 + lenN lit0 + lenN lit1 + lenN sfxs =? i + 1) with false by (symmetry; apply N.eqb_neq; lia).
    replace (i + 1 + lenN lit0 + lenN lit1 + lenN sfxs =? i + 1 + lenN lit0) with false by (symmetry; apply N.eqb_neq; lia).
    rewrite andb_false_r. reflexivity.
Qed.

Theorem zero_step_sfx f sfxs tail i :
  forallb is_ident_cont sfxs = true -> zero_stops (sfxs ++ tail) -> ends_token tail = true ->
  let s := lex_step f 48 (sfxs ++ tail) i in
  let e := i + 1 + lenN sfxs in
  srest s = tail /\ send s = e /\
  act s = match sfxs with [] => ATok KNakedDecimal 0 None e | _ :: _ => suffixed 0 sfxs i e end.
Proof.
  intros Hs Hst Ht. cbv zeta. change (lex_step f 48 (sfxs ++ tail) i) with (lex_zero ([] ++ [] ++ sfxs ++ tail) i).
  rewrite (lex_zero_lit [] [] sfxs tail i (Some 0) (i + 1)); try assumption.
  - destruct sfxs; repeat split.
  - cbn [app]. rewrite lenN_nil, N.add_0_r. unfold zero_prefix.
    destruct (sfxs ++ tail) as [|y t]; [reflexivity|]. destruct Hst as [-> ->]. reflexivity.
  - llia.
  - intros v [= <-] _. reflexivity.
Qed.

(* `0x` and what follows, with or without a digit: without one the literal is the `0`, and `x`,
   the underscores and [sfxs] are taken for the type suffix *)
Theorem hex_step_sfx f body sfxs tail i :
  is_hex_body body = true ->
  forallb is_ident_cont sfxs = true -> stops_at (digit_byte hex_digit) (sfxs ++ tail) -> ends_token tail = true ->
  let s := lex_step f 48 (120 :: body ++ sfxs ++ tail) i in
  let M := hex_value 0 body in
  let e := i + 2 + lenN body + lenN sfxs in
  srest s = tail /\ send s = e /\
  act s = if has_hex_digit body
          then if M <? two128
               then match sfxs with
                    | [] => ATok KBitInteger (Z.of_N M) None e
                    | _ :: _ => suffixed M sfxs i e
                    end
               else AErr E140 i e
          else suffixed 0 (120 :: body ++ sfxs) i e.
Proof.
  intros Hb Hs Hst Ht. cbv zeta.
  set (a := dfold hex_digit hex_push {| hval := 0; hdigits := false; hov := false |} body).
  assert (Hi : hinv a (hex_value 0 body)).
  { apply hfold_inv. split; [|discriminate]. intros _. split; [reflexivity|]. unfold two128. lia. }
  assert (Hz : zero_prefix (120 :: body ++ sfxs ++ tail) (i + 1) =
            if has_hex_digit body then ((if hov a then None else Some (hval a)), i + 1 + 1 + lenN body, i + 1 + 1 + lenN body, sfxs ++ tail)
            else (Some 0, i + 1, i + 1 + 1 + lenN body, sfxs ++ tail)).
  { unfold zero_prefix. now rewrite N.eqb_refl, scan_hex_span, span_while_all, hfold_digits. }
  replace (i + 2 + lenN body + lenN sfxs) with (i + 1 + 1 + lenN body + lenN sfxs) by lia.
  destruct (has_hex_digit body).
  - change (lex_step f 48 (120 :: body ++ sfxs ++ tail) i) with (lex_zero ((120 :: body) ++ [] ++ sfxs ++ tail) i).
    rewrite (lex_zero_lit (120 :: body) [] sfxs tail i (if hov a then None else Some (hval a)) (i + 1 + 1 + lenN body)); try assumption; [|cbn [app]; rewrite Hz, lenN_cons; do 3 f_equal; lia|llia|discriminate].
    cbn [srest send act mk_step]. split; [reflexivity|]. split; [reflexivity|]. destruct Hi as [H0 H1]. destruct (hov a).
    + specialize (H1 eq_refl). destruct (N.ltb_spec (hex_value 0 body) two128); [lia|reflexivity].
    + destruct (H0 eq_refl) as [-> Hm]. destruct (N.ltb_spec (hex_value 0 body) two128); [reflexivity|lia].
  - change (lex_step f 48 (120 :: body ++ sfxs ++ tail) i) with (lex_zero ([] ++ (120 :: body) ++ sfxs ++ tail) i).
    rewrite (lex_zero_lit [] (120 :: body) sfxs tail i (Some 0) (i + 1 + 1 + lenN body)); try assumption;
      [repeat split|now rewrite lenN_nil, N.add_0_r|llia|now intros v [= <-]].
Qed.

(* hexadecimal: exact for every value (checked_mul followed by `|=` cannot wrap, so the
   model gives this arm no flag: the second conjunct is [would_overflow_panic_never]) *)
Theorem hex_value_delta body :
  is_hex_body body = true -> has_hex_digit body = true -> lenN (48 :: 120 :: body) <= MAX_SOURCE_LEN ->
  let M := hex_value 0 body in
  let n := lenN (48 :: 120 :: body) in
  lex_delta (48 :: 120 :: body) =
    [if M <? two128 then mk_tok KBitInteger (Z.of_N M) None 0 n 1 0 else mk_tok KError E140 None 0 n 1 0]
  /\ would_overflow_panic (48 :: 120 :: body) = false.
Proof.
  intros Hb Hd Hlen. cbv zeta.
  split; [|apply would_overflow_panic_never].
  pose proof (hex_step_sfx (S (length (120 :: body))) body [] [] 0 Hb eq_refl I eq_refl) as Hs.
  cbv zeta in Hs. cbn [app] in Hs. rewrite app_nil_r, Hd in Hs. destruct Hs as (Hr & _ & Ha).
  eapply (lex_delta_single dec_push 48 (120 :: body) _ Hlen Hr). fold lex_step. rewrite Ha.
  replace (lenN (48 :: 120 :: body)) with (0 + 2 + lenN body + lenN []) by (rewrite !lenN_cons, lenN_nil; lia).
  destruct (hex_value 0 body <? two128); reflexivity.
Qed.

Fixpoint bin_value (acc : N) (l : list N) : N :=
  match l with
  | [] => acc
  | y :: r => if y =? 48 then bin_value (acc * 2) r
              else if y =? 49 then bin_value (acc * 2 + 1) r
              else bin_value acc r
  end.
Fixpoint bin_digits (l : list N) : N :=
  match l with
  | [] => 0
  | y :: r => (if (y =? 48) || (y =? 49) then 1 else 0) + bin_digits r
  end.
Definition is_bin_body (l : list N) : bool := forallb (fun y => (y =? 48) || (y =? 49) || (y =? 95)) l.

Lemma two128_pow : two128 = 2 ^ 128.
Proof. reflexivity. Qed.

Lemma pow2_le_two128 n : n <= 128 -> 2 ^ n <= two128.
Proof. intros H. rewrite two128_pow. apply N.pow_le_mono_r; lia. Qed.

(* one byte of a binary body: [d] digits more, the machine value [v1] (shifted in 128
   bits), the mathematical value [w1]; they agree while the digits fit *)
Lemma scan_bin_byte y nd v e : (y =? 48) || (y =? 49) || (y =? 95) = true -> nd <= 128 ->
  exists d v1 w1, d <= 1 /\
    (forall r, scan_bin nd v e (y :: r) = scan_bin (nd + d) v1 (e + 1) r) /\
    (forall l, bin_digits (y :: l) = d + bin_digits l) /\
    (forall l, bin_value v (y :: l) = bin_value w1 l) /\
    (v < 2 ^ nd -> nd + d <= 128 -> v1 = w1 /\ w1 < 2 ^ (nd + d)).
Proof.
  intros Hy Hnd. cbn [scan_bin bin_digits bin_value]. destruct (N.ltb_spec 128 nd) as [Hc|_]; [lia|].
  assert (Hfit : v < 2 ^ nd -> nd + 1 <= 128 -> (v * 2) mod two128 = v * 2 /\ v * 2 + 1 < 2 ^ (nd + 1)).
  { intros Hv Hle. pose proof (pow2_le_two128 (nd + 1) Hle). rewrite (N.add_1_r nd), N.pow_succ_r' in *.
    split; [apply N.mod_small|]; lia. }
  pose proof (lor_shiftl_add v 1 1 ltac:(reflexivity)) as Hlor.
  rewrite N.shiftl_mul_pow2, N.pow_1_r in *.
  destruct (N.eqb_spec y 48) as [->|H48]; [|destruct (N.eqb_spec y 49) as [->|H49]]; cbn [orb] in *.
  - exists 1, (v * 2 mod two128), (v * 2). split; [lia|]. do 3 (split; [reflexivity|]).
    intros Hv Hle. destruct (Hfit Hv Hle) as [-> Hlt]. split; [reflexivity|lia].
  - exists 1, (N.lor (v * 2 mod two128) 1), (v * 2 + 1). split; [lia|]. do 3 (split; [reflexivity|]).
    intros Hv Hle. destruct (Hfit Hv Hle) as [-> Hlt]. rewrite Hlor. split; [reflexivity|exact Hlt].
  - rewrite Hy. exists 0, v, v. rewrite N.add_0_r. split; [lia|]. do 3 (split; [reflexivity|]). auto.
Qed.

Lemma scan_bin_body : forall body nd v e tail,
  is_bin_body body = true -> bin_stops tail ->
  nd + bin_digits body <= 128 -> v < 2 ^ nd ->
  scan_bin nd v e (body ++ tail) = (nd + bin_digits body, bin_value v body, e + lenN body, tail)
  /\ bin_value v body < 2 ^ (nd + bin_digits body).
Proof.
  induction body as [|y body IH]; intros nd v e tail Hb Ht Hnd Hv.
  - cbn [app bin_digits bin_value]. rewrite lenN_nil, !N.add_0_r. split; [|assumption].
    destruct tail as [|z t]; [reflexivity|]. destruct Ht as (H48 & H49 & H95).
    cbn [scan_bin]. rewrite H48, H49, H95.
    cbn [bin_digits] in Hnd. destruct (N.ltb_spec 128 nd); [lia|reflexivity].
  - cbn [is_bin_body forallb] in Hb. apply andb_true_iff in Hb as [Hy Hb].
    destruct (scan_bin_byte y nd v e Hy ltac:(lia)) as (d & v1 & w1 & _ & Hs & Hd & Hw & Hfit).
    cbn [app]. rewrite Hs, Hd, Hw, lenN_cons. rewrite Hd in Hnd. destruct (Hfit Hv ltac:(lia)) as [-> Hw1].
    destruct (IH (nd + d) w1 (e + 1) tail Hb Ht ltac:(lia) Hw1) as [-> IH2].
    rewrite <- N.add_assoc in *. replace (e + 1 + lenN body) with (e + (lenN body + 1)) by lia. auto.
Qed.

Lemma scan_bin_stop nd v e l : 128 < nd -> scan_bin nd v e l = (nd, v, e, l).
Proof. intros H. apply N.ltb_lt in H. destruct l; cbn [scan_bin]; [|rewrite H]; reflexivity. Qed.

(* more than 128 digits: the loop stops after the 129th digit *)
Lemma scan_bin_over : forall body nd v e tail,
  is_bin_body body = true -> nd <= 128 -> 128 < nd + bin_digits body ->
  exists v' pre post, body = pre ++ post /\
    scan_bin nd v e (body ++ tail) = (129, v', e + lenN pre, post ++ tail).
Proof.
  induction body as [|y body IH]; intros nd v e tail Hb Hnd Hov.
  - cbn [bin_digits] in Hov. lia.
  - cbn [is_bin_body forallb] in Hb. apply andb_true_iff in Hb as [Hy Hb].
    destruct (scan_bin_byte y nd v e Hy Hnd) as (d & v1 & w1 & Hd1 & Hs & Hd & _).
    cbn [app]. rewrite Hs. rewrite Hd in Hov. destruct (N.le_gt_cases (nd + d) 128) as [Hle|Hgt].
    + destruct (IH (nd + d) v1 (e + 1) tail Hb Hle ltac:(lia)) as (v' & pre & post & -> & Hsc).
      exists v', (y :: pre), post. split; [reflexivity|]. rewrite Hsc, lenN_cons. f_equal. f_equal. lia.
    + exists v1, [y], body. split; [reflexivity|]. rewrite scan_bin_stop by lia.
      replace (nd + d) with 129 by lia. reflexivity.
Qed.

Lemma bin_body_cont l : is_bin_body l = true -> forallb is_ident_cont l = true.
Proof.
  induction l as [|y l IH]; intros H; [reflexivity|].
  cbn [is_bin_body forallb] in *. apply andb_true_iff in H as [Hy Hl]. rewrite (IH Hl), andb_true_r.
  apply orb_true_iff in Hy as [Hy|Hy]; [apply orb_true_iff in Hy as [Hy|Hy]|];
    apply N.eqb_eq in Hy; subst; reflexivity.
Qed.

(* one step of the main loop on `0b` and what follows: without a digit the literal is the `0`
   (as for `0x`); otherwise the DIGIT COUNT decides, not the value *)
Theorem bin_step_sfx f body sfxs tail i :
  is_bin_body body = true ->
  forallb is_ident_cont sfxs = true -> bin_stops (sfxs ++ tail) -> ends_token tail = true ->
  let s := lex_step f 48 (98 :: body ++ sfxs ++ tail) i in
  let e := i + 2 + lenN body + lenN sfxs in
  srest s = tail /\ send s = e /\
  act s = if bin_digits body =? 0 then suffixed 0 (98 :: body ++ sfxs) i e
          else if bin_digits body <=? 128
          then match sfxs with
               | [] => ATok KBitInteger (Z.of_N (bin_value 0 body)) None e
               | _ :: _ => suffixed (bin_value 0 body) sfxs i e
               end
          else AErr E140 i e.
Proof.
  intros Hb Hs Hst Ht. cbv zeta.
  change (lex_step f 48 (98 :: body ++ sfxs ++ tail) i) with (lex_zero (98 :: body ++ sfxs ++ tail) i).
  assert (Hz : forall r, zero_prefix (98 :: r) (i + 1) =
            let '(nd, v, e1, r1) := scan_bin 0 0 (i + 1 + 1) r in
            if 128 <? nd then (None, i + 1, e1, r1) else if 0 <? nd then (Some v, e1, e1, r1) else (Some 0, i + 1, e1, r1))
    by reflexivity.
  destruct (N.leb_spec (bin_digits body) 128) as [Hle|Hgt]; [|replace (bin_digits body =? 0) with false by (symmetry; apply N.eqb_neq; lia)].
  - destruct (scan_bin_body body 0 0 (i + 1 + 1) (sfxs ++ tail) Hb Hst ltac:(lia) ltac:(reflexivity)) as [Hsc _].
    destruct (N.eqb_spec (bin_digits body) 0) as [H0|Hd].
    { change (98 :: body ++ sfxs ++ tail) with ([] ++ (98 :: body) ++ sfxs ++ tail).
      rewrite (lex_zero_lit [] (98 :: body) sfxs tail i (Some 0) (i + 1 + 1 + lenN body)); try assumption;
        [cbn [srest send act mk_step app]; replace (i + 1 + 1 + lenN body + lenN sfxs) with (i + 2 + lenN body + lenN sfxs) by lia;
         repeat split|cbn [app]; now rewrite Hz, Hsc, N.add_0_l, H0, lenN_nil, N.add_0_r|llia|now intros v [= <-]]. }
    change (98 :: body ++ sfxs ++ tail) with ((98 :: body) ++ [] ++ sfxs ++ tail).
    rewrite (lex_zero_lit (98 :: body) [] sfxs tail i (Some (bin_value 0 body)) (i + 1 + 1 + lenN body)); try assumption.
    + cbn [srest send act mk_step app]. replace (i + 1 + 1 + lenN body + lenN sfxs) with (i + 2 + lenN body + lenN sfxs) by lia.
      repeat split.
    + cbn [app]. rewrite Hz, Hsc, N.add_0_l, lenN_cons.
      destruct (N.ltb_spec 128 (bin_digits body)) as [Hc|_]; [lia|].
      destruct (N.ltb_spec 0 (bin_digits body)) as [_|Hc]; [|lia].
      replace (i + 1 + (lenN body + 1)) with (i + 1 + 1 + lenN body) by lia. reflexivity.
    + llia.
    + discriminate.
  - (* the scanner stops inside [body]: what is left of it goes to the suffix *)
    destruct (scan_bin_over body 0 0 (i + 1 + 1) (sfxs ++ tail) Hb ltac:(lia) ltac:(lia)) as (v' & pre & post & -> & Hsc).
    replace (98 :: (pre ++ post) ++ sfxs ++ tail) with ([] ++ (98 :: pre) ++ (post ++ sfxs) ++ tail)
      by (cbn [app]; now rewrite <- !app_assoc).
    rewrite (lex_zero_lit [] (98 :: pre) (post ++ sfxs) tail i None (i + 1 + 1 + lenN pre)); try assumption.
    + cbn [srest send act mk_step].
      replace (i + 1 + 1 + lenN pre + lenN (post ++ sfxs)) with (i + 2 + lenN (pre ++ post) + lenN sfxs) by llia.
      repeat split.
    + cbn [app]. rewrite <- !app_assoc in Hsc |- *. rewrite Hz, Hsc, lenN_nil, N.add_0_r. reflexivity.
    + llia.
    + discriminate.
    + apply bin_body_cont in Hb. rewrite forallb_app in *. apply andb_true_iff in Hb as [_ ->]. exact Hs.
Qed.

Theorem bin_value_delta body :
  is_bin_body body = true -> 1 <= bin_digits body -> lenN (48 :: 98 :: body) <= MAX_SOURCE_LEN ->
  let n := lenN (48 :: 98 :: body) in
  lex_delta (48 :: 98 :: body) =
    [if bin_digits body <=? 128 then mk_tok KBitInteger (Z.of_N (bin_value 0 body)) None 0 n 1 0
     else mk_tok KError E140 None 0 n 1 0].
Proof.
  intros Hb Hd Hlen. cbv zeta.
  pose proof (bin_step_sfx (S (length (98 :: body))) body [] [] 0 Hb eq_refl I eq_refl) as Hs.
  cbv zeta in Hs. cbn [app] in Hs. rewrite app_nil_r in Hs. destruct Hs as (Hr & _ & Ha).
  replace (bin_digits body =? 0) with false in Ha by (symmetry; apply N.eqb_neq; lia).
  eapply (lex_delta_single dec_push 48 (98 :: body) _ Hlen Hr). fold lex_step. rewrite Ha.
  replace (lenN (48 :: 98 :: body)) with (0 + 2 + lenN body + lenN []) by (rewrite !lenN_cons, lenN_nil; lia).
  destruct (bin_digits body <=? 128); reflexivity.
Qed.

(* with at most 128 digits the value always fits, so BitInteger carries the exact value *)
Lemma bin_value_fits body : is_bin_body body = true -> bin_digits body <= 128 -> bin_value 0 body < two128.
Proof.
  intros Hb Hd.
  destruct (scan_bin_body body 0 0 0 [] Hb I ltac:(lia) ltac:(reflexivity)) as [_ H].
  eapply N.lt_le_trans; [exact H|]. apply pow2_le_two128. lia.
Qed.

(* 128 ones, the largest literal: by the theorem, since evaluating the lexer would reduce
   `value <<= 1` modulo 2^128 at every digit *)
Example ex_bin_max : lex_delta (bs "0b" ++ repeat 49 128) =
  [T KBitInteger 340282366920938463463374607431768211455 None 0 130 1 0].
Proof. apply (bin_value_delta (repeat 49 128)); [reflexivity|discriminate|discriminate]. Qed.

(* the natural statement "E140 iff the value is >= 2^128" is false for 0b: 129 zeros *)
Theorem bin_value_delta_refuted :
  exists body, is_bin_body body = true /\ bin_value 0 body < two128 /\
    lex_delta (48 :: 98 :: body) = [mk_tok KError E140 None 0 131 1 0].
Proof. exists (repeat 48 129). vm_compute. repeat split. Qed.

Section GenericSpans.
Variable push : dacc -> N -> dacc.

Fixpoint count_nl (l : list N) : N :=
  match l with
  | [] => 0
  | y :: r => (if y =? 10 then 1 else 0) + count_nl r
  end.
(* offset just after the last newline of [l], where [l] starts at offset [pos]
   and [sol] is the answer when [l] has no newline *)
Fixpoint last_sol (sol pos : N) (l : list N) : N :=
  match l with
  | [] => sol
  | y :: r => last_sol (if y =? 10 then pos + 1 else sol) (pos + 1) r
  end.
Definition prefix (src : list N) (p : N) : list N := firstn (N.to_nat p) src.
(* 1-based line of offset p; start offset of that line *)
Definition line_of (src : list N) (p : N) : N := 1 + count_nl (prefix src p).
Definition sol_of (src : list N) (p : N) : N := last_sol 0 0 (prefix src p).

Fixpoint spans_sorted (lo : N) (l : list tok) : Prop :=
  match l with
  | [] => True
  | t :: r => lo <= tstart t /\ tstart t <= tend t /\ spans_sorted (tend t) r
  end.

(* a non-error token is what one iteration of the main loop produces when started
   at [tstart], and [tend] is exactly where that iteration stops consuming *)
Definition tok_origin (src : list N) (t : tok) : Prop :=
  is_error t = false ->
  tstart t < tend t /\
  exists pre x r f, src = pre ++ x :: r /\ tstart t = lenN pre /\
    act (lex_step_with push f x r (lenN pre)) = ATok (kind t) (value t) (vtype t) (tend t) /\
    send (lex_step_with push f x r (lenN pre)) = tend t /\
    srest (lex_step_with push f x r (lenN pre)) = skipn (N.to_nat (tend t)) src.

Definition tok_line (src : list N) (t : tok) : Prop :=
  line t = line_of src (tstart t) /\
  sol_of src (tstart t) <= tstart t /\
  lstart t = tstart t - sol_of src (tstart t).

Lemma count_nl_app l1 l2 : count_nl (l1 ++ l2) = count_nl l1 + count_nl l2.
Proof. induction l1 as [|y l1 IH]; cbn [app count_nl]; [lia|]. rewrite IH. lia. Qed.
Lemma count_nl_nonl l : nonl l -> count_nl l = 0.
Proof.
  induction 1 as [|y l Hy Hl IH]; cbn [count_nl]; [reflexivity|].
  apply N.eqb_neq in Hy. rewrite Hy, IH. reflexivity.
Qed.
Lemma last_sol_app : forall l1 l2 sol pos,
  last_sol sol pos (l1 ++ l2) = last_sol (last_sol sol pos l1) (pos + lenN l1) l2.
Proof.
  induction l1 as [|y l1 IH]; intros l2 sol pos; cbn [app last_sol].
  - rewrite lenN_nil, N.add_0_r. reflexivity.
  - rewrite IH, lenN_cons. f_equal. lia.
Qed.
Lemma last_sol_nonl : forall l sol pos, nonl l -> last_sol sol pos l = sol.
Proof.
  induction l as [|y l IH]; intros sol pos H; cbn [last_sol]; [reflexivity|].
  inversion H as [|? ? Hy Hl]; subst. apply N.eqb_neq in Hy. rewrite Hy. apply IH. assumption.
Qed.
Lemma last_sol_le : forall l sol pos, sol <= pos -> last_sol sol pos l <= pos + lenN l.
Proof.
  induction l as [|y l IH]; intros sol pos H; cbn [last_sol]; [llia|].
  rewrite lenN_cons. specialize (IH (if y =? 10 then pos + 1 else sol) (pos + 1)).
  destruct (y =? 10); lia.
Qed.
Lemma nonl_firstn n : forall l, nonl l -> nonl (firstn n l).
Proof.
  induction n as [|n IH]; intros l H; cbn [firstn]; [constructor|].
  destruct l as [|y l]; [constructor|]. inversion H; subst. constructor; [assumption|]. apply IH. assumption.
Qed.

Lemma prefix_in_seg pre mid rest' st :
  lenN pre <= st -> st <= lenN pre + lenN mid ->
  prefix (pre ++ mid ++ rest') st = pre ++ firstn (N.to_nat (st - lenN pre)) mid.
Proof.
  unfold prefix, lenN. intros H1 H2. rewrite firstn_app.
  rewrite firstn_all2 by lia. f_equal.
  replace (N.to_nat st - length pre)%nat with (N.to_nat (st - N.of_nat (length pre))) by lia.
  rewrite firstn_app.
  replace (N.to_nat (st - N.of_nat (length pre)) - length mid)%nat with 0%nat by lia.
  cbn [firstn]. apply app_nil_r.
Qed.

Lemma prefix_all src : prefix src (lenN src) = src.
Proof. unfold prefix, lenN. rewrite Nat2N.id. apply firstn_all. Qed.

Lemma spans_sorted_mono lo lo' l : lo' <= lo -> spans_sorted lo l -> spans_sorted lo' l.
Proof. destruct l as [|t r]; cbn [spans_sorted]; [auto|]. intros H (H1 & H2 & H3). repeat split; try assumption. lia. Qed.

Definition spans_post (src : list N) (pos : N) (toks : list tok) (eln esol : N) : Prop :=
  spans_sorted pos toks /\
  Forall (fun t => tend t <= lenN src /\ bytes t = [] /\ tok_origin src t) toks /\
  (has_bsnl src = false ->
     Forall (tok_line src) toks /\ eln = line_of src (lenN src) /\ esol = sol_of src (lenN src)).

Lemma spans_post_weaken src p p' l a c : p <= p' -> spans_post src p' l a c -> spans_post src p l a c.
Proof. intros Hp (H1 & H2). split; [|exact H2]. eapply spans_sorted_mono; eassumption. Qed.

Lemma spans_post_cons src p t l a c :
  p <= tstart t -> tstart t <= tend t -> tend t <= lenN src -> bytes t = [] -> tok_origin src t ->
  (has_bsnl src = false -> tok_line src t) ->
  spans_post src (tend t) l a c -> spans_post src p (t :: l) a c.
Proof.
  intros Hp Hse He Hb Ho Hl (H1 & H2 & H3). split; [cbn [spans_sorted]; auto|]. split; [constructor; auto|].
  intros Hbs. destruct (H3 Hbs) as (H4 & H5). split; [constructor; auto|exact H5].
Qed.

Lemma scan_spans src : forall fuel rest pos ln sol pre,
  src = pre ++ rest -> pos = lenN pre ->
  (has_bsnl src = false -> ln = 1 + count_nl pre /\ sol = last_sol 0 0 pre) ->
  (length rest < fuel)%nat ->
  lr_all False (spans_post src pos) (scan push fuel rest pos ln sol).
Proof.
  induction fuel as [|f IH]; intros rest pos ln sol pre Hsrc Hpos Hln Hf; [lia|].
  cbn [scan]. destruct rest as [|x r].
  - cbn [lr_all]. rewrite app_nil_r in Hsrc. subst pre. unfold spans_post. cbn [spans_sorted].
    split; [exact I|]. split; [constructor|]. intros Hbs. split; [constructor|].
    unfold line_of, sol_of. rewrite prefix_all. apply Hln. assumption.
  - cbn [length] in Hf.
    remember (lex_step_with push f x r pos) as s eqn:Hs.
    destruct (lex_step_ok_gen push f x r pos ltac:(lia)) as (seg & Hr & He & Hact). rewrite <- Hs in *.
    assert (Hlen : (length (srest s) < f)%nat) by (rewrite Hr, app_length in Hf; lia).
    assert (Hsrc' : src = (pre ++ x :: seg) ++ srest s) by (rewrite Hsrc, Hr, <- app_assoc; reflexivity).
    assert (Hpos' : send s = lenN (pre ++ x :: seg)) by (rewrite He; llia).
    assert (Hend : send s <= lenN src) by (rewrite Hsrc', Hpos'; llia).
    (* without backslash-newline the consumed segment has no newline, so the line and
       its start offset are the same at every position of the segment *)
    assert (Hnl : has_bsnl src = false -> nl_ok (x :: seg) -> nonl (x :: seg)).
    { intros Hbs Hok. apply Hok. rewrite Hsrc', <- app_assoc in Hbs.
      apply has_bsnl_app in Hbs as [_ Hbs]. apply has_bsnl_app in Hbs as [Hbs _]. exact Hbs. }
    assert (Hline : forall k v ty st en, nl_ok (x :: seg) -> pos <= st -> st <= send s ->
              has_bsnl src = false -> tok_line src (mk_tok k v ty st en ln sol)).
    { intros k v ty st en Hok H1 H2 Hbs. destruct (Hln Hbs) as [Hl1 Hl2]. pose proof (Hnl Hbs Hok) as Hn.
      unfold tok_line, line_of, sol_of. cbn [mk_tok line tstart lstart].
      rewrite Hsrc', <- app_assoc, prefix_in_seg by (rewrite ?lenN_cons; lia).
      pose proof (nonl_firstn (N.to_nat (st - lenN pre)) _ Hn) as Hn'.
      rewrite count_nl_app, last_sol_app, (count_nl_nonl _ Hn'), (last_sol_nonl _ _ _ Hn'), N.add_0_r, <- Hl1, <- Hl2.
      pose proof (last_sol_le pre 0 0 ltac:(lia)). repeat split. lia. }
    assert (Hrec : nl_ok (x :: seg) -> lr_all False (spans_post src (send s)) (scan push f (srest s) (send s) ln sol)).
    { intros Hok. apply (IH _ _ _ _ (pre ++ x :: seg) Hsrc' Hpos'); [|exact Hlen].
      intros Hbs. destruct (Hln Hbs) as [H1 H2]. pose proof (Hnl Hbs Hok) as Hn.
      rewrite count_nl_app, last_sol_app, (count_nl_nonl _ Hn), (last_sol_nonl _ _ _ Hn). split; lia. }
    destruct (act s) as [| |k v ty en|c st en|] eqn:Ha; cbn [act_ok] in Hact.
    + eapply lr_all_impl; [| |apply (Hrec Hact)]; [auto|]. intros l a c. apply spans_post_weaken. lia.
    + destruct Hact as [-> ->].
      eapply lr_all_impl; [| |apply (IH _ _ _ _ (pre ++ [10]) Hsrc' Hpos'); [|exact Hlen]]; [auto| |].
      * intros l a c. apply spans_post_weaken. lia.
      * intros Hbs. destruct (Hln Hbs) as [H1 H2].
        rewrite count_nl_app, last_sol_app. cbn [count_nl last_sol]. rewrite N.eqb_refl. split; lia.
    + destruct Hact as (-> & Hok & Hk).
      apply lr_all_cons. eapply lr_all_impl; [| |apply (Hrec Hok)]; [auto|]. intros l a c Hp.
      apply spans_post_cons; cbn [mk_tok tstart tend bytes]; try lia;
        [reflexivity| |apply Hline; (assumption || lia)|exact Hp].
      intros _. cbn [mk_tok tstart tend kind value vtype]. split; [lia|].
      exists pre, x, r, f. rewrite <- Hpos, <- Hs, Ha. repeat split; try assumption.
      rewrite Hpos', Hsrc'. symmetry. apply skipn_app_exact.
    + destruct Hact as (H1 & H2 & H3 & Hok).
      apply lr_all_cons. eapply lr_all_impl; [| |apply (Hrec Hok)]; [auto|]. intros l a c0 Hp.
      apply spans_post_cons; cbn [mk_tok tstart tend bytes]; try lia;
        [reflexivity|discriminate|apply Hline; (assumption || lia)|].
      eapply spans_post_weaken; [|exact Hp]. exact H3.
    + contradiction.
Qed.

(* dropping tokens keeps them in order *)
Lemma fill_sorted cap errcap : forall l ntok npay nerr t lo,
  fill cap errcap l ntok npay nerr = Some t -> spans_sorted lo l -> spans_sorted lo t.
Proof.
  induction l as [|t0 l IH]; intros ntok npay nerr t lo; cbn [fill].
  - destruct (cap <=? ntok + 1); intros [= <-]; auto.
  - intros H (H1 & H2 & H3). destruct (is_error t0 && (errcap <=? nerr)).
    + eapply IH; [exact H|]. eapply spans_sorted_mono; [|exact H3]. lia.
    + destruct (_ || _); [discriminate|]. destruct (fill cap errcap l _ _ _) as [t'|] eqn:Ef; [|discriminate].
      injection H as <-. cbn [spans_sorted]. repeat split; auto. eapply IH; eassumption.
Qed.

End GenericSpans.

(* spans: for every run of the lexer the tokens are ordered and disjoint, lie
   inside the source, and each non-error token covers exactly the bytes that the
   iteration started at its first byte consumes.  Line number = 1 + number of
   newline bytes before the token, line offset = distance to the byte after the
   last newline: PROVIDED the source nowhere contains backslash-newline. *)
Theorem span_exact_delta src toks eln esol p :
  lex_result src = LexRun (Done toks eln esol p) ->
  spans_sorted 0 toks /\
  Forall (fun t => tend t <= lenN src /\ bytes t = [] /\ tok_origin dec_push src t) toks /\
  (has_bsnl src = false ->
     Forall (tok_line src) toks /\ eln = line_of src (lenN src) /\ esol = sol_of src (lenN src)).
Proof.
  intros H. apply (lex_result_run dec_push) in H.
  pose proof (lex_loop_split dec_push (token_capacity (lenN src)) (error_capacity (lenN src))
                (S (length src)) src 0 1 0 ltac:(lia)) as Hs.
  pose proof (scan_spans dec_push src (S (length src)) src 0 1 0 [] eq_refl eq_refl
                (fun _ => conj eq_refl eq_refl) ltac:(lia)) as Hsp.
  destruct (scan dec_push _ _ _ _ _) as [| |l a c q]; try contradiction. cbn [lr_all] in Hs, Hsp.
  destruct Hs as (_ & _ & Hs). specialize (Hs 0 1 0). rewrite <- H in Hs.
  pose proof (fill_post (token_capacity (lenN src)) (error_capacity (lenN src)) l 0 1 0) as Hf.
  destruct (fill _ _ l 0 1 0) as [t|] eqn:Ef; [|discriminate]. injection Hs as -> -> ->.
  destruct Hf as (_ & _ & _ & _ & Hall). destruct Hsp as (S1 & S2 & S3).
  split; [exact (fill_sorted _ _ _ _ _ _ _ _ Ef S1)|]. split; [now apply Hall|].
  intros Hbs. destruct (S3 Hbs) as (S4 & S5). split; [now apply Hall|exact S5].
Qed.

(* without that hypothesis the line part is false: the newline swallowed by an
   (invalid) escape inside a literal does not advance the line counter *)
Theorem span_line_delta_refuted :
  exists src t, In t (lex_delta src) /\ is_error t = false /\
    line t <> line_of src (tstart t) /\ lstart t <> tstart t - sol_of src (tstart t).
Proof.
  exists (dq ++ bs "a" ++ bsl ++ nl ++ dq ++ bs " x"), (T KIdentifier 0 None 6 7 1 6).
  vm_compute. repeat split; try discriminate. right. left. reflexivity.
Qed.

(* error tokens of literals do not cover the literal: the location is that of the
   offending escape/byte, or empty (start = end) for a missing closing quote *)
Example span_error_not_exact :
  map (fun t => (value t, tstart t, tend t)) (lex_delta (dq ++ bs "abc\qdef" ++ dq ++ bs " 'x")) =
  [(E162, 4, 6); (E160, 13, 13)].
Proof. vm_compute. reflexivity. Qed.

(* the hypotheses are satisfiable by non-trivial objects *)
Example hyp_no_bsnl :
  has_bsnl (bs "fn main() { var x: u8 = '\n'; }" ++ cr ++ nl ++ bs "// done" ++ nl ++ bs """a\\""" ++ nl) = false.
Proof. vm_compute. reflexivity. Qed.
Example hyp_decimal :
  in_range 49 57 (ch "1") = true /\ is_dec_body (bs "_000__") = true /\ ends_token (bs ";x") = true /\
  dec_value (ch "1" - 48) (bs "_000__") = 1000.
Proof. vm_compute. repeat split. Qed.
Example hyp_hex :
  is_hex_body (bs "dead_BEEF") = true /\ has_hex_digit (bs "dead_BEEF") = true /\ hex_value 0 (bs "dead_BEEF") = 3735928559.
Proof. vm_compute. repeat split. Qed.
Example hyp_bin :
  is_bin_body (bs "1010_1010") = true /\ bin_digits (bs "1010_1010") = 8 /\ bin_value 0 (bs "1010_1010") = 170.
Proof. vm_compute. repeat split. Qed.
Example inst_decimal : lex_delta (bs "1_000__") = [mk_tok KNakedDecimal 1000 None 0 7 1 0].
Proof.
  apply (decimal_value_delta (ch "1") (bs "_000__")); try reflexivity; vm_compute; try discriminate; reflexivity.
Qed.

Print Assumptions token_push_in_bounds.
Print Assumptions token_push_in_bounds_run.
Print Assumptions tokens_le_bytes_plus_k.
Print Assumptions no_E103_small.
Print Assumptions decimal_value_delta.
Print Assumptions decimal_value_delta_refuted.
Print Assumptions dec_push_pinned_panics_iff.
Print Assumptions would_overflow_panic_never.
Print Assumptions hex_value_delta.
Print Assumptions bin_value_delta.
Print Assumptions bin_value_delta_refuted.
Print Assumptions span_exact_delta.
Print Assumptions span_line_delta_refuted.
Print Assumptions total.
Print Assumptions errors_capped.
Print Assumptions errors_dropped_after_cap.
Print Assumptions lex_step_ok.

