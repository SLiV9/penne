(* Theorems about PV.Model.Autoderef: the coercion predicates of value_type.rs, the loop
   and the if-chain of Reference::autoderef (typer.rs), and generate_autocoerce, which
   consumes its coercions.
   The loop is studied one iteration at a time, an iteration being the loop with a budget
   of 1: the loop with any budget and the walk without one both iterate it ([loop_unfold],
   [walk_unfold]), and [loop1_spec] says what an iteration does.  The inductions run over
   the budget: [loop_spec] says what holds of the loop's result whatever the budget (it is
   the walk's result unless steps were dropped), [loop_enough] which budget is enough.  The
   if-chain is described once, arm by arm ([finish_case], [finish_cases]); what is proved of
   its results is a case analysis on that, its panic included ([finish_panic_iff]). *)
From PV Require Import Base.Common Model.TypeLegal Model.Autoderef.
From PV Require Gen.Limits Model.MemLower.

(* prim_tag has a left inverse, so it is injective *)
Definition prim_of_tag (n : N) : prim :=
  match n with
  | 0 => KVoid | 1 => KInt8 | 2 => KInt16 | 3 => KInt32 | 4 => KInt64 | 5 => KInt128
  | 6 => KUint8 | 7 => KUint16 | 8 => KUint32 | 9 => KUint64 | 10 => KUint128
  | 11 => KUsize | 12 => KChar8 | _ => KBool
  end%N.

Lemma prim_of_tag_tag k : prim_of_tag (prim_tag k) = k.
Proof. destruct k; reflexivity. Qed.

Lemma prim_eqb_eq a b : prim_eqb a b = true <-> a = b.
Proof.
  unfold prim_eqb. rewrite N.eqb_eq. split; [intros H|now intros ->].
  rewrite <- (prim_of_tag_tag a), H. apply prim_of_tag_tag.
Qed.

Lemma prim_eqb_refl a : prim_eqb a a = true.
Proof. now apply prim_eqb_eq. Qed.

Lemma oname_eqb_eq a b : oname_eqb a b = true <-> a = b.
Proof.
  destruct a as [x|], b as [y|]; cbn [oname_eqb]; try (split; congruence).
  rewrite N.eqb_eq. split; congruence.
Qed.

Lemma vt_eqb_refl a : vt_eqb a a = true.
Proof.
  induction a; cbn [vt_eqb]; rewrite ?IHa, ?N.eqb_refl; try reflexivity.
  - apply prim_eqb_refl.
  - now apply oname_eqb_eq.
Qed.

Lemma vt_eqb_eq : forall a b, vt_eqb a b = true <-> a = b.
Proof.
  split; [|intros <-; apply vt_eqb_refl]. revert b.
  induction a as [k|e IH n|e IH c|e IH|e IH|e IH|e IH|i|i n|i|d IH|d IH];
    destruct b as [k'|e' n'|e' c'|e'|e'|e'|e'|i'|i' n'|i'|d'|d'];
    cbn [vt_eqb]; try discriminate; rewrite ?andb_true_iff, ?N.eqb_eq;
    try (intros [H ->]); try intros H; f_equal; auto.
  - now apply prim_eqb_eq.
  - now apply oname_eqb_eq.
Qed.

Lemma vt_eqb_sym a b : vt_eqb a b = vt_eqb b a.
Proof. apply eq_true_iff_eq. rewrite !vt_eqb_eq. split; congruence. Qed.

(* equals is equality up to the alias Char8 = Uint8, hence an equivalence relation *)

Definition unalias_prim (k : prim) : prim :=
  match k with KChar8 => KUint8 | _ => k end.

Fixpoint unalias (t : vt) : vt :=
  match t with
  | VPrim k => VPrim (unalias_prim k)
  | VArray e n => VArray (unalias e) n
  | VArrayNamed e x => VArrayNamed (unalias e) x
  | VSlice e => VSlice (unalias e)
  | VSlicePointer e => VSlicePointer (unalias e)
  | VEndless e => VEndless (unalias e)
  | VArraylike e => VArraylike (unalias e)
  | VPointer d => VPointer (unalias d)
  | VView d => VView (unalias d)
  | VStruct _ | VWord _ _ | VUnresolved _ => t
  end.

Lemma equals_unalias : forall a b, equals a b = vt_eqb (unalias a) (unalias b).
Proof.
  induction a as [k|e IH n|e IH c|e IH|e IH|e IH|e IH|i|i n|i|d IH|d IH];
    destruct b as [k'|e' n'|e' c'|e'|e'|e'|e'|i'|i' n'|i'|d'|d'];
    try exact eq_refl; try exact (IH _); cbn [equals unalias vt_eqb].
  (* a primitive against another head: no alias, whatever the primitive *)
  all: try (destruct k; exact eq_refl).
  all: try (destruct k'; exact eq_refl).
  - destruct k, k'; exact eq_refl.
  - rewrite IH. apply andb_comm.
  - rewrite IH. apply andb_comm.
  - cbn [is_alias_of]. now rewrite !orb_false_r.
Qed.

Lemma equals_refl : forall a, equals a a = true.
Proof. intros a. rewrite equals_unalias. apply vt_eqb_refl. Qed.

Lemma equals_sym : forall a b, equals a b = equals b a.
Proof. intros a b. rewrite !equals_unalias. apply vt_eqb_sym. Qed.

Lemma equals_trans : forall a b c,
  equals a b = true -> equals b c = true -> equals a c = true.
Proof. intros a b c. rewrite !equals_unalias, !vt_eqb_eq. congruence. Qed.

Lemma vt_eqb_equals a b : vt_eqb a b = true -> equals a b = true.
Proof. intros H. apply vt_eqb_eq in H. subst. apply equals_refl. Qed.

Example equals_coarser_than_eq :
  equals (VPrim KChar8) (VPrim KUint8) = true /\ vt_eqb (VPrim KChar8) (VPrim KUint8) = false.
Proof. split; reflexivity. Qed.

Lemma is_like_refl a : is_like a a = true.
Proof.
  destruct a; cbn [is_like]; try apply vt_eqb_refl.
Qed.

Lemma can_be_concretization_of_refl : forall a, can_be_concretization_of a a = true.
Proof.
  induction a; cbn [can_be_concretization_of]; rewrite ?N.eqb_refl, ?IHa; try reflexivity;
    apply vt_eqb_refl.
Qed.

Lemma can_be_declared_as_refl a : can_be_declared_as a a = true.
Proof. destruct a; cbn [can_be_declared_as]; apply vt_eqb_refl. Qed.

Lemma coerce_autoderef a b : can_coerce_into a b = true -> can_autoderef_into a b = true.
Proof.
  destruct a; cbn [can_coerce_into can_autoderef_into]; try discriminate;
    intros ->; apply orb_true_r.
Qed.

Lemma coerce_address_autoderef a b :
  can_coerce_address_into a b = true -> can_autoderef_into (VPointer a) b = true.
Proof.
  intros H. cbn [can_autoderef_into]. rewrite H. now rewrite !orb_true_r.
Qed.

Lemma coerce_not_equals a b : can_coerce_into a b = true -> equals a b = false.
Proof.
  destruct a; cbn [can_coerce_into]; try discriminate;
    destruct b; try discriminate; reflexivity.
Qed.

Lemma coerce_irrefl a : can_coerce_into a a = false.
Proof.
  destruct (can_coerce_into a a) eqn:E; [|reflexivity].
  apply coerce_not_equals in E. now rewrite equals_refl in E.
Qed.

Lemma coerce_address_not_equals a b :
  can_coerce_address_into a b = true -> equals a b = false.
Proof.
  destruct a; cbn [can_coerce_address_into]; try discriminate;
    destruct b; try discriminate; reflexivity.
Qed.

Example coerce_chain :
  let a := VArray (VPrim KInt32) 3 in
  let s := VSlice (VPrim KInt32) in
  let v := VView (VEndless (VPrim KInt32)) in
  can_coerce_into a s = true /\ can_coerce_into s v = true /\ can_coerce_into a v = true.
Proof. repeat split. Qed.

Example autoderef_into_not_reflexive : can_autoderef_into (VPrim KInt32) (VPrim KInt32) = false.
Proof. reflexivity. Qed.

(* pointer_depth counts into an accumulator of type usize; [depth] is the same count by
   structural recursion, in nat like the lists of Autoderef steps it is compared with *)
Fixpoint depth (t : vt) : nat :=
  match t with VPointer d => S (depth d) | VSlicePointer _ => 1 | _ => 0 end.

Lemma add_pointer_depth_nat : forall t n, add_pointer_depth t n = (n + N.of_nat (depth t))%N.
Proof.
  induction t; intros n0; cbn [add_pointer_depth depth]; try lia.
  rewrite IHt. lia.
Qed.

Lemma pointer_depth_nat t : pointer_depth t = N.of_nat (depth t).
Proof. apply add_pointer_depth_nat. Qed.

Lemma add_pointer_depth_ge : forall t n, (n <= add_pointer_depth t n)%N.
Proof. intros t n. rewrite add_pointer_depth_nat. lia. Qed.

Lemma pointer_depth_pointer d : pointer_depth (VPointer d) = (1 + pointer_depth d)%N.
Proof. rewrite !pointer_depth_nat. cbn [depth]. lia. Qed.

Section Loop.
Variable mt : N -> option vt.

Lemma loop_cons_app a b r : loop_cons (a ++ b) r = loop_cons a (loop_cons b r).
Proof. destruct r; cbn [loop_cons]; [now rewrite app_assoc|reflexivity]. Qed.

Lemma loop_cons_nil r : loop_cons [] r = r.
Proof. destruct r; reflexivity. Qed.

Lemma loop_cons_done pre r taken ct rest :
  loop_cons pre r = LoopDone taken ct rest ->
  exists taken', r = LoopDone taken' ct rest /\ taken = pre ++ taken'.
Proof.
  destruct r as [tk c rs|s]; cbn [loop_cons]; [|discriminate].
  intros [= <- <- <-]. eauto.
Qed.

(* one iteration of the `for` is the loop with a budget of 1 *)
Lemma loop_unfold fuel t steps :
  autoderef_loop mt (S fuel) t steps =
  match autoderef_loop mt 1 t steps with
  | LoopDone pre t' rest => loop_cons pre (autoderef_loop mt fuel t' rest)
  | LoopPanic s => LoopPanic s
  end.
Proof.
  destruct steps as [|[ie|m] rest]; [now destruct fuel| |];
    destruct t as [k|e n|e c|e|e|e|e|i|i n|i|d|d]; try exact eq_refl;
    try (destruct d; exact eq_refl);
    cbn [autoderef_loop]; destruct (mt m); exact eq_refl.
Qed.

(* Arraylike is the one pointee the loop treats apart *)
Lemma arraylike_or_not d : (exists e, d = VArraylike e) \/ (forall e, d <> VArraylike e).
Proof. destruct d; try (right; discriminate). left. eauto. Qed.

Lemma arraylike_default {A} (d : vt) (f : vt -> A) (b : A) :
  (forall e, d <> VArraylike e) -> match d with VArraylike e => f e | _ => b end = b.
Proof. intros H. destruct d; try reflexivity. now destruct (H d). Qed.

Lemma loop1_pointer d s rest :
  (forall e, d <> VArraylike e) ->
  autoderef_loop mt 1 (VPointer d) (s :: rest) = LoopDone [TAutoderef] d (s :: rest).
Proof. intros H. destruct s; [exact (arraylike_default d _ _ H)|reflexivity]. Qed.

Lemma loop1_view d s rest :
  (forall e, d <> VArraylike e) ->
  autoderef_loop mt 1 (VView d) (s :: rest) = LoopDone [TAutoview] d (s :: rest).
Proof. intros H. destruct s; [exact (arraylike_default d _ _ H)|reflexivity]. Qed.

(* [walk] puts the layers removed in front of the written step, [] where there are none *)
Lemma walk_unfold t steps :
  walk mt t steps =
  match autoderef_loop mt 1 t steps with
  | LoopDone pre t' rest => loop_cons pre (walk mt t' rest)
  | LoopPanic s => LoopPanic s
  end.
Proof.
  destruct steps as [|[ie|m] rest]; [reflexivity| |];
    destruct t as [k|e n|e c|e|e|e|e|i|i n|i|d|d]; try apply loop_cons_nil.
  - destruct (arraylike_or_not d) as [[e ->]|Hd]; [apply loop_cons_nil|].
    rewrite (loop1_pointer _ _ _ Hd). cbn [walk strip_for_element].
    rewrite (arraylike_default d _ _ Hd). exact (loop_cons_app [TAutoderef] _ _).
  - destruct (arraylike_or_not d) as [[e ->]|Hd]; [apply loop_cons_nil|].
    rewrite (loop1_view _ _ _ Hd). cbn [walk strip_for_element].
    rewrite (arraylike_default d _ _ Hd). exact (loop_cons_app [TAutoview] _ _).
  - cbn [walk autoderef_loop strip_all fst snd]. destruct (mt m); apply loop_cons_nil.
  - cbn [walk autoderef_loop strip_all fst snd]. destruct (mt m); apply loop_cons_nil.
  - exact (loop_cons_app [TAutoderef] _ _).
  - exact (loop_cons_app [TAutoview] _ _).
Qed.

Lemma iterations_app a b : iterations (a ++ b) = (iterations a + iterations b)%nat.
Proof. unfold iterations. now rewrite filter_app, app_length. Qed.

Lemma apply_tsteps_app : forall a t b,
  apply_tsteps mt t (a ++ b) =
  match apply_tsteps mt t a with Some t' => apply_tsteps mt t' b | None => None end.
Proof.
  induction a as [|s a IH]; intros t b; [reflexivity|].
  destruct s as [ie|m| | | |], t as [k|e n|e c|e|e|e|e|i|i n|i|d|d];
    try exact eq_refl; try exact (IH _ b); cbn [app apply_tsteps].
  1-2: destruct d; try exact eq_refl; exact (IH _ b).
  all: destruct (mt m); [exact (IH _ b)|exact eq_refl].
Qed.

(* What one iteration does.  It panics only where get_type_of_reference gives up;
   otherwise it costs one iteration of the budget, its steps lead from the current type
   to the next one, get_type_of_reference cannot tell the two states apart, and it either
   consumes a written step or removes one Pointer / View layer. *)
Lemma loop1_spec t steps :
  match autoderef_loop mt 1 t steps with
  | LoopPanic _ => ref_final mt (fully_dereferenced t) steps = None
  | LoopDone pre t' rest =>
      apply_tsteps mt t pre = Some t' /\
      ref_final mt (fully_dereferenced t) steps = ref_final mt (fully_dereferenced t') rest /\
      (steps = [] \/ iterations pre = 1%nat) /\
      (rest = tl steps \/ rest = steps /\ ptr_run t = S (ptr_run t'))
  end.
Proof.
  destruct steps as [|[ie|m] rest]; [cbn; auto| |];
    destruct t as [k|e n|e c|e|e|e|e|i|i n|i|d|d];
    try (destruct (arraylike_or_not d) as [[e ->]|Hd];
         [|rewrite ?(loop1_pointer _ _ _ Hd), ?(loop1_view _ _ _ Hd)]);
    cbn [autoderef_loop loop_cons app fully_dereferenced ref_final get_element_type];
    try (destruct (mt m) eqn:Em);
    cbn [loop_cons app fully_dereferenced ref_final get_element_type apply_tsteps tl ptr_run];
    rewrite ?Em; auto 6.
Qed.

(* What the loop returns, whatever the budget.  It panics only where get_type_of_reference
   gives up; otherwise the steps taken lead from the type of the base to the type it stops
   at, get_type_of_reference cannot tell the state it stops in from the one it started in,
   and unless steps were dropped the walk returns the same. *)
Lemma loop_spec : forall fuel t steps,
  match autoderef_loop mt fuel t steps with
  | LoopPanic s =>
      walk mt t steps = LoopPanic s /\ ref_final mt (fully_dereferenced t) steps = None
  | LoopDone taken ct rest =>
      apply_tsteps mt t taken = Some ct /\
      ref_final mt (fully_dereferenced t) steps = ref_final mt (fully_dereferenced ct) rest /\
      (rest = [] -> walk mt t steps = LoopDone taken ct [])
  end.
Proof.
  induction fuel as [|fuel IH]; intros t steps.
  - cbn [autoderef_loop apply_tsteps]. repeat split. now intros ->.
  - rewrite loop_unfold, walk_unfold. pose proof (loop1_spec t steps) as Hs.
    destruct (autoderef_loop mt 1 t steps) as [pre t' rest|s]; [|now split].
    destruct Hs as (Hp & Hr & _). specialize (IH t' rest). rewrite Hr.
    destruct (autoderef_loop mt fuel t' rest) as [tk ct rs|s]; cbn [loop_cons].
    + destruct IH as (Ha & Hf & Hw). rewrite apply_tsteps_app, Hp.
      repeat split; [exact Ha|exact Hf|]. intros E. now rewrite (Hw E).
    + destruct IH as [-> Hn]. now split.
Qed.

Lemma runs_ok_run p t : runs_ok p t = true -> (ptr_run t <= p)%nat.
Proof.
  destruct t; cbn [runs_ok]; intros H; apply andb_true_iff in H as [H _];
    now apply Nat.leb_le in H.
Qed.

Lemma runs_ok_sub p t :
  runs_ok p t = true ->
  match t with
  | VArray e _ | VArrayNamed e _ | VSlice e | VSlicePointer e | VEndless e | VArraylike e
  | VPointer e | VView e => runs_ok p e = true
  | _ => True
  end.
Proof.
  destruct t; cbn [runs_ok]; intros H; apply andb_true_iff in H as [_ H]; auto.
Qed.

Section Bound.
Variable p : nat.
Hypothesis Hmt : forall m t, mt m = Some t -> runs_ok p t = true.

Lemma loop1_runs t steps :
  runs_ok p t = true ->
  match autoderef_loop mt 1 t steps with LoopDone _ t' _ => runs_ok p t' = true | _ => True end.
Proof.
  intros H. destruct steps as [|[ie|m] r]; [exact H| |];
    destruct t as [k|e n|e c|e|e|e|e|i|i n|i|d|d]; cbn [autoderef_loop loop_cons]; try exact I;
    try (destruct (mt m) eqn:Em; [exact (Hmt _ _ Em)|exact I]);
    apply runs_ok_sub in H; try exact H;
    destruct d; try exact H; apply (runs_ok_sub _ _ H).
Qed.

(* the first written step costs at most the run in front of it and one more iteration,
   every later one at most p + 1 *)
Definition walk_cost (t : vt) (steps : list astep) : nat :=
  match steps with [] => 0 | _ :: rest => S (ptr_run t) + length rest * S p end.

(* every iteration lowers [walk_cost], so with a budget of that many nothing is dropped *)
Lemma loop_enough : forall fuel t steps,
  runs_ok p t = true -> (walk_cost t steps <= fuel)%nat ->
  match autoderef_loop mt fuel t steps with LoopDone _ _ rest => rest = [] | LoopPanic _ => True end.
Proof.
  induction fuel as [|fuel IH]; intros t [|s0 rest0] Hok Hle; try reflexivity;
    [cbn [walk_cost] in Hle; lia|].
  rewrite loop_unfold. pose proof (loop1_spec t (s0 :: rest0)) as Hs.
  pose proof (loop1_runs t (s0 :: rest0) Hok) as Hok'.
  destruct (autoderef_loop mt 1 t (s0 :: rest0)) as [pre t' rest|s]; [|exact I].
  assert (Hc : (walk_cost t' rest <= fuel)%nat).
  { destruct Hs as (_ & _ & _ & Hn). apply runs_ok_run in Hok'. cbn [tl] in Hn.
    destruct Hn as [->|[-> Hrun]]; [destruct rest0|]; cbn [walk_cost length] in *; lia. }
  specialize (IH t' rest Hok' Hc). now destruct (autoderef_loop mt fuel t' rest).
Qed.

End Bound.

(* the steps the loop takes lead from the type of the base to the type it stops at *)
Theorem loop_steps_reach fuel t steps taken ct rest :
  autoderef_loop mt fuel t steps = LoopDone taken ct rest ->
  apply_tsteps mt t taken = Some ct.
Proof. intros H. pose proof (loop_spec fuel t steps) as Hs. rewrite H in Hs. apply Hs. Qed.

End Loop.

Lemma max_steps_Z : Z.of_nat max_num_autoderef_steps = 16383%Z.
Proof.
  unfold max_num_autoderef_steps. rewrite Z2Nat.id; [reflexivity|].
  unfold Limits.max_reference_depth, Limits.max_address_depth. lia.
Qed.

(* the longest run of Pointer / View constructors the budget was computed for:
   MAX_ADDRESS_DEPTH pointers and one view *)
Definition run_limit : nat := Z.to_nat (Limits.max_address_depth + 1).

Lemma run_limit_Z : Z.of_nat run_limit = 128%Z.
Proof.
  unfold run_limit. rewrite Z2Nat.id; [reflexivity|].
  unfold Limits.max_address_depth. lia.
Qed.

Definition types_within (mt : N -> option vt) (known : vt) : Prop :=
  runs_ok run_limit known = true /\
  forall m t, mt m = Some t -> runs_ok run_limit t = true.

Definition steps_within (steps : list astep) : Prop :=
  (Z.of_nat (length steps) <= Limits.max_reference_depth)%Z.

(* The loop never panics on a reference that get_type_of_reference accepted, and it
   consumes every step when the budget covers p + 1 iterations per written step, p the
   longest run of Pointer / View constructors in the types. *)
Theorem loop_total_fuel mt p fuel known steps :
  fits mt known steps = true ->
  runs_ok p known = true ->
  (forall m t, mt m = Some t -> runs_ok p t = true) ->
  (length steps * S p <= fuel)%nat ->
  exists taken ct,
    autoderef_loop mt fuel known steps = LoopDone taken ct [] /\
    walk mt known steps = LoopDone taken ct [] /\
    ref_final mt (fully_dereferenced known) steps = Some (fully_dereferenced ct).
Proof.
  intros Hfits Hk Hm Hfuel. unfold fits in Hfits.
  pose proof (loop_spec mt fuel known steps) as Hs.
  pose proof (loop_enough mt p Hm fuel known steps Hk) as He.
  destruct (autoderef_loop mt fuel known steps) as [taken ct rest|s].
  - assert (rest = []) as ->
      by (apply He; apply runs_ok_run in Hk; destruct steps; cbn [walk_cost length] in *; lia).
    exists taken, ct. split; [reflexivity|split; [now apply Hs|apply Hs]].
  - now rewrite (proj2 Hs) in Hfits.
Qed.

(* With the budget of the typer: at most MAX_REFERENCE_DEPTH written steps, which the
   parser enforces, over types whose runs of Pointer / View constructors are at most
   [run_limit] long, which it does not ([deep_pointer_type_exhausts_budget]). *)
Theorem loop_total mt known steps :
  fits mt known steps = true ->
  steps_within steps ->
  types_within mt known ->
  exists taken ct,
    autoderef_loop mt max_num_autoderef_steps known steps = LoopDone taken ct [] /\
    walk mt known steps = LoopDone taken ct [] /\
    ref_final mt (fully_dereferenced known) steps = Some (fully_dereferenced ct).
Proof.
  intros Hfits Hsteps [Hk Hm]. apply (loop_total_fuel mt run_limit); try assumption.
  pose proof max_steps_Z as HM. pose proof run_limit_Z as HR.
  unfold steps_within, Limits.max_reference_depth in Hsteps.
  apply Nat2Z.inj_le. rewrite HM, Nat2Z.inj_mul, Nat2Z.inj_succ, HR. lia.
Qed.

(* The class D11: the loop stops at a slice pointer that is used as it stands, or behind
   one `&` where another type than its own is expected.  ([no_solution_pinned] is the
   class of the pinned source.) *)
Definition no_solution (ct target : vt) (ad : N) : bool :=
  is_slice_pointer ct &&
  (N.eqb ad 0 || (N.eqb ad 1 && negb (vt_eqb ct target))).

(* What the if-chain returns, arm by arm, each arm with what its condition says.  The two
   arms that take the address without a coercion (:2907, :2940) return the same.  The
   panic comes with its whole class, for which the arm :2900 must have been passed; the
   last arm remembers that the coercion arm :2893 was passed, which
   [finish_promise_direct] needs. *)
Section Finish.
Variables (taken : list tstep) (ct target : vt) (ad : N).

Inductive finish_case : ad_result -> Prop :=
| FSame : ad = 0%N -> pointer_depth target = 0%N -> ct = target ->
    finish_case (ADOk taken false ct None)
| FView : ad = 0%N -> pointer_depth target = 0%N -> ct = VView target ->
    finish_case (ADOk (taken ++ [TAutoview]) false target None)
| FCoerce : ad = 0%N -> pointer_depth target = 0%N -> can_coerce_into ct target = true ->
    finish_case (ADOk taken false ct (Some target))
| FSlicePointer : ad = 1%N -> is_slice_pointer ct = true -> ct = target ->
    finish_case (ADOk taken false ct None)
| FAddress : ad = (1 + pointer_depth ct)%N -> finish_case (ADOk taken true (VPointer ct) None)
| FAddressCoerce : (0 < ad)%N -> can_coerce_address_into ct target = true ->
    finish_case (ADOk taken true (VPointer ct) (Some target))
| FExcess : (2 + pointer_depth ct <= ad)%N -> finish_case (ADError E538)
| FNoSolution : no_solution ct target ad = true -> finish_case (ADPanic 3)
| FRest : is_slice_pointer ct = false ->
    (ad = 0%N -> pointer_depth target = 0%N -> can_coerce_into ct target = false) ->
    finish_case
      (ADOk (taken ++ repeat TAutoderef (N.to_nat (pointer_depth ct - ad))) false
            (wrap_pointers (N.to_nat ad) (fully_dereferenced ct)) None).

End Finish.

Lemma viewee_eq ct target : opt_vt_eqb (get_viewee_type ct) target = true -> ct = VView target.
Proof.
  destruct ct; try discriminate. cbn [get_viewee_type opt_vt_eqb]. intros H.
  apply vt_eqb_eq in H. now subst.
Qed.

Lemma finish_cases taken ct target ad :
  finish_case taken ct target ad (autoderef_finish taken ct target ad).
Proof.
  unfold autoderef_finish, autoderef_finish_gen. cbn [address_arm_cond].
  (* the arms from :2900 on do not depend on the first three *)
  set (tail := if N.eqb ad 1 && _ && _ then _ else _).
  assert (Htail : (ad = 0%N -> pointer_depth target = 0%N -> can_coerce_into ct target = false) ->
                  finish_case taken ct target ad tail).
  { intros Hc. subst tail.
    destruct (N.eqb ad 1 && is_slice_pointer ct && vt_eqb ct target) eqn:E4.
    { apply andb_true_iff in E4 as [E4 Eeq]. apply andb_true_iff in E4 as [E4 Esp].
      apply N.eqb_eq in E4. apply vt_eqb_eq in Eeq. now apply FSlicePointer. }
    destruct (N.eqb ad (1 + pointer_depth ct) && opt_vt_eqb (get_pointee_type target) ct) eqn:E5.
    { apply andb_true_iff in E5 as [E5 _]. apply N.eqb_eq in E5. now apply FAddress. }
    destruct (N.ltb 0 ad && can_coerce_address_into ct target) eqn:E6.
    { apply andb_true_iff in E6 as [E6 E6']. apply N.ltb_lt in E6. now apply FAddressCoerce. }
    destruct (N.leb_spec (2 + pointer_depth ct) ad) as [H7|H7]; [now apply FExcess|].
    destruct (N.eqb_spec ad (1 + pointer_depth ct)) as [H8|H8]; [now apply FAddress|].
    destruct (is_slice_pointer ct) eqn:Esp; [|now apply FRest].
    (* a slice pointer has pointer depth 1, so address_depth is 0 or 1 here, and for 1
       the arm :2900 has just been passed *)
    apply FNoSolution. unfold no_solution. rewrite Esp. cbn [andb].
    destruct ct; try discriminate Esp. change (pointer_depth (VSlicePointer ct)) with 1%N in *.
    rewrite andb_true_r in E4.
    destruct (N.eqb_spec ad 0); [reflexivity|]. assert (ad = 1%N) as -> by lia.
    cbn in *. now rewrite E4. }
  clearbody tail.
  destruct (N.eqb_spec ad 0) as [H0|H0];
    [destruct (N.eqb_spec (pointer_depth target) 0) as [Ht|Ht]|]; cbn [andb];
    try (apply Htail; intros; contradiction).
  destruct (vt_eqb ct target) eqn:E1; [apply vt_eqb_eq in E1; now apply FSame|].
  destruct (opt_vt_eqb (get_viewee_type ct) target) eqn:E2;
    [apply viewee_eq in E2; now apply FView|].
  destruct (can_coerce_into ct target) eqn:E3; [now apply FCoerce|]. apply Htail. reflexivity.
Qed.

(* every other arm contradicts the class: its condition fails on a slice pointer, or
   wants another address_depth, or is the exception of address_depth 1 *)
Lemma finish_panic_iff taken ct target ad s :
  autoderef_finish taken ct target ad = ADPanic s <->
  s = 3%N /\ no_solution ct target ad = true.
Proof.
  destruct (finish_cases taken ct target ad) as [H0 Ht E|H0 Ht E|H0 Ht E|H1 _ E|H1|_ E|H1|Hn|E _];
    (split; [intros [= <-]; auto|intros [-> H]]); try reflexivity;
    apply andb_true_iff in H as [Hsp H]; destruct ct; try discriminate Hsp.
  - now subst target.
  - discriminate E.
  - destruct target; try discriminate E. rewrite pointer_depth_pointer in Ht. lia.
  - subst ad target. now rewrite vt_eqb_refl in H.
  - now subst ad.
  - discriminate E.
  - change (pointer_depth (VSlicePointer ct)) with 1%N in H1.
    apply orb_true_iff in H as [H|H]; [|apply andb_true_iff in H as [H _]];
      apply N.eqb_eq in H; lia.
  - discriminate E.
Qed.

Theorem autoderef_panic_iff mt known target steps ad s :
  autoderef mt known target steps ad = ADPanic s <->
  match autoderef_loop mt max_num_autoderef_steps known steps with
  | LoopPanic s' => s = s'
  | LoopDone _ ct _ => s = 3%N /\ no_solution ct target ad = true
  end.
Proof.
  unfold autoderef.
  destruct (autoderef_loop mt max_num_autoderef_steps known steps) as [taken ct rest|s'].
  - apply finish_panic_iff.
  - split; [intros [= <-]; reflexivity|intros ->; reflexivity].
Qed.

(* the type the reference designates before the address is taken, None if it does not fit *)
Definition final_type (mt : N -> option vt) (known : vt) (steps : list astep) : option vt :=
  match walk mt known steps with
  | LoopDone _ ct [] => Some ct
  | _ => None
  end.

Definition autoderef_panics (mt : N -> option vt) (known target : vt) (steps : list astep)
           (ad : N) : bool :=
  match final_type mt known steps with
  | Some ct => no_solution ct target ad
  | None => false
  end.

(* For a reference that the typer accepted and that is within the limits: the only
   panic is the "no solution" one, and it happens exactly on [autoderef_panics]. *)
Theorem autoderef_no_solution_iff mt known target steps ad :
  fits mt known steps = true ->
  steps_within steps ->
  types_within mt known ->
  forall s,
    autoderef mt known target steps ad = ADPanic s <->
    s = 3%N /\ autoderef_panics mt known target steps ad = true.
Proof.
  intros Hfits Hsteps Htypes s.
  destruct (loop_total mt known steps Hfits Hsteps Htypes) as (taken & ct & Hl & Hw & _).
  rewrite autoderef_panic_iff, Hl.
  unfold autoderef_panics, final_type. rewrite Hw. reflexivity.
Qed.

Corollary autoderef_loop_never_panics mt known target steps ad :
  fits mt known steps = true ->
  steps_within steps ->
  types_within mt known ->
  autoderef mt known target steps ad <> ADPanic 1 /\
  autoderef mt known target steps ad <> ADPanic 2.
Proof.
  intros Hfits Hsteps Htypes.
  split; intros H; apply (autoderef_no_solution_iff _ _ _ _ _ Hfits Hsteps Htypes) in H;
    destruct H as [H _]; discriminate H.
Qed.

(* In source terms: the reference ends in a slice pointer (a parameter `data: &[]T`: a
   member or element of that type cannot exist) and is used bare, or with one `&` where
   anything else than `&[]T` itself is expected. *)
Corollary autoderef_no_solution_shape mt known target steps ad :
  autoderef_panics mt known target steps ad = true ->
  exists e, final_type mt known steps = Some (VSlicePointer e) /\ (ad = 0 \/ ad = 1)%N.
Proof.
  unfold autoderef_panics. destruct (final_type mt known steps) as [ct|]; [|discriminate].
  unfold no_solution. intros H. apply andb_true_iff in H as [Hsp H].
  destruct ct; try discriminate Hsp. eexists; split; [reflexivity|].
  apply orb_true_iff in H as [H|H].
  - left. now apply N.eqb_eq.
  - right. apply andb_true_iff in H as [H _]. now apply N.eqb_eq.
Qed.

Definition no_members (m : N) : option vt := None.
Definition i32 := VPrim KInt32.

Lemma steps_within_small steps :
  (length steps <= 127)%nat -> steps_within steps.
Proof. unfold steps_within, Limits.max_reference_depth. lia. Qed.

Lemma no_members_within known :
  runs_ok run_limit known = true -> types_within no_members known.
Proof. intros H. split; [exact H|discriminate]. Qed.

(* D11, tests/samples/valid/autoderef_edge_cases.pn:
     fn use_slice_ptr(data: &[]i32) { use_slice(data); ... use_ptr_to_endless(&data); } *)
Example d11_use_slice :
  analyze_deref no_members (VSlicePointer i32) [] 0 (Some (VSlice i32)) = Some (ADPanic 3).
Proof. vm_compute. reflexivity. Qed.

Example d11_use_ptr_to_endless :
  analyze_deref no_members (VSlicePointer i32) [] 1 (Some (VPointer (VEndless i32)))
  = Some (ADPanic 3).
Proof. vm_compute. reflexivity. Qed.

(* no contextual type is needed: `var y = data;` *)
Example d11_no_context :
  analyze_deref no_members (VSlicePointer i32) [] 0 None = Some (ADPanic 3).
Proof. vm_compute. reflexivity. Qed.

(* behind one `&`, with `&[]i32` itself expected, there is a solution *)
Example d11_ok_same :
  analyze_deref no_members (VSlicePointer i32) [] 1 (Some (VSlicePointer i32))
  = Some (ADOk [] false (VSlicePointer i32) None).
Proof. vm_compute. reflexivity. Qed.

Example d11_witness_within_limits :
  fits no_members (VSlicePointer i32) [] = true /\ steps_within [] /\
  types_within no_members (VSlicePointer i32).
Proof.
  split; [reflexivity|]. split; [apply steps_within_small; cbn; lia|].
  apply no_members_within. reflexivity.
Qed.

Fixpoint ptrs (n : nat) (t : vt) : vt :=
  match n with O => t | S n' => VPointer (ptrs n' t) end.

(* n nested arrays, each behind k pointers *)
Fixpoint tower (n k : nat) (t : vt) : vt :=
  match n with O => t | S n' => ptrs k (VArray (tower n' k t) 1) end.

Lemma ptr_run_ptrs k t : ptr_run (ptrs k t) = (k + ptr_run t)%nat.
Proof. induction k as [|k IH]; [reflexivity|]. cbn [ptrs ptr_run plus]. now rewrite IH. Qed.

Lemma runs_ok_ptrs p k t :
  (k + ptr_run t <= p)%nat -> runs_ok p t = true -> runs_ok p (ptrs k t) = true.
Proof.
  intros Hle Ht. induction k as [|k IH]; [exact Ht|].
  cbn [ptrs runs_ok ptr_run]. rewrite IH, ptr_run_ptrs, andb_true_r by lia.
  apply Nat.leb_le. lia.
Qed.

Lemma runs_ok_view p t :
  (ptr_run t < p)%nat -> runs_ok p t = true -> runs_ok p (VView t) = true.
Proof.
  intros Hlt Ht. cbn [runs_ok ptr_run]. rewrite Ht, andb_true_r. now apply Nat.leb_le.
Qed.

Lemma ptr_run_tower n k t : ptr_run (tower (S n) k t) = k.
Proof. cbn [tower]. rewrite ptr_run_ptrs. cbn [ptr_run]. lia. Qed.

Lemma runs_ok_tower p n k t :
  (k <= p)%nat -> runs_ok p t = true -> runs_ok p (tower n k t) = true.
Proof.
  intros Hk Ht. induction n as [|n IH]; [exact Ht|].
  cbn [tower]. apply runs_ok_ptrs; [cbn [ptr_run]; lia|exact IH].
Qed.

Definition dropped_of (r : loop_result) : nat :=
  match r with LoopDone _ _ rest => length rest | LoopPanic _ => 0%nat end.

(* the budget of the pinned commit, MAX_REFERENCE_DEPTH + MAX_ADDRESS_DEPTH = 254, was too
   small: `a[0][0]` on  &^127 [1] &^127 [1] i32  needs 256 iterations (defect D61) *)
Example old_budget_drops_a_step :
  let t := tower 2 127 i32 in
  runs_ok run_limit t = true /\
  dropped_of (autoderef_loop no_members 254 t [AElement None; AElement None]) = 1%nat /\
  dropped_of (autoderef_loop no_members max_num_autoderef_steps t
                             [AElement None; AElement None]) = 0%nat.
Proof.
  split; [apply runs_ok_tower; [pose proof run_limit_Z; lia|reflexivity]|].
  vm_compute. split; reflexivity.
Qed.

(* tightness: 127 steps, each behind 127 pointers, the first also behind a view: 16257
   iterations (the constant 16383 leaves 126 spare) *)
Example budget_tight :
  let t := VView (tower 127 127 i32) in
  let steps := repeat (AElement None) 127 in
  is_wellformed t = true /\ runs_ok run_limit t = true /\
  dropped_of (autoderef_loop no_members (Z.to_nat 16257) t steps) = 0%nat /\
  dropped_of (autoderef_loop no_members (Z.to_nat 16256) t steps) = 1%nat.
Proof.
  pose proof run_limit_Z as HR. cbv zeta.
  split; [vm_compute; reflexivity|]. split; [|vm_compute; split; reflexivity].
  apply runs_ok_view; [rewrite (ptr_run_tower 126); lia|].
  apply runs_ok_tower; [lia|reflexivity].
Qed.

(* The parser does not limit the number of `&` in a written TYPE
   (parser.rs:750 parse_inner_type recurses without a depth check; MAX_ADDRESS_DEPTH only
   limits `&` in expressions).  A structure whose link is a pointer of depth 129 exhausts
   the budget: hypothesis [types_within] of [loop_total] cannot be dropped.
     struct Node { next: &^129 Node, value: i32 }   fn f(n: &^129 Node) { n.next. ... .next }
   The remaining steps are silently dropped. *)
Definition deep_members (m : N) : option vt :=
  match m with 1%N => Some (ptrs 129 (VStruct 5%N)) | _ => None end.

Example deep_pointer_type_exhausts_budget :
  let known := ptrs 129 (VStruct 5%N) in
  let steps := repeat (AMember 1) 127 in
  is_wellformed known = true /\ fits deep_members known steps = true /\ steps_within steps /\
  dropped_of (autoderef_loop deep_members max_num_autoderef_steps known steps) = 1%nat.
Proof.
  cbv zeta. split; [vm_compute; reflexivity|]. split; [vm_compute; reflexivity|].
  split; [apply steps_within_small; rewrite repeat_length; lia|].
  vm_compute. reflexivity.
Qed.

(* the three arms autoderef's own coercions can reach *)
Definition arm_simple (a : arm) : bool :=
  match a with ArmArraySlice | ArmExtArrayView | ArmView => true | _ => false end.

Lemma arm_simple_ok a : arm_simple a = true -> arm_ok a = true.
Proof. destruct a; try discriminate; reflexivity. Qed.

Lemma coerce_arm env b ct target :
  can_coerce_into ct target = true ->
  arm_simple (autocoerce_arm (EDeref b (resolve_vt env ct)) (resolve_vt env target)) = true.
Proof.
  destruct ct; cbn [can_coerce_into]; try discriminate;
    destruct target as [k|e' n'|e' c'|e'|e'|e'|e'|i'|i' n'|i'|d'|d']; try discriminate;
    try (destruct d'; try discriminate); intros H; reflexivity.
Qed.

Lemma coerce_address_arm env ct target :
  can_coerce_address_into ct target = true ->
  arm_simple (autocoerce_arm (EDeref true (resolve_vt env (VPointer ct))) (resolve_vt env target))
  = true.
Proof.
  destruct ct; cbn [can_coerce_address_into]; try discriminate;
    destruct target as [k|e' n'|e' c'|e'|e'|e'|e'|i'|i' n'|i'|d'|d']; try discriminate;
    try (destruct d'; try discriminate); intros H; reflexivity.
Qed.

(* Every Autocoerce that autoderef itself builds reaches an implemented arm of
   generate_autocoerce -- once named lengths are resolved.  The arm
   `ValueType::Pointer { inner_type }` (:2053-2078, ArmTmpOfInner) is not among them: dead
   code as far as autoderef is concerned. *)
Theorem autoderef_coercion_implemented mt env known target steps ad tk ta dt c :
  autoderef mt known target steps ad = ADOk tk ta dt (Some c) ->
  arm_simple (autocoerce_arm (EDeref ta (resolve_vt env dt)) (resolve_vt env c)) = true.
Proof.
  unfold autoderef.
  destruct (autoderef_loop mt max_num_autoderef_steps known steps) as [taken ct rest|s];
    [|discriminate].
  destruct (finish_cases taken ct target ad); intros E; try discriminate E;
    injection E as <- <- <- <-; [now apply coerce_arm|now apply coerce_address_arm].
Qed.

Corollary autoderef_coercion_ok mt env known target steps ad tk ta dt c :
  autoderef mt known target steps ad = ADOk tk ta dt (Some c) ->
  arm_ok (autocoerce_arm (EDeref ta (resolve_vt env dt)) (resolve_vt env c)) = true.
Proof. intros H. eapply arm_simple_ok, autoderef_coercion_implemented, H. Qed.

(* the resolution of named lengths is needed *)
Example unresolved_named_length_unimplemented :
  let r := autoderef no_members (VArrayNamed i32 9%N) (VSlice i32) [] 0 in
  r = ADOk [] false (VArrayNamed i32 9%N) (Some (VSlice i32)) /\
  autocoerce_arm (EDeref false (VArrayNamed i32 9%N)) (VSlice i32) = ArmUnimplemented 1956.
Proof. vm_compute. split; reflexivity. Qed.

(* the coercion that analyze_hinted_arguments adds around an argument that is a reference *)
Theorem argument_coercion_of_deref_implemented env b vt0 pt c :
  argument_coercion vt0 pt = Some c ->
  arm_simple (autocoerce_arm (EDeref b (resolve_vt env vt0)) (resolve_vt env c)) = true.
Proof.
  unfold argument_coercion. destruct (vt_eqb vt0 pt); [discriminate|].
  destruct (can_coerce_into vt0 pt) eqn:E; [|discriminate].
  intros [= <-]. now apply coerce_arm.
Qed.

(* ... but around an array literal it can ask for an arm that is `unimplemented!()`:
     extern fn use_endless(data: []i32);   fn main() { use_endless([1, 2, 3]); }
   (the parameter type is View{EndlessArray{i32}}, the argument an ArrayLiteral of type
   [3]i32, and Array can_coerce_into View{EndlessArray}) *)
Example argument_coercion_of_array_literal_refuted :
  exists vt0 pt c,
    is_wellformed vt0 = true /\ is_wellformed pt = true /\
    argument_coercion vt0 pt = Some c /\
    autocoerce_arm EArrayLiteral c = ArmUnimplemented 2018.
Proof.
  exists (VArray i32 3), (VView (VEndless i32)), (VView (VEndless i32)).
  vm_compute. repeat split.
Qed.

(* The promise of can_autoderef_into: where the known type x of a reference is the
   expected type y or autoderefs into it, what autoderef builds for y has type y. *)
Definition promise (mt : N -> option vt) (known : vt) (steps : list astep) (ad : N) (y : vt)
  : Prop :=
  forall x r t,
    type_of_reference mt known steps ad = Some x ->
    (vt_eqb x y || can_autoderef_into x y) = true ->
    autoderef mt known y steps ad = r -> result_type r = Some t -> equals t y = true.

(* `&a` where an i32 is expected: can_autoderef_into(&i32, i32) holds ("a pointer derefs
   into its pointee") but the address was asked for explicitly.  Harmless: the caller
   reports the mismatch later. *)
Example promise_refuted_explicit_address :
  ~ promise no_members i32 [] 1 i32.
Proof.
  intros H. specialize (H _ _ _ eq_refl eq_refl eq_refl eq_refl). discriminate H.
Qed.

(* `p` with p: &[3]i32 where a slice is expected: [3]i32 can coerce into []i32, but the
   coercion test of autoderef (:2895) looks at the type BEFORE the dereference, so no
   Autocoerce is built; analyze_hinted_arguments repairs this for call arguments only. *)
Example promise_refuted_pointer_to_array :
  let p := VPointer (VArray i32 3) in
  ~ promise no_members p [] 0 (VSlice i32) /\
  autoderef no_members p (VSlice i32) [] 0 = ADOk [TAutoderef] false (VArray i32 3) None /\
  argument_coercion (VArray i32 3) (VSlice i32) = Some (VSlice i32).
Proof.
  cbv zeta. split; [|split; reflexivity].
  intros H. specialize (H _ _ _ eq_refl eq_refl eq_refl eq_refl). discriminate H.
Qed.

(* the arm `x == y`:  `x` with x: &[..]i32 (extern) has known type ([..]i32) but the
   expression built has type [..]i32 *)
Example promise_eq_refuted_endless :
  let known := VPointer (VEndless i32) in
  let y := VView (VEndless i32) in
  type_of_reference no_members known [] 0 = Some y /\
  autoderef no_members known y [] 0 = ADOk [TAutoderef] false (VEndless i32) None.
Proof. split; reflexivity. Qed.

(* the arm `x == y`:  `&s` with s: (Foo) -- a structure parameter -- where &Foo is
   expected: the known type is &Foo, the expression built has the ILL-FORMED type &(Foo)
     struct Foo { x: i32 }   fn f(s: Foo) -> &Foo { return: &s }
   analyze_return_value then runs `assert!(vt.is_wellformed())` (typer.rs:989) *)
Example promise_eq_refuted_view_address :
  let known := VView (VStruct 1%N) in
  let y := VPointer (VStruct 1%N) in
  type_of_reference no_members known [] 1 = Some y /\
  deref_target y (Some y) = y /\
  autoderef no_members known y [] 1 = ADOk [] true (VPointer (VView (VStruct 1%N))) None /\
  is_wellformed (VPointer (VView (VStruct 1%N))) = false.
Proof. repeat split. Qed.

(* `&a` with a: []i32 and no usable context: known type and produced type are both the
   ill-formed &[:]i32
     fn f(a: []i32) -> &[]i32 { return: &a } *)
Example illformed_address_of_slice :
  let known := VSlice i32 in
  type_of_reference no_members known [] 1 = Some (VPointer (VSlice i32)) /\
  analyze_deref no_members known [] 1 (Some (VSlicePointer i32))
  = Some (ADOk [] true (VPointer (VSlice i32)) None) /\
  is_wellformed (VPointer (VSlice i32)) = false.
Proof. repeat split. Qed.

Lemma type_of_reference_ad0 mt known steps :
  type_of_reference mt known steps 0
  = option_map view_endless (ref_final mt (fully_dereferenced known) steps).
Proof.
  unfold type_of_reference. now destruct (ref_final mt (fully_dereferenced known) steps).
Qed.

Lemma fd_direct t : ptr_run t = 0%nat -> fully_dereferenced t = t.
Proof. now destruct t. Qed.

Lemma coerce_source_direct ct t : can_coerce_into ct t = true -> fully_dereferenced ct = ct.
Proof. destruct ct; cbn [can_coerce_into]; try discriminate; reflexivity. Qed.

Lemma finish_eq_ad0 taken ct :
  match autoderef_finish taken ct (fully_dereferenced ct) 0 with
  | ADOk _ ta dt c => ta = false /\ c = None /\ dt = fully_dereferenced ct
  | ADError _ => False
  | ADPanic s => s = 3%N
  end.
Proof.
  destruct (finish_cases taken ct (fully_dereferenced ct) 0) as [| |_ _ E| | | | | |];
    auto; try lia.
  pose proof (coerce_source_direct _ _ E) as Hd. rewrite Hd, coerce_irrefl in E. discriminate.
Qed.

(* the arm `x == y` of analyze_deref_expression, address_depth 0, for a reference whose
   type is not an endless array: the expression built has exactly the known type, unless
   autoderef panics (D11) *)
Theorem promise_eq_ad0 mt known steps y :
  fits mt known steps = true -> steps_within steps -> types_within mt known ->
  type_of_reference mt known steps 0 = Some y ->
  (forall e, y <> VView (VEndless e)) ->
  match autoderef mt known y steps 0 with
  | ADOk _ ta dt c => ta = false /\ c = None /\ dt = y
  | ADError _ => False
  | ADPanic s => s = 3%N
  end.
Proof.
  intros Hfits Hsteps Htypes Hx Hne.
  destruct (loop_total mt known steps Hfits Hsteps Htypes) as (taken & ct & Hl & _ & Hrf).
  rewrite type_of_reference_ad0, Hrf in Hx. injection Hx as <-.
  assert (Hy : view_endless (fully_dereferenced ct) = fully_dereferenced ct).
  { revert Hne. destruct (fully_dereferenced ct) as [| | | | |e| | | | | |]; try reflexivity.
    intros Hne. now destruct (Hne e). }
  rewrite Hy. unfold autoderef. rewrite Hl. apply finish_eq_ad0.
Qed.

Definition steps_consistent (mt : N -> option vt) (known : vt) (r : ad_result) : bool :=
  match apply_tsteps mt known (taken_of r), designated_type r with
  | Some t, Some u => vt_eqb t u
  | _, _ => false
  end.

(* The steps of the loop lead to the type it stops at ([loop_steps_reach]), but the
   "finish the autoderef" fallback (:2954-2968) replaces the type by
   fully_dereferenced() -- which removes views as well -- and pushes pointer_depth()
   Autoderef steps -- which does not count views: behind a view the recorded deref_type is
   not the type the steps lead to.
     fn g(s: []i32);   fn f(a: ([3]i32)) { g(a); }
   the Deref of `a` has no steps but deref_type [3]i32 (the storage holds a view);
   analyze_hinted_arguments then wraps it in Autocoerce{[]i32} and generate_autocoerce
   slices the storage address of the view itself. *)
Example fallback_forgets_autoview :
  let known := VView (VArray i32 3) in
  let r := autoderef no_members known (VSlice i32) [] 0 in
  analyze_deref no_members known [] 0 (Some (VSlice i32)) = Some r /\
  r = ADOk [] false (VArray i32 3) None /\
  steps_consistent no_members known r = false.
Proof. repeat split. Qed.

Example fallback_forgets_autoview_2 :
  let known := VView (VPointer i32) in
  let r := autoderef no_members known i32 [] 0 in
  analyze_deref no_members known [] 0 None = Some r /\
  r = ADOk [] false i32 None /\
  steps_consistent no_members known r = false.
Proof. repeat split. Qed.

Lemma coerce_target_depth ct y :
  can_coerce_into ct y = true -> is_slice_pointer ct = false -> pointer_depth y = 0%N.
Proof.
  destruct ct; cbn [can_coerce_into is_slice_pointer]; try discriminate;
    destruct y; try discriminate; reflexivity.
Qed.

Lemma direct_autoderef_into ct y :
  ptr_run ct = 0%nat -> can_autoderef_into ct y = true ->
  equals ct y = true \/ can_coerce_into ct y = true.
Proof.
  destruct ct; cbn [ptr_run can_autoderef_into]; try discriminate; intros _ H;
    apply orb_true_iff in H; exact H.
Qed.

Lemma finish_promise_direct taken ct y t :
  ptr_run ct = 0%nat ->
  (vt_eqb ct y || can_autoderef_into ct y) = true ->
  result_type (autoderef_finish taken ct y 0) = Some t ->
  equals t y = true.
Proof.
  intros Hrun Hxy.
  destruct (finish_cases taken ct y 0) as [_ _ ->|_ _ ->| | | | | | |Esp Hc]; try lia;
    try discriminate; intros [= <-]; try apply equals_refl.
  (* the last arm: a coercion would have been taken by its own arm *)
  rewrite (fd_direct _ Hrun).
  apply orb_true_iff in Hxy as [H|H]; [now apply vt_eqb_equals|].
  apply (direct_autoderef_into _ _ Hrun) in H as [H|H]; [exact H|].
  rewrite (Hc eq_refl (coerce_target_depth _ _ H Esp)) in H. discriminate H.
Qed.

(* the promise holds for a bare reference that ends neither behind a pointer or view nor
   at an endless array *)
Theorem promise_direct_ad0 mt known steps y taken ct x r t :
  autoderef_loop mt max_num_autoderef_steps known steps = LoopDone taken ct [] ->
  ptr_run ct = 0%nat -> (forall e, ct <> VEndless e) ->
  type_of_reference mt known steps 0 = Some x ->
  (vt_eqb x y || can_autoderef_into x y) = true ->
  autoderef mt known y steps 0 = r -> result_type r = Some t -> equals t y = true.
Proof.
  intros Hl Hrun Hne Hx Hxy <- Hr.
  pose proof (loop_spec mt max_num_autoderef_steps known steps) as Hs. rewrite Hl in Hs.
  assert (Hxct : x = ct).
  { rewrite type_of_reference_ad0, (proj1 (proj2 Hs)) in Hx.
    cbn [ref_final option_map] in Hx. rewrite (fd_direct _ Hrun) in Hx.
    injection Hx as <-. destruct ct; try reflexivity. now destruct (Hne ct). }
  subst x. unfold autoderef in Hr. rewrite Hl in Hr.
  eapply finish_promise_direct; eassumption.
Qed.

(* the hypotheses are satisfiable by non-trivial objects *)
Definition sample_members (m : N) : option vt :=
  match m with
  | 1%N => Some (VArray i32 3)
  | 2%N => Some (VPointer (VStruct 5%N))
  | _ => None
  end.

Lemma sample_members_inv m t :
  sample_members m = Some t -> t = VArray i32 3 \/ t = VPointer (VStruct 5%N).
Proof.
  unfold sample_members.
  destruct m as [|[q|q|]]; try discriminate; try (destruct q; try discriminate);
    intros [= <-]; auto.
Qed.

Example sample_run :
  let known := VView (VStruct 5%N) in
  let steps := [AMember 2; AMember 2; AMember 1; AElement None] in
  fits sample_members known steps = true /\ steps_within steps /\
  types_within sample_members known /\
  type_of_reference sample_members known steps 0 = Some i32 /\
  autoderef sample_members known i32 steps 0
  = ADOk [TAutoview; TMember 2; TAutoderef; TMember 2; TAutoderef; TMember 1;
          TElement (Some false)] false i32 None.
Proof.
  cbv zeta. split; [reflexivity|]. split; [apply steps_within_small; cbn; lia|].
  split; [|split; reflexivity].
  split; [reflexivity|].
  intros m t E. destruct (sample_members_inv m t E) as [-> | ->]; reflexivity.
Qed.

Example sample_coercions :
  autoderef no_members (VArray i32 5) (VSlicePointer i32) [] 1
  = ADOk [] true (VPointer (VArray i32 5)) (Some (VSlicePointer i32)) /\
  autoderef no_members (VArray i32 5) (VPointer (VEndless i32)) [] 1
  = ADOk [] true (VPointer (VArray i32 5)) (Some (VPointer (VEndless i32))) /\
  autoderef no_members (VStruct 5%N) (VView (VStruct 5%N)) [] 0
  = ADOk [] false (VStruct 5%N) (Some (VView (VStruct 5%N))) /\
  autoderef no_members i32 i32 [] 3 = ADError E538.
Proof. repeat split. Qed.

(* the other lines of autoderef_edge_cases.pn: `use_slice_ptr(&ptr_to_five_zeroes)` with
   ptr_to_five_zeroes: &[5]i32.  The known type &[5]i32 can_autoderef_into &[]i32 (through
   can_coerce_address_into of the pointee), but the address coercion test (:2917) looks at
   the type before the dereference: no Autocoerce, the argument keeps the type &[5]i32 and
   analyze_hinted_arguments cannot repair it (can_coerce_into has no Pointer arm). *)
Example promise_refuted_address_of_pointer_to_array :
  let p := VPointer (VArray i32 5) in
  type_of_reference no_members p [] 1 = Some p /\
  can_autoderef_into p (VSlicePointer i32) = true /\
  autoderef no_members p (VSlicePointer i32) [] 1 = ADOk [] false p None /\
  argument_coercion p (VSlicePointer i32) = None /\
  autoderef no_members (VPointer p) (VSlicePointer i32) [] 1 = ADOk [TAutoderef] false p None.
Proof. repeat split. Qed.

(* `&&&a` with a: i32 where &i32 is expected: &&&i32 can_autoderef_into &i32 (through
   can_subautoderef_into), so &i32 is the target.  The take-address arm (:2907, repaired
   source :2916) asks for address_depth == 1 + pointer_depth: the excess `&` are
   E538 AddressOfTemporaryAddress.  With the condition of the pinned source
   (address_depth > 0) they were dropped. *)
Example excess_addresses_rejected :
  type_of_reference no_members i32 [] 3 = Some (VPointer (VPointer (VPointer i32))) /\
  deref_target (VPointer (VPointer (VPointer i32))) (Some (VPointer i32)) = VPointer i32 /\
  autoderef no_members i32 (VPointer i32) [] 3 = ADError E538 /\
  autoderef no_members i32 (VPointer (VPointer (VPointer i32))) [] 3 = ADError E538 /\
  autoderef no_members i32 (VPointer i32) [] 1 = ADOk [] true (VPointer i32) None.
Proof. repeat split. Qed.

Example excess_addresses_accepted_pinned :
  autoderef_pinned no_members i32 (VPointer i32) [] 3 = ADOk [] true (VPointer i32) None.
Proof. reflexivity. Qed.

(* Every result that takes an address without a coercion takes exactly one address more
   than the type the steps end at has pointers; with a coercion (:2916 / :2925, unchanged)
   only address_depth > 0 is known. *)
Theorem finish_take_address taken ct target ad tk dt c :
  autoderef_finish taken ct target ad = ADOk tk true dt c ->
  tk = taken /\ dt = VPointer ct /\
  match c with
  | None => ad = (1 + pointer_depth ct)%N
  | Some c' => c' = target /\ (0 < ad)%N /\ can_coerce_address_into ct target = true
  end.
Proof.
  destruct (finish_cases taken ct target ad); intros E; try discriminate E;
    injection E as <- <- <-; auto.
Qed.

Theorem autoderef_take_address mt known target steps ad tk dt :
  autoderef mt known target steps ad = ADOk tk true dt None ->
  exists ct dropped,
    autoderef_loop mt max_num_autoderef_steps known steps = LoopDone tk ct dropped /\
    dt = VPointer ct /\ ad = (1 + pointer_depth ct)%N.
Proof.
  unfold autoderef.
  destruct (autoderef_loop mt max_num_autoderef_steps known steps) as [taken ct rest|s];
    [|discriminate].
  intros H. apply finish_take_address in H as (-> & -> & ->). eauto.
Qed.

Example take_address_pinned_refuted :
  exists taken ct target ad tk dt,
    autoderef_finish_pinned taken ct target ad = ADOk tk true dt None /\
    ad <> (1 + pointer_depth ct)%N.
Proof.
  exists [], i32, (VPointer i32), 3%N, [], (VPointer i32). split; [reflexivity|discriminate].
Qed.

(* the class D11 of the pinned source had one more exception under address_depth 1 *)
Definition no_solution_pinned (ct target : vt) (ad : N) : bool :=
  is_slice_pointer ct &&
  (N.eqb ad 0
   || (N.eqb ad 1 && negb (vt_eqb ct target)
       && negb (opt_vt_eqb (get_pointee_type target) ct))).

(* `&data` with data: &[]i32 where the (ill-formed) type &&[]i32 is the target: the pinned
   arm took the address, the repaired one leaves it to the "no solution" panic *)
Example no_solution_differs_from_pinned :
  let sp := VSlicePointer i32 in
  autoderef_pinned no_members sp (VPointer sp) [] 1 = ADOk [] true (VPointer sp) None /\
  autoderef no_members sp (VPointer sp) [] 1 = ADPanic 3 /\
  is_wellformed (VPointer sp) = false /\
  no_solution_pinned sp (VPointer sp) 1 = false /\ no_solution sp (VPointer sp) 1 = true.
Proof. repeat split. Qed.

(* MemLower.pty has structural structures (PStruct ms) where vt has nominal ones plus a
   member table; the correspondence is stated on the fragment without structures, where
   the paths are element steps only. *)
Fixpoint vt_of_pty (t : MemLower.pty) : vt :=
  match t with
  | MemLower.PInt _ => VPrim KInt32
  | MemLower.PBool => VPrim KBool
  | MemLower.PArr n e => VArray (vt_of_pty e) (Z.to_N n)
  | MemLower.PStruct _ => VUnresolved None
  | MemLower.PPtr u => VPointer (vt_of_pty u)
  | MemLower.PView u => VView (vt_of_pty u)
  | MemLower.PSlice e => VSlice (vt_of_pty e)
  | MemLower.PSlicePtr e => VSlicePointer (vt_of_pty e)
  | MemLower.PEndless e => VEndless (vt_of_pty e)
  end.

Definition astep_of_step (s : MemLower.step) : astep :=
  match s with
  | MemLower.SElem _ => AElement None
  | MemLower.SMember k => AMember (N.of_nat k)
  end.

(* a taken step as a resolved step, the index expression forgotten *)
Definition rstep_of_tstep (s : tstep) : MemLower.rstep :=
  match s with
  | TElement (Some b) => MemLower.RElem 0 b
  | TElement None => MemLower.RElem 0 false          (* resolver.rs:888 unwrap_or(false) *)
  | TMember m => MemLower.RMember (N.to_nat m)
  | TAutoderef => MemLower.RAutoderef
  | TAutoview => MemLower.RAutoview
  | TAutodesliceByView | TAutodesliceByPointer => MemLower.RDeslice0
  end.

Definition forget_index (s : MemLower.rstep) : MemLower.rstep :=
  match s with
  | MemLower.RElem _ b => MemLower.RElem 0 b
  | other => other
  end.

Lemma vt_of_pty_not_arraylike t e : vt_of_pty t <> VArraylike e.
Proof. destruct t; discriminate. Qed.

Fixpoint struct_free (t : MemLower.pty) : bool :=
  match t with
  | MemLower.PStruct _ => false
  | MemLower.PInt _ | MemLower.PBool => true
  | MemLower.PArr _ e | MemLower.PPtr e | MemLower.PView e | MemLower.PSlice e
  | MemLower.PSlicePtr e | MemLower.PEndless e => struct_free e
  end.

Theorem elaborate_is_autoderef_loop : forall fuel t p rs t',
  struct_free t = true ->
  MemLower.elaborate_fuel fuel t p = Some (rs, t') ->
  exists taken,
    autoderef_loop no_members fuel (vt_of_pty t) (map astep_of_step p)
    = LoopDone taken (vt_of_pty t') [] /\
    map rstep_of_tstep taken = map forget_index rs.
Proof.
  induction fuel as [|fuel IH]; intros t [|s p] rs t' Hsf H;
    try (injection H as <- <-; now exists []); [discriminate H|].
  cbn [MemLower.elaborate_fuel] in H. rewrite loop_unfold.
  destruct t as [b| |n e|ms|u|u|e|e|e]; try discriminate Hsf; cbn [struct_free] in Hsf;
    destruct s as [i|k]; try discriminate H.
  (* on every type the two functions do the same first iteration *)
  all: destruct (MemLower.elaborate_fuel fuel _ _) as [[rs0 t0]|] eqn:E; [|discriminate H].
  all: injection H as <- <-; destruct (IH _ _ _ _ Hsf E) as (tk & Hl & Hm).
  all: cbn [map astep_of_step vt_of_pty] in Hl |- *.
  all: rewrite ?loop1_pointer, ?loop1_view by apply vt_of_pty_not_arraylike.
  all: cbn [autoderef_loop loop_cons app]; rewrite Hl; cbn [loop_cons]; (eexists; split; [reflexivity|]).
  all: cbn [app map rstep_of_tstep forget_index]; now rewrite Hm.
Qed.

Lemma budgets_agree : MemLower.MAX_NUM_AUTODEREF_STEPS = max_num_autoderef_steps.
Proof.
  apply Nat2Z.inj. rewrite max_steps_Z. unfold MemLower.MAX_NUM_AUTODEREF_STEPS.
  rewrite Nat2Z.inj_add, Nat2Z.inj_mul. reflexivity.
Qed.

(* the two constants are generalised before rewriting: a conversion between
   127 * 128 + 127 and Z.to_nat 16383 in unary is too slow for the kernel *)
Lemma elaborate_budget t p :
  MemLower.elaborate t p = MemLower.elaborate_fuel max_num_autoderef_steps t p.
Proof.
  unfold MemLower.elaborate. generalize budgets_agree.
  generalize MemLower.MAX_NUM_AUTODEREF_STEPS, max_num_autoderef_steps.
  intros a b ->. reflexivity.
Qed.

(* On MemLower's fragment, a read of a scalar (address_depth 0, the scalar type as target)
   takes exactly the resolved steps of MemLower.elaborate. *)
Corollary elaborate_is_autoderef t p rs t' :
  struct_free t = true ->
  MemLower.elaborate t p = Some (rs, t') ->
  (exists b, t' = MemLower.PInt b) \/ t' = MemLower.PBool ->
  exists taken,
    autoderef no_members (vt_of_pty t) (vt_of_pty t') (map astep_of_step p) 0
    = ADOk taken false (vt_of_pty t') None /\
    map rstep_of_tstep taken = map forget_index rs.
Proof.
  intros Hsf H Hscalar. rewrite elaborate_budget in H.
  destruct (elaborate_is_autoderef_loop _ _ _ _ _ Hsf H) as (taken & Hl & Hm).
  exists taken. split; [|exact Hm].
  assert (Hfin : autoderef_finish taken (vt_of_pty t') (vt_of_pty t') 0
                 = ADOk taken false (vt_of_pty t') None).
  { destruct Hscalar as [[b ->]| ->]; reflexivity. }
  unfold autoderef. rewrite Hl. exact Hfin.
Qed.

Print Assumptions equals_trans.
Print Assumptions loop_total.
Print Assumptions autoderef_no_solution_iff.
Print Assumptions autoderef_loop_never_panics.
Print Assumptions autoderef_coercion_implemented.
Print Assumptions argument_coercion_of_deref_implemented.
Print Assumptions promise_eq_ad0.
Print Assumptions promise_direct_ad0.
Print Assumptions loop_steps_reach.
Print Assumptions deep_pointer_type_exhausts_budget.
Print Assumptions elaborate_is_autoderef.
Print Assumptions finish_take_address.
Print Assumptions autoderef_take_address.
