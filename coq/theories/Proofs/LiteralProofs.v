(* Literals mean what they say: materialisation yields the value modulo 2^width,
   and the truncation lint is raised exactly for values outside the type's range.
   Both are proved per shape of parsed literal ([literal_shape]); the lint also rests
   on the linter's range of a type being that of its LLVM width, read off the
   generated tables by one evaluation ([lint_range_is_width]). *)
From Coq Require Import ZArith Lia Bool.
From PV Require Import Base.Common Base.IR Base.Bits Model.Literal.
Open Scope Z_scope.

(* SignedIntegerLiteral arm.  Of the generated bounds of the case split only this much is used:
   the sign-extended case lies inside i64, the zero-extended one inside u64. *)
Lemma materialise_signed_correct w v : 0 < w <= 128 -> materialise_signed w v = repr w v.
Proof.
  intros Hw. unfold materialise_signed, const_int.
  destruct ((signed_lit_small_min <=? v) && (v <=? -1)) eqn:Eneg;
    [|destruct ((0 <=? v) && (v <=? signed_lit_small_max)) eqn:Epos].
  - rewrite andb_true_iff, !Z.leb_le in Eneg. unfold signed_lit_small_min in Eneg.
    rewrite sgn_repr; [reflexivity | lia | unfold in_s; lia].
  - rewrite andb_true_iff, !Z.leb_le in Epos. unfold signed_lit_small_max in Epos.
    rewrite (repr_small 64 v); [reflexivity | unfold in_u; lia].
  - apply repr_repr_le. lia.
Qed.

(* BitIntegerLiteral arm: usize goes through a 64-bit word, hence the bound on the target's width *)
Lemma materialise_bit_correct usize_bits t v :
  usize_bits = 32 \/ usize_bits = 64 -> bit_lit_usize_mask = None ->
  materialise_bit t (vt_bits usize_bits t) v = repr (vt_bits usize_bits t) v.
Proof.
  intros Hu Hm. unfold materialise_bit, const_int.
  destruct t; cbn [vt_bits];
    try (destruct (v <=? 2 ^ 64 - 1); [reflexivity | apply repr_repr_le; lia]).
  rewrite Hm. cbn [masked]. apply repr_repr_le. lia.
Qed.

(* What the pinned commit did to usize literals (D2). *)
Lemma materialise_bit_masked_refuted :
  repr 64 (repr 64 (masked (Some 4294967295) 4294967296)) <> repr 64 4294967296.
Proof. vm_compute. discriminate. Qed.

Definition range_is_width (ub : Z) (t : prim) : bool :=
  let b := vt_bits ub t in
  (8 <=? b) && (b <=? 128) &&
  if vt_is_signed t then (vt_min t =? - 2 ^ (b - 1)) && (lint_max ub t =? 2 ^ (b - 1) - 1)
  else (vt_min t =? 0) && (lint_max ub t =? 2 ^ b - 1).

(* On either target the linter's range of a type other than bool is the range of the LLVM integer
   type the generator gives it there: one evaluation over the table of types. *)
Lemma lint_range_is_width ub t : ub = 32 \/ ub = 64 -> t <> Bool ->
  8 <= vt_bits ub t <= 128 /\
  if vt_is_signed t
  then vt_min t = - 2 ^ (vt_bits ub t - 1) /\ lint_max ub t = 2 ^ (vt_bits ub t - 1) - 1
  else vt_min t = 0 /\ lint_max ub t = 2 ^ vt_bits ub t - 1.
Proof.
  intros Hub Ht.
  assert (T : forallb (fun t => prim_eqb t Bool || range_is_width ub t) all_prims = true)
    by (destruct Hub as [-> | ->]; vm_compute; reflexivity).
  rewrite forallb_forall in T. specialize (T t (all_prims_complete t)).
  apply orb_true_iff in T as [E | T]; [now apply prim_eqb_eq in E|]. unfold range_is_width in T.
  apply andb_prop in T as [W T]. apply andb_prop in W as [W1 W2]. apply Z.leb_le in W1, W2.
  split; [now split|].
  destruct (vt_is_signed t); apply andb_prop in T as [T1 T2]; apply Z.eqb_eq in T1, T2; now split.
Qed.

Lemma integral_not_bool t : vt_is_integral t = true -> t <> Bool.
Proof. now intros H ->. Qed.

Lemma lint_max_64 t : lint_max 64 t = vt_max t.
Proof. destruct t; reflexivity. Qed.

(* What the characterisation of the lint uses of a range.  2^127 is kept behind a name wherever
   lia runs: checking its certificates on 128-bit numerals is slow. *)
Lemma lint_max_range_facts ub t : ub = 32 \/ ub = 64 -> vt_is_integral t = true ->
  vt_min t <= 0 < lint_max ub t /\ lint_max ub t < 2 * 2 ^ 127 /\
  if vt_is_signed t then vt_min t = - lint_max ub t - 1 /\ lint_max ub t < 2 ^ 127 else vt_min t = 0.
Proof.
  intros Hub Ht. destruct (lint_range_is_width ub t Hub (integral_not_bool t Ht)) as [Hb R].
  set (b := vt_bits ub t) in *.
  assert (Hp : 2 ^ 1 <= 2 ^ (b - 1) <= 2 ^ 127) by (split; apply pow2_le; lia).
  pose proof (modulus_half b ltac:(lia)) as Hh. unfold modulus in Hh.
  set (Q := 2 ^ 127) in *. clearbody Q.
  destruct (vt_is_signed t); destruct R as [-> ->]; lia.
Qed.

(* The literal expression a spelling (sign, token of magnitude m) is parsed into:
   parse_primary_expression without the sign, parse_unary_expression's folding with it. *)
Inductive literal_shape (m : Z) : bool -> lit -> Prop :=
| shape_signed : m <= i128_max -> literal_shape m false (LSigned m)
| shape_bit : literal_shape m false (LBit m)
| shape_folded : 0 < m <= i128_max -> literal_shape m true (LSigned (- m))
| shape_neg_signed : m <= 0 -> literal_shape m true (LNeg (LSigned m))
| shape_i128_min : m = 2 ^ 127 -> literal_shape m true (LSigned i128_min)
| shape_neg_bit : m <> 2 ^ 127 -> literal_shape m true (LNeg (LBit m)).

Lemma parse_primary_shape tok : literal_shape (magnitude tok) false (fst (parse_primary tok)).
Proof.
  destruct tok as [v|v|v ty]; cbn [parse_primary magnitude fst].
  - destruct (Z.leb_spec v i128_max); now constructor.
  - constructor.
  - destruct (vt_is_signed ty); cbn [andb]; [destruct (Z.leb_spec v i128_max)|]; now constructor.
Qed.

Lemma source_literal_shape neg tok :
  literal_shape (magnitude tok) neg (fst (source_literal true neg tok)).
Proof.
  pose proof (parse_primary_shape tok) as P.
  unfold source_literal. destruct (parse_primary tok) as [l s]. cbn [fst] in *.
  destruct neg; [|exact P]. inversion_clear P; cbn [fold_minus andb].
  - destruct (Z.ltb_spec 0 (magnitude tok)); constructor; lia.
  - destruct (Z.eqb_spec (magnitude tok) (i128_max + 1)) as [E|E];
      unfold i128_max in E; rewrite Z.sub_add in E; now constructor.
Qed.

(* a negated literal that is not folded needs a signed type *)
Definition admissible (l : lit) (t : prim) : Prop :=
  match l with LNeg _ => vt_is_signed t = true | _ => True end.

(* The lint on a literal of any of these shapes; the magnitude needs no upper bound. *)
Lemma lint_on_shape ub t m neg l : ub = 32 \/ ub = 64 -> vt_is_integral t = true ->
  literal_shape m neg l -> 0 <= m -> admissible l t ->
  (lint_on ub l t = true <-> ~ (vt_min t <= (if neg then - m else m) <= lint_max ub t)).
Proof.
  intros Hub Ht Hl Hm.
  destruct (lint_max_range_facts ub t Hub Ht) as (A & B & S).
  assert (I : i128_max = 2 ^ 127 - 1 /\ i128_min = - 2 ^ 127) by (split; reflexivity).
  destruct Hl; cbn [lint_on admissible]; intros Hadm; set (Q := 2 ^ 127) in *; clearbody Q.
  - destruct (Z.ltb_spec m 0); [lia|]. rewrite Z.ltb_lt. lia.
  - rewrite Z.ltb_lt. lia.
  - destruct (Z.ltb_spec (- m) 0); [|lia]. rewrite Z.ltb_lt. lia.
  - (* -0 *) destruct (Z.ltb_spec m 0); [lia|]. rewrite Z.ltb_lt. lia.
  - (* magnitude 2^127, folded into i128::MIN: in range exactly for the signed type of full width *)
    destruct (Z.ltb_spec i128_min 0); [|lia]. rewrite Z.ltb_lt. destruct (vt_is_signed t); lia.
  - (* unfolded negation of a bit-integer literal: the type is signed, and the Unary arm allows max + 1 *)
    rewrite Hadm in *. rewrite Z.ltb_lt. lia.
Qed.

(* With the repaired parser: for every spelling (sign, magnitude < 2^128) of a
   literal that ends up with integer type t and is admissible there, the lint is
   raised iff the mathematical value lies outside [min t, max t] on the target. *)
Theorem lint_on_characterisation : forall ub neg tok t,
  ub = 32 \/ ub = 64 ->
  0 <= magnitude tok < 2 ^ 128 -> vt_is_integral t = true ->
  let l := fst (source_literal true neg tok) in
  admissible l t ->
  (lint_on ub l t = true <-> ~ (vt_min t <= math_value neg tok <= lint_max ub t)).
Proof.
  intros ub neg tok t Hub [Hm _] Ht. apply lint_on_shape; auto using source_literal_shape.
Qed.

(* on the host target, where usize has 64 bits *)
Theorem lint_characterisation : forall neg tok t,
  0 <= magnitude tok < 2 ^ 128 -> vt_is_integral t = true ->
  let l := fst (source_literal true neg tok) in
  admissible l t ->
  (lint l t = true <-> ~ (vt_min t <= math_value neg tok <= vt_max t)).
Proof.
  intros neg tok t Hm Ht. rewrite <- lint_max_64.
  exact (lint_on_characterisation 64 neg tok t (or_intror eq_refl) Hm Ht).
Qed.

(* Corollary on either target: a literal that raises no lint lies in the range its type has on that
   target - in particular a usize literal compiled for WebAssembly fits 32 bits. *)
Corollary no_lint_in_range_on : forall ub neg tok t,
  ub = 32 \/ ub = 64 ->
  0 <= magnitude tok < 2 ^ 128 -> vt_is_integral t = true ->
  admissible (fst (source_literal true neg tok)) t ->
  lint_on ub (fst (source_literal true neg tok)) t = false ->
  vt_min t <= math_value neg tok <= lint_max ub t.
Proof.
  intros ub neg tok t Hub Hm Ht Hadm Hl.
  rewrite <- not_true_iff_false, (lint_on_characterisation ub neg tok t Hub Hm Ht Hadm) in Hl. lia.
Qed.

(* The same for the host's linter [lint]: its range [vt_min t, vt_max t] is the range of t on both
   targets unless t is usize. *)
Corollary no_lint_in_range : forall neg tok t,
  0 <= magnitude tok < 2 ^ 128 -> vt_is_integral t = true ->
  admissible (fst (source_literal true neg tok)) t ->
  lint (fst (source_literal true neg tok)) t = false ->
  vt_min t <= math_value neg tok <= vt_max t.
Proof.
  intros neg tok t. rewrite <- lint_max_64. exact (no_lint_in_range_on 64 neg tok t (or_intror eq_refl)).
Qed.

Lemma lint_max_is_target_range ub t : ub = 32 \/ ub = 64 -> vt_is_integral t = true -> vt_is_signed t = false ->
  lint_max ub t = 2 ^ vt_bits ub t - 1.
Proof. intros Hub Ht S. pose proof (lint_range_is_width ub t Hub (integral_not_bool t Ht)) as [_ R]. rewrite S in R. apply R. Qed.

(* D54 (repaired): the 64-bit range applied on the 32-bit target let `4294967296` through as a usize *)
Lemma lint_wasm_usize_pinned_refuted :
  lint_on 64 (fst (source_literal true false (TNaked (2 ^ 32)))) Usize = false /\
  ~ (math_value false (TNaked (2 ^ 32)) <= 2 ^ vt_bits 32 Usize - 1) /\
  lint_on 32 (fst (source_literal true false (TNaked (2 ^ 32)))) Usize = true.
Proof. vm_compute. split; [reflexivity | split; [intros H; apply H; reflexivity | reflexivity]]. Qed.

(* The pinned commit (no folding of 2^127): i128::MIN written in decimal raised the lint. *)
Lemma lint_i128_min_refuted :
  lint_pinned (fst (source_literal false true (TNaked (2 ^ 127)))) Int128 = true /\
  vt_min Int128 <= math_value true (TNaked (2 ^ 127)) <= vt_max Int128.
Proof. vm_compute. split; [reflexivity | split; discriminate]. Qed.

(* and the class that remained until D22 was repaired: the pinned linter flagged `-0x80` as i8; the current one does not *)
Lemma lint_negated_bits_false_positive :
  lint_pinned (fst (source_literal true true (TBits 128))) Int8 = true /\
  lint (fst (source_literal true true (TBits 128))) Int8 = false /\
  vt_min Int8 <= math_value true (TBits 128) <= vt_max Int8.
Proof. vm_compute. split; [reflexivity | split; [reflexivity | split; discriminate]]. Qed.

(* The false positives the linter had until D22 was repaired: a negated literal that was
   parsed as a bit-integer literal (0x.., 0b.., or a suffixed unsigned one) whose magnitude
   is exactly max t + 1, so that its negation is min t (e.g. `-0x80` as i8). *)
Definition false_positive_on (ub : Z) (neg : bool) (tok : itok) (t : prim) : Prop :=
  neg = true /\ exists v, fst (parse_primary tok) = LBit v /\ v = lint_max ub t + 1 /\ v <> 2 ^ 127.
Definition false_positive (neg : bool) (tok : itok) (t : prim) : Prop :=
  neg = true /\ exists v, fst (parse_primary tok) = LBit v /\ v = vt_max t + 1 /\ v <> 2 ^ 127.

(* The value of a literal of any of these shapes, at any type of 1 to 128 bits, usize of at most 64. *)
Lemma bits_of_shape ub t m neg l : ub = 32 \/ ub = 64 -> bit_lit_usize_mask = None ->
  0 < vt_bits ub t <= 128 -> literal_shape m neg l ->
  bits_of ub l t = repr (vt_bits ub t) (if neg then - m else m).
Proof.
  intros Hu Hmask Hw Hl.
  destruct Hl as [| | | |E|]; cbn [bits_of];
    rewrite ?materialise_signed_correct, ?materialise_bit_correct by assumption; try reflexivity.
  - apply repr_opp. lia.
  - now rewrite E.
  - apply repr_opp. lia.
Qed.

Theorem bits_of_correct : forall usize_bits neg tok t,
  usize_bits = 32 \/ usize_bits = 64 -> bit_lit_usize_mask = None ->
  0 <= magnitude tok < 2 ^ 128 -> vt_is_integral t = true ->
  bits_of usize_bits (fst (source_literal true neg tok)) t
  = repr (vt_bits usize_bits t) (math_value neg tok).
Proof.
  intros ub neg tok t Hu Hmask _ Ht. apply bits_of_shape; auto using source_literal_shape.
  destruct (lint_range_is_width ub t Hu (integral_not_bool t Ht)). lia.
Qed.
