(* Proofs about Model/MemLower.v (property C01): the address the generator
   computes for an access path is the address of the source-level subobject.

   Part 1, one object.  [subobj] relates a path in a well-typed value to the byte
   window getelementptr gives it.  Bounds, the image of the subobject, disjointness
   of parted paths and the effect of a store are inductions over that relation;
   the theorems worded with get_path and gep_offset follow through [subobj_of]
   and [subobj_intro].

   Part 2, the generator.  [sim_steps]: while the resolved steps are lowered, the
   pending GEP always denotes the location the steps have reached; this gives
   [lower_ref_sound].  Paths in locals, slice elements and paths behind a pointer
   are its instances on plain steps ([sem_steps_plain]).  The generator of the
   pinned commit emits the same instructions except behind the Autodeslice of a
   slice parameter ([lower_ref_pinned_eq], [pinned_imm_flag_refuted]). *)
From PV Require Import Base.Common Model.Layout Proofs.LayoutProofs Model.MemLower.
Open Scope Z_scope.

(* The model recurses over element and member lists by local fixes; the definitions
   and equations below give them names. *)

Fixpoint wt_list (e : ty) (l : list value) : bool :=
  match l with
  | [] => true
  | x :: r => wt_value e x && wt_list e r
  end.

Fixpoint wt_members (l : list value) (ms : list ty) : bool :=
  match l, ms with
  | [], [] => true
  | x :: r, m :: ms' => wt_value m x && wt_members r ms'
  | _, _ => false
  end.

Lemma wt_list_forallb e vs : wt_list e vs = forallb (wt_value e) vs.
Proof. induction vs as [|x r IH]; cbn [wt_list forallb]; congruence. Qed.

Lemma wt_value_arr n e vs :
  wt_value (TArr n e) (VArr vs) = (Z.of_nat (length vs) =? n) && wt_list e vs.
Proof. rewrite wt_list_forallb. reflexivity. Qed.

Lemma wt_value_struct ms vs : wt_value (TStruct ms) (VStruct vs) = wt_members vs ms.
Proof. reflexivity. Qed.

Lemma typed_arr n e vs :
  wf_ty (TArr n e) = true /\ wt_value (TArr n e) (VArr vs) = true <->
  wf_ty e = true /\ wt_list e vs = true /\ Z.of_nat (length vs) = n.
Proof.
  cbn [wf_ty]. rewrite wt_value_arr, !andb_true_iff, Z.leb_le, Z.eqb_eq. intuition lia.
Qed.

Definition enc_arr (e : ty) : list value -> Z -> cell :=
  fix go (l : list value) (o : Z) : cell :=
    match l with
    | [] => CPad
    | x :: r =>
        if (0 <=? o) && (o <? llvm_alloc_size e) then enc e x o
        else go r (o - llvm_alloc_size e)
    end.

Definition enc_members (o : Z) : list value -> list ty -> list Z -> cell :=
  fix go (l : list value) (ms : list ty) (offs : list Z) : cell :=
    match l, ms, offs with
    | x :: r, m :: ms', off :: offs' =>
        if (off <=? o) && (o <? off + llvm_alloc_size m) then enc m x (o - off)
        else go r ms' offs'
    | _, _, _ => CPad
    end.

Lemma enc_arr_nil e o : enc_arr e [] o = CPad.
Proof. reflexivity. Qed.

Lemma enc_arr_cons e x r o :
  enc_arr e (x :: r) o =
  if (0 <=? o) && (o <? llvm_alloc_size e) then enc e x o
  else enc_arr e r (o - llvm_alloc_size e).
Proof. reflexivity. Qed.

Lemma enc_members_cons o x r m ms off offs :
  enc_members o (x :: r) (m :: ms) (off :: offs) =
  if (off <=? o) && (o <? off + llvm_alloc_size m) then enc m x (o - off)
  else enc_members o r ms offs.
Proof. reflexivity. Qed.

Lemma enc_arr_eq n e vs o : enc (TArr n e) (VArr vs) o = enc_arr e vs o.
Proof. reflexivity. Qed.

Lemma enc_struct_eq ms vs o :
  enc (TStruct ms) (VStruct vs) o = enc_members o vs ms (struct_offsets ms).
Proof. reflexivity. Qed.

Definition load_members (m : mem) (a : Z) : list ty -> list Z -> option (list value) :=
  fix go (l : list ty) (offs : list Z) : option (list value) :=
    match l, offs with
    | [], _ => Some []
    | x :: r, off :: offs' =>
        match load m (a + off) x, go r offs' with
        | Some v, Some vs => Some (v :: vs)
        | _, _ => None
        end
    | _ :: _, [] => None
    end.

Lemma load_struct_eq m a ms :
  load m a (TStruct ms) = option_map VStruct (load_members m a ms (struct_offsets ms)).
Proof. reflexivity. Qed.

Lemma wt_list_Forall e vs : wt_list e vs = true <-> Forall (fun x => wt_value e x = true) vs.
Proof. rewrite wt_list_forallb. apply forallb_Forall. Qed.

Lemma wt_list_nth e vs k x :
  wt_list e vs = true -> nth_error vs k = Some x -> wt_value e x = true.
Proof. rewrite wt_list_forallb. apply forallb_nth_error. Qed.

Lemma wt_members_nth vs : forall ms k x,
  wt_members vs ms = true -> nth_error vs k = Some x ->
  exists m, nth_error ms k = Some m /\ wt_value m x = true.
Proof.
  induction vs as [|y r IH]; intros ms k x Hwt Hn; [destruct k; discriminate|].
  destruct ms as [|m ms']; cbn [wt_members] in Hwt; [discriminate|].
  apply andb_true_iff in Hwt as [Hy Hr].
  destruct k as [|k']; cbn [nth_error] in Hn |- *.
  - inversion Hn; subst. now exists m.
  - eapply IH; eassumption.
Qed.

Lemma wt_members_length vs : forall ms, wt_members vs ms = true -> length vs = length ms.
Proof.
  induction vs as [|y r IH]; intros [|m ms'] H; cbn [wt_members] in H; try discriminate;
    [reflexivity|].
  apply andb_true_iff in H as [_ H]. cbn [length]. f_equal. now apply IH.
Qed.

Lemma nth_error_upd_same {A} (l : list A) : forall k x y,
  nth_error l k = Some y -> nth_error (upd_nth l k x) k = Some x.
Proof.
  induction l as [|z r IH]; intros k x y H; [destruct k; discriminate|].
  destruct k as [|k']; cbn [upd_nth nth_error] in *; [reflexivity|]. eapply IH; eassumption.
Qed.

Lemma nth_error_upd_other {A} (l : list A) : forall k j x,
  k <> j -> nth_error (upd_nth l k x) j = nth_error l j.
Proof.
  induction l as [|z r IH]; intros k j x H; [destruct k; reflexivity|].
  destruct k as [|k'], j as [|j']; cbn [upd_nth nth_error]; try reflexivity; try congruence.
  apply IH. congruence.
Qed.

Lemma length_upd_nth {A} (l : list A) : forall k x, length (upd_nth l k x) = length l.
Proof.
  induction l as [|z r IH]; intros k x; [destruct k; reflexivity|].
  destruct k as [|k']; cbn [upd_nth length]; [reflexivity|]. now rewrite IH.
Qed.

Lemma wt_list_upd e vs : forall k x,
  wt_list e vs = true -> wt_value e x = true -> wt_list e (upd_nth vs k x) = true.
Proof.
  induction vs as [|y r IH]; intros k x Hwt Hx; [destruct k; reflexivity|].
  cbn [wt_list] in Hwt. apply andb_true_iff in Hwt as [Hy Hr].
  destruct k as [|k']; cbn [upd_nth wt_list]; apply andb_true_iff; split; auto.
Qed.

Lemma wt_members_upd vs : forall ms k x m,
  wt_members vs ms = true -> nth_error ms k = Some m -> wt_value m x = true ->
  wt_members (upd_nth vs k x) ms = true.
Proof.
  induction vs as [|y r IH]; intros ms k x m Hwt Hm Hx; [destruct k; exact Hwt|].
  destruct ms as [|m0 ms']; cbn [wt_members] in Hwt; [discriminate|].
  apply andb_true_iff in Hwt as [Hy Hr].
  destruct k as [|k']; cbn [upd_nth wt_members nth_error] in *; apply andb_true_iff; split; auto.
  - now inversion Hm; subst.
  - eapply IH; eassumption.
Qed.

Lemma scalar_size_alloc t :
  wf_ty t = true -> scalar_size t = llvm_alloc_size t \/ scalar_size t = 0.
Proof.
  destruct t as [b| | |n e|ms]; intros Hwf; cbn [scalar_size]; try (right; reflexivity).
  - left. symmetry. exact (llvm_alloc_size_int b Hwf).
  - left. reflexivity.
  - left. reflexivity.
Qed.

(* [subobj t v p off t' v']: in the well-typed object v : t, the path p leads to
   v' : t', which getelementptr places at byte offset off.  Everything below about
   one object is an induction over this relation; [subobj_of] is the only place
   where get_path and gep_offset are unfolded against each other. *)
Inductive subobj : ty -> value -> path -> Z -> ty -> value -> Prop :=
| sub_here t v : wf_ty t = true -> wt_value t v = true -> subobj t v [] 0 t v
| sub_elem n e vs i x p off t' v' :
    wf_ty e = true -> wt_list e vs = true -> Z.of_nat (length vs) = n ->
    0 <= i -> nth_error vs (Z.to_nat i) = Some x ->
    subobj e x p off t' v' ->
    subobj (TArr n e) (VArr vs) (SElem i :: p) (i * llvm_alloc_size e + off) t' v'
| sub_member ms vs k m x fo p off t' v' :
    wf_ty_list ms = true -> wt_members vs ms = true ->
    nth_error vs k = Some x -> nth_error ms k = Some m ->
    nth_error (struct_offsets ms) k = Some fo ->
    subobj m x p off t' v' ->
    subobj (TStruct ms) (VStruct vs) (SMember k :: p) (fo + off) t' v'.

Lemma subobj_of : forall p t v v',
  wf_ty t = true -> wt_value t v = true -> get_path v p = Some v' ->
  exists off t', gep_offset t p = Some (off, t') /\ subobj t v p off t' v'.
Proof.
  induction p as [|[i|k] p IH]; intros t v v' Hwf Hwt Hg; cbn [get_path] in Hg.
  - inversion Hg; subst. exists 0, t. split; [reflexivity|now constructor].
  - destruct v as [z|vs|vs]; try discriminate. destruct t as [b| | |n e|ms]; try discriminate.
    destruct (proj1 (typed_arr n e vs) (conj Hwf Hwt)) as (He & Hl & Hlen).
    destruct (Z.ltb_spec i 0) as [|Hi]; [discriminate|].
    destruct (nth_error vs (Z.to_nat i)) as [x|] eqn:Hn; [|discriminate].
    destruct (IH e x v' He (wt_list_nth e vs _ x Hl Hn) Hg) as (off & t' & Hgo & Hs).
    exists (i * llvm_alloc_size e + off), t'. cbn [gep_offset]. rewrite Hgo.
    split; [reflexivity|]. econstructor; eassumption.
  - destruct v as [z|vs|vs]; try discriminate. destruct t as [b| | |n e|ms]; try discriminate.
    rewrite wt_value_struct in Hwt. rewrite wf_ty_struct in Hwf.
    destruct (nth_error vs k) as [x|] eqn:Hn; [|discriminate].
    destruct (wt_members_nth vs ms k x Hwt Hn) as [m [Hm Hx]].
    destruct (nth_error (struct_offsets ms) k) as [fo|] eqn:Hfo.
    + destruct (IH m x v' (wf_ty_list_nth ms k m Hwf Hm) Hx Hg) as (off & t' & Hgo & Hs).
      exists (fo + off), t'. cbn [gep_offset]. rewrite Hm, Hfo, Hgo.
      split; [reflexivity|]. econstructor; eassumption.
    + apply nth_error_None in Hfo. rewrite struct_offsets_length in Hfo.
      apply nth_error_None in Hfo. congruence.
Qed.

Lemma subobj_intro t v p v' off t' :
  wf_ty t = true -> wt_value t v = true -> get_path v p = Some v' ->
  gep_offset t p = Some (off, t') -> subobj t v p off t' v'.
Proof.
  intros Hwf Hwt Hg Hgo. destruct (subobj_of p t v v' Hwf Hwt Hg) as (off1 & t1 & Hgo1 & Hs).
  rewrite Hgo in Hgo1. now inversion Hgo1; subst.
Qed.

Lemma subobj_root {t v p off t' v'} :
  subobj t v p off t' v' -> wf_ty t = true /\ wt_value t v = true.
Proof.
  destruct 1 as [t v Hwf Hwt|n e vs i x p off t' v' He Hl Hlen _ _ _
                |ms vs k m x fo p off t' v' Hwf Hwt].
  - now split.
  - exact (proj2 (typed_arr n e vs) (conj He (conj Hl Hlen))).
  - now rewrite wf_ty_struct, wt_value_struct.
Qed.

Lemma subobj_bounds {t v p off t' v'} :
  subobj t v p off t' v' ->
  0 <= off /\ off + llvm_alloc_size t' <= llvm_alloc_size t /\
  wf_ty t' = true /\ wt_value t' v' = true.
Proof.
  induction 1 as [t v Hwf Hwt|n e vs i x p off t' v' He Hl Hlen Hi Hn _ (H0 & Hb & Hw)
                 |ms vs k m x fo p off t' v' Hwf Hwt Hn Hm Hfo _ (H0 & Hb & Hw)].
  - repeat split; try assumption; lia.
  - assert (Z.to_nat i < length vs)%nat by (apply nth_error_Some; congruence).
    pose proof (llvm_alloc_size_nonneg e He). rewrite llvm_alloc_size_arr.
    repeat split; try apply Hw; nia.
  - destruct (struct_offsets_nth ms k m fo Hwf Hm Hfo) as (Hfo0 & _ & Hfob).
    repeat split; try apply Hw; lia.
Qed.

Theorem gep_in_bounds : forall p t v v',
  wf_ty t = true -> wt_value t v = true -> get_path v p = Some v' ->
  exists off t',
    gep_offset t p = Some (off, t') /\ 0 <= off /\
    off + llvm_alloc_size t' <= llvm_alloc_size t /\
    wf_ty t' = true /\ wt_value t' v' = true.
Proof.
  intros p t v v' Hwf Hwt Hg. destruct (subobj_of p t v v' Hwf Hwt Hg) as (off & t' & Hgo & Hs).
  exists off, t'. split; [exact Hgo|]. exact (subobj_bounds Hs).
Qed.

Lemma enc_arr_nth e : forall vs k x o,
  nth_error vs k = Some x -> 0 <= o < llvm_alloc_size e ->
  enc_arr e vs (Z.of_nat k * llvm_alloc_size e + o) = enc e x o.
Proof.
  remember (llvm_alloc_size e) as sz eqn:Hsz.
  induction vs as [|y r IH]; intros k x o Hn Ho; [destruct k; discriminate|].
  rewrite enc_arr_cons, <- Hsz. destruct k as [|k'].
  - cbn [nth_error] in Hn. inversion Hn; subst y.
    replace (Z.of_nat 0 * sz + o) with o by lia.
    destruct (Z.leb_spec 0 o); destruct (Z.ltb_spec o sz); try lia. reflexivity.
  - cbn [nth_error] in Hn.
    assert (Hk : 0 <= Z.of_nat k') by lia.
    assert (Hge : sz <= Z.of_nat (S k') * sz + o).
    { rewrite Nat2Z.inj_succ. nia. }
    assert (Heq : Z.of_nat (S k') * sz + o - sz = Z.of_nat k' * sz + o).
    { rewrite Nat2Z.inj_succ. ring. }
    destruct (Z.ltb_spec (Z.of_nat (S k') * sz + o) sz) as [Hlt|_]; [lia|].
    rewrite andb_false_r, Heq. now apply IH.
Qed.

Lemma enc_members_nth o : forall vs ms offs lo hi k x m off,
  Forall (fun m => 0 <= llvm_alloc_size m) ms ->
  well_placed lo ms offs hi ->
  nth_error vs k = Some x -> nth_error ms k = Some m -> nth_error offs k = Some off ->
  off <= o < off + llvm_alloc_size m ->
  enc_members o vs ms offs = enc m x (o - off).
Proof.
  induction vs as [|y r IH]; intros ms offs lo hi k x m off Hnn Hwp Hx Hm Hoff Ho;
    [destruct k; discriminate|].
  destruct ms as [|m0 ms']; [destruct k; discriminate|].
  destruct offs as [|off0 offs']; [destruct k; discriminate|].
  rewrite enc_members_cons. cbn [well_placed] in Hwp. destruct Hwp as [Hlo [_ Hwp]].
  inversion Hnn as [|? ? Hm0 Hnn']; subst.
  destruct k as [|k']; cbn [nth_error] in Hx, Hm, Hoff.
  - inversion Hx; inversion Hm; inversion Hoff; subst.
    destruct (Z.leb_spec off o); destruct (Z.ltb_spec o (off + llvm_alloc_size m)); try lia.
    reflexivity.
  - destruct (well_placed_nth _ _ _ _ _ _ _ Hnn' Hwp Hm Hoff) as [Hge _].
    destruct (Z.leb_spec off0 o); destruct (Z.ltb_spec o (off0 + llvm_alloc_size m0));
      try lia; cbn [andb]; eapply IH; eassumption.
Qed.

(* The image of a subobject is a window of the image of the object. *)
Theorem enc_sub {t v p off t' v'} :
  subobj t v p off t' v' ->
  forall o, 0 <= o < llvm_alloc_size t' -> enc t v (off + o) = enc t' v' o.
Proof.
  induction 1 as [t v Hwf Hwt|n e vs i x p off t' v' He Hl Hlen Hi Hn Hs IH
                 |ms vs k m x fo p off t' v' Hwf Hwt Hn Hm Hfo Hs IH]; intros o Ho.
  - now rewrite Z.add_0_l.
  - destruct (subobj_bounds Hs) as (H0 & Hb & _).
    rewrite enc_arr_eq, <- IH by exact Ho.
    replace (i * llvm_alloc_size e + off + o)
      with (Z.of_nat (Z.to_nat i) * llvm_alloc_size e + (off + o))
      by (rewrite Z2Nat.id by lia; ring).
    apply enc_arr_nth; [exact Hn|lia].
  - destruct (subobj_bounds Hs) as (H0 & Hb & _).
    rewrite enc_struct_eq, <- IH by exact Ho.
    rewrite (enc_members_nth (fo + off + o) vs ms (struct_offsets ms) 0
               (llvm_alloc_size (TStruct ms)) k x m fo (nonneg_sizes ms Hwf)
               (struct_offsets_well_placed ms) Hn Hm Hfo) by lia.
    f_equal. lia.
Qed.

(* The non-padding bytes of the image of v are in memory at a; padding bytes
   are unconstrained. *)
Definition agree (m : mem) (a : Z) (t : ty) (v : value) : Prop :=
  forall o, 0 <= o < llvm_alloc_size t -> enc t v o <> CPad -> m (a + o) = enc t v o.

Lemma agree_sub m a t v p off t' v' :
  subobj t v p off t' v' -> agree m a t v -> agree m (a + off) t' v'.
Proof.
  intros Hs Hag o Ho Hnp. destruct (subobj_bounds Hs) as (H0 & Hb & _).
  rewrite <- (enc_sub Hs o Ho) in Hnp |- *.
  rewrite <- Z.add_assoc. apply Hag; [lia|exact Hnp].
Qed.

Lemma check_frag_ok m a z n : forall k i,
  (forall j, i <= j < i + Z.of_nat k -> m (a + j) = CFrag z n j) ->
  check_frag m a z n i k = true.
Proof.
  induction k as [|k IH]; intros i H; [reflexivity|].
  cbn [check_frag]. rewrite (H i) by lia. rewrite !Z.eqb_refl. cbn [andb].
  apply IH. intros j Hj. apply H. lia.
Qed.

Lemma load_scalar_ok m a z n :
  0 < n -> (forall j, 0 <= j < n -> m (a + j) = CFrag z n j) -> load_scalar m a n = Some z.
Proof.
  intros Hn H. unfold load_scalar.
  pose proof (H 0 ltac:(lia)) as H0. rewrite Z.add_0_r in H0. rewrite H0.
  rewrite check_frag_ok; [reflexivity|]. intros j Hj. apply H. lia.
Qed.

Lemma check_frag_ext m m' a z n : forall k i,
  (forall j, i <= j < i + Z.of_nat k -> m' (a + j) = m (a + j)) ->
  check_frag m' a z n i k = check_frag m a z n i k.
Proof.
  induction k as [|k IH]; intros i H; [reflexivity|].
  cbn [check_frag]. rewrite (H i) by lia. destruct (m (a + i)); [reflexivity|].
  rewrite IH; [reflexivity|]. intros j Hj. apply H. lia.
Qed.

Lemma load_scalar_ext m m' a n :
  0 < n -> (forall j, 0 <= j < n -> m' (a + j) = m (a + j)) ->
  load_scalar m' a n = load_scalar m a n.
Proof.
  intros Hn H. unfold load_scalar.
  pose proof (H 0 ltac:(lia)) as H0. rewrite Z.add_0_r in H0. rewrite H0.
  destruct (m a); [reflexivity|].
  rewrite (check_frag_ext m m' a z n (Z.to_nat n) 0); [reflexivity|].
  intros j Hj. apply H. lia.
Qed.

Lemma load_seq_spec ld sz : forall vs a,
  (forall k x, nth_error vs k = Some x -> ld (a + Z.of_nat k * sz) = Some x) ->
  load_seq ld a sz (length vs) = Some vs.
Proof.
  induction vs as [|y r IH]; intros a H; [reflexivity|].
  cbn [length load_seq].
  pose proof (H O y eq_refl) as H0. cbn [Z.of_nat] in H0.
  rewrite Z.mul_0_l, Z.add_0_r in H0. rewrite H0.
  rewrite IH; [reflexivity|]. intros k x Hk.
  specialize (H (S k) x Hk). rewrite <- H. f_equal. rewrite Nat2Z.inj_succ. ring.
Qed.

Lemma load_members_spec m a : forall ms offs vs,
  length offs = length ms -> length vs = length ms ->
  (forall k mk off x, nth_error ms k = Some mk -> nth_error offs k = Some off ->
     nth_error vs k = Some x -> load m (a + off) mk = Some x) ->
  load_members m a ms offs = Some vs.
Proof.
  induction ms as [|m0 ms IH]; intros offs vs Hlo Hlv H.
  - destruct vs; [reflexivity|discriminate].
  - destruct offs as [|off0 offs]; [discriminate|]. destruct vs as [|x0 vs]; [discriminate|].
    cbn [load_members]. rewrite (H O m0 off0 x0 eq_refl eq_refl eq_refl).
    rewrite (IH offs vs); [reflexivity| | |].
    + cbn [length] in Hlo. lia.
    + cbn [length] in Hlv. lia.
    + intros k mk off x Hm Ho Hx. apply (H (S k)); assumption.
Qed.

(* At a scalar type [load] asks for exactly the n cells CFrag z n 0 .. CFrag z n (n-1)
   that [enc] writes. *)
Lemma load_agree_scalar t z m a :
  wf_ty t = true -> wt_value t (VS z) = true -> agree m a t (VS z) -> load m a t = Some (VS z).
Proof.
  intros Hwf Hwt Hag.
  assert (Hn : 0 < scalar_size t /\ llvm_alloc_size t = scalar_size t /\
               load m a t = option_map VS (load_scalar m a (scalar_size t)) /\
               forall o, enc t (VS z) o = if (0 <=? o) && (o <? scalar_size t)
                                          then CFrag z (scalar_size t) o else CPad).
  { destruct t as [b| | |n e|ms]; try discriminate; cbn [scalar_size]; repeat split; try lia.
    - cbn [wf_ty] in Hwf. apply valid_size_cases in Hwf. lia.
    - now apply llvm_alloc_size_int. }
  destruct Hn as (Hn & Hsz & -> & He).
  rewrite (load_scalar_ok m a z (scalar_size t) Hn); [reflexivity|].
  intros j Hj. assert (Hej : enc t (VS z) j = CFrag z (scalar_size t) j).
  { rewrite He. destruct (Z.leb_spec 0 j); destruct (Z.ltb_spec j (scalar_size t)); try lia.
    reflexivity. }
  rewrite <- Hej. apply Hag; [lia|]. rewrite Hej. discriminate.
Qed.

Theorem load_agree : forall t v m a,
  wf_ty t = true -> wt_value t v = true -> agree m a t v -> load m a t = Some v.
Proof.
  induction t as [b| | |n e IHe|ms IHms] using ty_ind2; intros v m a Hwf Hwt Hag.
  1-3: destruct v as [z|vs|vs]; try discriminate; now apply load_agree_scalar.
  - destruct v as [z|vs|vs]; try discriminate. cbn [load].
    destruct (proj1 (typed_arr n e vs) (conj Hwf Hwt)) as (He & Hl & Hlen).
    replace (Z.to_nat n) with (length vs) by lia.
    rewrite (load_seq_spec _ (llvm_alloc_size e) vs a); [reflexivity|].
    intros k x Hk. pose proof (wt_list_nth e vs k x Hl Hk) as Hx.
    apply IHe; [exact He|exact Hx|].
    rewrite <- (Z.add_0_r (Z.of_nat k * _)).
    apply (agree_sub m a (TArr n e) (VArr vs) [SElem (Z.of_nat k)]); [|exact Hag].
    apply (sub_elem n e vs _ x); try assumption; [lia|now rewrite Nat2Z.id|now constructor].
  - destruct v as [z|vs|vs]; try discriminate. rewrite load_struct_eq.
    pose proof Hwt as Hwt0. rewrite wt_value_struct in Hwt0.
    pose proof Hwf as Hwf0. rewrite wf_ty_struct in Hwf0.
    rewrite (load_members_spec m a ms (struct_offsets ms) vs (struct_offsets_length ms)
               (wt_members_length vs ms Hwt0)); [reflexivity|].
    intros k mk off x Hm Ho Hx.
    destruct (wt_members_nth vs ms k x Hwt0 Hx) as [mk' [Hm' Hwx]].
    rewrite Hm in Hm'. inversion Hm'; subst mk'.
    pose proof (wf_ty_list_nth ms k mk Hwf0 Hm) as Hwm.
    rewrite Forall_forall in IHms.
    apply (IHms mk (nth_error_In _ _ Hm)); [exact Hwm|exact Hwx|].
    rewrite <- (Z.add_0_r off).
    apply (agree_sub m a (TStruct ms) (VStruct vs) [SMember k]); [|exact Hag].
    econstructor; try eassumption. now constructor.
Qed.

(* The subobject found at the lowered address is the source-level subobject. *)
Theorem load_after_encode m a t v p v' off t' :
  wf_ty t = true -> wt_value t v = true -> agree m a t v ->
  get_path v p = Some v' -> gep_offset t p = Some (off, t') ->
  load m (a + off) t' = Some v'.
Proof.
  intros Hwf Hwt Hag Hg Hgo. pose proof (subobj_intro t v p v' off t' Hwf Hwt Hg Hgo) as Hs.
  destruct (subobj_bounds Hs) as (_ & _ & Hwf' & Hwt').
  apply load_agree; try assumption. exact (agree_sub m a _ _ _ _ _ _ Hs Hag).
Qed.

Lemma step_eqb_eq s1 s2 : step_eqb s1 s2 = true <-> s1 = s2.
Proof.
  destruct s1 as [i|k], s2 as [j|l]; cbn [step_eqb]; split; intros H; try discriminate.
  - apply Z.eqb_eq in H. now subst.
  - inversion H. apply Z.eqb_refl.
  - apply Nat.eqb_eq in H. now subst.
  - inversion H. apply Nat.eqb_refl.
Qed.

Definition is_prefix (p q : path) : Prop := exists r, q = p ++ r.

Lemma disjoint_paths_iff : forall p q,
  disjoint_paths p q = true <-> ~ is_prefix p q /\ ~ is_prefix q p.
Proof.
  induction p as [|s1 p IH]; intros q.
  - cbn [disjoint_paths]. split; [discriminate|]. intros [H _]. exfalso. apply H. now exists q.
  - destruct q as [|s2 q]; cbn [disjoint_paths].
    + split; [discriminate|]. intros [_ H]. exfalso. apply H. now exists (s1 :: p).
    + destruct (step_eqb s1 s2) eqn:He.
      * apply step_eqb_eq in He. subst s2. rewrite IH. split.
        -- intros [H1 H2]. split; intros [r Hr]; inversion Hr; [apply H1|apply H2]; now exists r.
        -- intros [H1 H2]. split; intros [r Hr]; [apply H1|apply H2]; exists r; cbn [app];
             now f_equal.
      * split; [|reflexivity]. intros _.
        assert (Hne : s1 <> s2).
        { intros Heq. apply step_eqb_eq in Heq. congruence. }
        split; intros [r Hr]; inversion Hr; congruence.
Qed.

(* Where the paths part, the two subobjects lie in different elements or members;
   before that, both lie in the same one. *)
Lemma subobj_disjoint t v p offp tp vp :
  subobj t v p offp tp vp -> forall q offq tq vq,
  subobj t v q offq tq vq -> disjoint_paths p q = true ->
  offp + llvm_alloc_size tp <= offq \/ offq + llvm_alloc_size tq <= offp.
Proof.
  induction 1 as [t v Hwf Hwt|n e vs i x p off t' v' He Hl Hlen Hi Hn Hs IH
                 |ms vs k m x fo p off t' v' Hwf Hwt Hn Hm Hfo Hs IH];
    intros q offq tq vq Hq Hd; [discriminate| |].
  - inversion Hq as [|? ? ? j y q' off2 ? ? _ _ _ Hj Hn2 Hs2|]; subst; [discriminate|].
    cbn [disjoint_paths step_eqb] in Hd.
    destruct (subobj_bounds Hs) as (H10 & H1b & _).
    destruct (subobj_bounds Hs2) as (H20 & H2b & _).
    destruct (Z.eqb_spec i j) as [Heq|Hne].
    + subst j. rewrite Hn in Hn2. inversion Hn2; subst y.
      destruct (IH q' off2 tq vq Hs2 Hd); [left|right]; lia.
    + pose proof (llvm_alloc_size_nonneg e He).
      destruct (Z.lt_total i j) as [Hlt|[Heq|Hgt]]; [left|congruence|right]; nia.
  - inversion Hq as [| |? ? l m2 y fo2 q' off2 ? ? _ _ Hn2 Hm2 Hfo2 Hs2]; subst; [discriminate|].
    cbn [disjoint_paths step_eqb] in Hd.
    destruct (subobj_bounds Hs) as (H10 & H1b & _).
    destruct (subobj_bounds Hs2) as (H20 & H2b & _).
    destruct (Nat.eqb_spec k l) as [Heq|Hne].
    + subst l. rewrite Hn in Hn2. rewrite Hm in Hm2. rewrite Hfo in Hfo2.
      inversion Hn2; inversion Hm2; inversion Hfo2; subst y m2 fo2.
      destruct (IH q' off2 tq vq Hs2 Hd); [left|right]; lia.
    + destruct (Nat.lt_total k l) as [Hlt|[Heq|Hgt]]; [left|congruence|right].
      * pose proof (struct_offsets_disjoint ms k l m fo m2 fo2 Hwf Hlt Hm Hfo Hm2 Hfo2). lia.
      * pose proof (struct_offsets_disjoint ms l k m2 fo2 m fo Hwf Hgt Hm2 Hfo2 Hm Hfo). lia.
Qed.

Theorem distinct_paths_distinct_ranges : forall p q t v vp vq offp tp offq tq,
  wf_ty t = true -> wt_value t v = true ->
  get_path v p = Some vp -> get_path v q = Some vq ->
  gep_offset t p = Some (offp, tp) -> gep_offset t q = Some (offq, tq) ->
  disjoint_paths p q = true ->
  offp + llvm_alloc_size tp <= offq \/ offq + llvm_alloc_size tq <= offp.
Proof.
  intros p q t v vp vq offp tp offq tq Hwf Hwt Hgp Hgq Hop Hoq.
  apply (subobj_disjoint t v p offp tp vp) with (vq := vq); now apply subobj_intro.
Qed.

Lemma get_path_elem vs k x :
  nth_error vs k = Some x -> get_path (VArr vs) [SElem (Z.of_nat k)] = Some x.
Proof.
  intros Hn. cbn [get_path]. destruct (Z.ltb_spec (Z.of_nat k) 0); [lia|].
  now rewrite Nat2Z.id, Hn.
Qed.

Lemma get_path_member vs k x :
  nth_error vs k = Some x -> get_path (VStruct vs) [SMember k] = Some x.
Proof. intros Hn. cbn [get_path]. now rewrite Hn. Qed.

Lemma set_path_some : forall p v v0 w,
  get_path v p = Some v0 -> exists v2, set_path v p w = Some v2.
Proof.
  induction p as [|s p IH]; intros v v0 w Hg; [now exists w|].
  destruct s as [i|k]; cbn [get_path set_path] in *.
  - destruct v as [z|vs|vs]; try discriminate. destruct (i <? 0); [discriminate|].
    destruct (nth_error vs (Z.to_nat i)) as [x|]; [|discriminate].
    destruct (IH x v0 w Hg) as [x' ->]. eexists. reflexivity.
  - destruct v as [z|vs|vs]; try discriminate.
    destruct (nth_error vs k) as [x|]; [|discriminate].
    destruct (IH x v0 w Hg) as [x' ->]. eexists. reflexivity.
Qed.

Lemma get_set_path : forall p v w v2,
  set_path v p w = Some v2 ->
  get_path v2 p = Some w /\
  forall q, disjoint_paths p q = true -> get_path v2 q = get_path v q.
Proof.
  induction p as [|s1 p IH]; intros v w v2 Hs.
  - cbn [set_path] in Hs. inversion Hs. split; [reflexivity|discriminate].
  - destruct s1 as [i|k]; cbn [set_path] in Hs.
    + destruct v as [z|vs|vs]; try discriminate.
      destruct (i <? 0) eqn:Hi; [discriminate|].
      destruct (nth_error vs (Z.to_nat i)) as [x|] eqn:Hn; [|discriminate].
      destruct (set_path x p w) as [x'|] eqn:Hs'; [|discriminate]. inversion Hs; subst v2.
      destruct (IH x w x' Hs') as [IHs IHd]. cbn [get_path].
      rewrite Hi, (nth_error_upd_same vs _ x' x Hn). split; [exact IHs|].
      intros [|[j|l] q] Hd; try discriminate; cbn [get_path]; [|reflexivity].
      cbn [disjoint_paths step_eqb] in Hd. destruct (Z.ltb_spec j 0) as [Hj|Hj]; [reflexivity|].
      apply Z.ltb_ge in Hi. destruct (Z.eqb_spec i j) as [Heq|Hne].
      * subst j. rewrite (nth_error_upd_same vs _ x' x Hn), Hn. now apply IHd.
      * rewrite nth_error_upd_other by lia. reflexivity.
    + destruct v as [z|vs|vs]; try discriminate.
      destruct (nth_error vs k) as [x|] eqn:Hn; [|discriminate].
      destruct (set_path x p w) as [x'|] eqn:Hs'; [|discriminate]. inversion Hs; subst v2.
      destruct (IH x w x' Hs') as [IHs IHd]. cbn [get_path].
      rewrite (nth_error_upd_same vs _ x' x Hn). split; [exact IHs|].
      intros [|[j|l] q] Hd; try discriminate; cbn [get_path]; [reflexivity|].
      cbn [disjoint_paths step_eqb] in Hd. destruct (Nat.eqb_spec k l) as [Heq|Hne].
      * subst l. rewrite (nth_error_upd_same vs _ x' x Hn), Hn. now apply IHd.
      * rewrite nth_error_upd_other by assumption. reflexivity.
Qed.

Lemma enc_arr_upd e : forall vs k x x' o,
  nth_error vs k = Some x ->
  (0 <= o - Z.of_nat k * llvm_alloc_size e < llvm_alloc_size e ->
   enc e x' (o - Z.of_nat k * llvm_alloc_size e) = enc e x (o - Z.of_nat k * llvm_alloc_size e)) ->
  enc_arr e (upd_nth vs k x') o = enc_arr e vs o.
Proof.
  remember (llvm_alloc_size e) as sz eqn:Hsz.
  induction vs as [|y r IH]; intros k x x' o Hn H; [destruct k; discriminate|].
  destruct k as [|k']; cbn [upd_nth nth_error] in *; rewrite !enc_arr_cons, <- Hsz.
  - inversion Hn; subst y. cbn [Z.of_nat] in H. rewrite Z.mul_0_l, Z.sub_0_r in H.
    destruct (Z.leb_spec 0 o); destruct (Z.ltb_spec o sz); cbn [andb]; try reflexivity.
    apply H. lia.
  - destruct ((0 <=? o) && (o <? sz)); [reflexivity|].
    apply (IH k' x x' (o - sz) Hn).
    replace (o - sz - Z.of_nat k' * sz) with (o - Z.of_nat (S k') * sz)
      by (rewrite Nat2Z.inj_succ; ring).
    exact H.
Qed.

Lemma enc_members_upd o : forall vs ms offs k x x' m off,
  nth_error vs k = Some x -> nth_error ms k = Some m -> nth_error offs k = Some off ->
  (off <= o < off + llvm_alloc_size m -> enc m x' (o - off) = enc m x (o - off)) ->
  enc_members o (upd_nth vs k x') ms offs = enc_members o vs ms offs.
Proof.
  induction vs as [|y r IH]; intros ms offs k x x' m off Hx Hm Hoff H;
    [destruct k; discriminate|].
  destruct ms as [|m0 ms']; [destruct k; discriminate|].
  destruct offs as [|off0 offs']; [destruct k; discriminate|].
  destruct k as [|k']; cbn [upd_nth nth_error] in *; rewrite !enc_members_cons.
  - inversion Hx; inversion Hm; inversion Hoff; subst.
    destruct (Z.leb_spec off o); destruct (Z.ltb_spec o (off + llvm_alloc_size m));
      cbn [andb]; try reflexivity. apply H. lia.
  - destruct ((off0 <=? o) && (o <? off0 + llvm_alloc_size m0)); [reflexivity|].
    eapply IH; eassumption.
Qed.

Theorem subobj_set t v p off t' v0 w :
  subobj t v p off t' v0 -> wt_value t' w = true ->
  exists v2, set_path v p w = Some v2 /\ subobj t v2 p off t' w /\
    forall o, 0 <= o < llvm_alloc_size t ->
      o < off \/ off + llvm_alloc_size t' <= o -> enc t v2 o = enc t v o.
Proof.
  intros Hs Hw.
  induction Hs as [t v Hwf Hwt|n e vs i x p off t' v' He Hl Hlen Hi Hn Hs IH
                  |ms vs k m x fo p off t' v' Hwf Hwt Hn Hm Hfo Hs IH].
  - exists w. split; [reflexivity|]. split; [now constructor|]. intros o Ho Hout. lia.
  - destruct (IH Hw) as (x' & Hset & Hs' & Hout). destruct (subobj_root Hs') as [_ Hx'].
    exists (VArr (upd_nth vs (Z.to_nat i) x')). cbn [set_path].
    destruct (Z.ltb_spec i 0); [lia|]. rewrite Hn, Hset. split; [reflexivity|]. split.
    + apply (sub_elem n e _ i x'); try assumption.
      * now apply wt_list_upd.
      * now rewrite length_upd_nth.
      * exact (nth_error_upd_same vs _ x' x Hn).
    + intros o _ Ho. rewrite !enc_arr_eq. apply (enc_arr_upd e vs (Z.to_nat i) x x' o Hn).
      rewrite Z2Nat.id by lia. intros Hin. apply Hout; lia.
  - destruct (IH Hw) as (x' & Hset & Hs' & Hout). destruct (subobj_root Hs') as [_ Hx'].
    exists (VStruct (upd_nth vs k x')). cbn [set_path]. rewrite Hn, Hset.
    split; [reflexivity|]. split.
    + econstructor; try eassumption.
      * now apply (wt_members_upd vs ms k x' m).
      * exact (nth_error_upd_same vs _ x' x Hn).
    + intros o _ Ho. rewrite !enc_struct_eq.
      apply (enc_members_upd o vs ms (struct_offsets ms) k x x' m fo Hn Hm Hfo).
      intros Hin. apply Hout; lia.
Qed.

Lemma store_inside m a t w x :
  a <= x < a + llvm_alloc_size t -> store m a t w x = enc t w (x - a).
Proof.
  intros H. unfold store.
  destruct (Z.leb_spec a x); destruct (Z.ltb_spec x (a + llvm_alloc_size t)); try lia.
  reflexivity.
Qed.

Lemma store_frame m a t w x :
  x < a \/ a + llvm_alloc_size t <= x -> store m a t w x = m x.
Proof.
  intros H. unfold store.
  destruct (Z.leb_spec a x); destruct (Z.ltb_spec x (a + llvm_alloc_size t)); try lia;
    reflexivity.
Qed.

(* A store through the lowered address of p: inside the window memory holds the
   image of w, which is that window of the image of v2 ([enc_sub]); outside,
   neither memory nor the image has changed. *)
Lemma agree_store_sub m a t v p off t' w v2 :
  subobj t v2 p off t' w ->
  (forall o, 0 <= o < llvm_alloc_size t ->
     o < off \/ off + llvm_alloc_size t' <= o -> enc t v2 o = enc t v o) ->
  agree m a t v -> agree (store m (a + off) t' w) a t v2.
Proof.
  intros Hs2 Hout Hag o Ho Hnp.
  destruct (Z.lt_ge_cases o off) as [Hlo|Hlo];
    [|destruct (Z.lt_ge_cases o (off + llvm_alloc_size t')) as [Hhi|Hhi]].
  2:{ rewrite store_inside by lia. replace (a + o - (a + off)) with (o - off) by lia.
      rewrite <- (enc_sub Hs2 (o - off)) by lia. f_equal. lia. }
  all: rewrite store_frame by lia; rewrite Hout in Hnp |- * by lia; now apply Hag.
Qed.

(* A store through the lowered address of p turns an image of v into an
   image of [set_path v p w] (padding aside), and touches nothing outside the
   window of p. *)
Theorem store_commutes m a t v p v0 off t' w :
  wf_ty t = true -> wt_value t v = true -> agree m a t v ->
  get_path v p = Some v0 -> gep_offset t p = Some (off, t') -> wt_value t' w = true ->
  exists v2,
    set_path v p w = Some v2 /\ wt_value t v2 = true /\
    agree (store m (a + off) t' w) a t v2 /\
    (forall x, x < a + off \/ a + off + llvm_alloc_size t' <= x ->
       store m (a + off) t' w x = m x).
Proof.
  intros Hwf Hwt Hag Hg Hgo Hw. pose proof (subobj_intro t v p v0 off t' Hwf Hwt Hg Hgo) as Hs.
  destruct (subobj_set _ _ _ _ _ _ w Hs Hw) as (v2 & Hset & Hs2 & Hout). exists v2.
  split; [exact Hset|]. split; [apply (subobj_root Hs2)|].
  split; [now apply (agree_store_sub m a t v p off t' w v2)|].
  intros x Hx. now apply store_frame.
Qed.

Corollary load_after_store m a t v p v0 off t' w :
  wf_ty t = true -> wt_value t v = true -> agree m a t v ->
  get_path v p = Some v0 -> gep_offset t p = Some (off, t') -> wt_value t' w = true ->
  load (store m (a + off) t' w) (a + off) t' = Some w /\
  (forall q vq offq tq,
     disjoint_paths p q = true -> get_path v q = Some vq ->
     gep_offset t q = Some (offq, tq) ->
     load (store m (a + off) t' w) (a + offq) tq = Some vq).
Proof.
  intros Hwf Hwt Hag Hg Hgo Hw.
  destruct (store_commutes m a t v p v0 off t' w Hwf Hwt Hag Hg Hgo Hw)
    as (v2 & Hs & Hwt2 & Hag2 & _).
  destruct (get_set_path p v w v2 Hs) as [Hsame Hapart]. split.
  - exact (load_after_encode _ a t v2 p w off t' Hwf Hwt2 Hag2 Hsame Hgo).
  - intros q vq offq tq Hd Hq Hgq.
    apply (load_after_encode _ a t v2 q vq offq tq Hwf Hwt2 Hag2); [|exact Hgq].
    now rewrite (Hapart q Hd).
Qed.

Lemma agree_store m a t v : agree (store m a t v) a t v.
Proof.
  intros o Ho _. rewrite store_inside by lia. f_equal. lia.
Qed.

Corollary load_after_encode_store m a t v p v' off t' :
  wf_ty t = true -> wt_value t v = true ->
  get_path v p = Some v' -> gep_offset t p = Some (off, t') ->
  load (store m a t v) (a + off) t' = get_path v p.
Proof.
  intros Hwf Hwt Hg Hgo. rewrite Hg.
  exact (load_after_encode _ a t v p v' off t' Hwf Hwt (agree_store m a t v) Hg Hgo).
Qed.

Lemma encode_nth t v k :
  (Z.of_nat k < llvm_alloc_size t) -> nth_error (encode t v) k = Some (enc t v (Z.of_nat k)).
Proof.
  intros Hk. unfold encode.
  rewrite (map_nth_error (fun k => enc t v (Z.of_nat k)) k (seq 0 (Z.to_nat (llvm_alloc_size t)))
             (d := k)); [reflexivity|].
  rewrite nth_error_nth' with (d := O) by (rewrite seq_length; lia).
  rewrite seq_nth by lia. reflexivity.
Qed.

Lemma encode_length t v : length (encode t v) = Z.to_nat (llvm_alloc_size t).
Proof. unfold encode. now rewrite map_length, seq_length. Qed.

Lemma erase_struct ms : erase (LStruct ms) = TStruct (erase_list ms).
Proof. reflexivity. Qed.

Lemma erase_list_map ms : erase_list ms = map erase ms.
Proof. reflexivity. Qed.

Lemma is_nil_snoc {A} (l : list A) x : is_nil (l ++ [x]) = false.
Proof. destruct l; reflexivity. Qed.

Lemma gep_steps_app gs1 : forall st gs2,
  gep_steps st (gs1 ++ gs2) =
  match gep_steps st gs1 with
  | Some st' => gep_steps st' gs2
  | None => None
  end.
Proof.
  induction gs1 as [|g r IH]; intros st gs2; [reflexivity|].
  cbn [app gep_steps]. destruct (gep_step st g); [apply IH|reflexivity].
Qed.

Lemma gep_eval_snoc T z idx g :
  is_nil idx = false ->
  gep_eval T z (idx ++ [g]) =
  match gep_eval T z idx with
  | Some st => gep_step st g
  | None => None
  end.
Proof.
  destruct idx as [|g0 r]; intros H; [discriminate|].
  cbn [app gep_eval]. rewrite gep_steps_app.
  destruct (gep_steps (z + gval g0 * lsize T, T) r) as [st|]; [|reflexivity].
  cbn [gep_steps]. now destruct (gep_step st g).
Qed.

Lemma gep_eval_zero u z : gep_eval u z [GConst 0] = Some (z, u).
Proof. cbn [gep_eval gep_steps gval]. now rewrite Z.mul_0_l, Z.add_0_r. Qed.

Lemma run_app m is1 : forall is2 v,
  run m (is1 ++ is2) v =
  match run m is1 v with
  | Some v' => run m is2 v'
  | None => None
  end.
Proof.
  induction is1 as [|i r IH]; intros is2 v; [reflexivity|].
  cbn [app run]. destruct (exec_instr m i v); [apply IH|reflexivity].
Qed.

Lemma run_flush m idx rest z T0 a T :
  gep_eval T0 z idx = Some (a, T) ->
  run m (flush idx ++ rest) (MPtr z T0) = run m rest (MPtr a T).
Proof.
  intros H. destruct idx as [|g r].
  - cbn [gep_eval] in H. inversion H. reflexivity.
  - unfold flush. cbn [is_nil app run exec_instr]. now rewrite H.
Qed.

(* A plain path in a local or global: one GEP [0, idx...]. *)
Lemma lower_steps_plain : forall p idx imm,
  lower_steps (map step_rstep p) idx imm = flush (idx ++ map step_gidx p).
Proof.
  induction p as [|s p IH]; intros idx imm; cbn [map lower_steps].
  - now rewrite app_nil_r.
  - destruct s as [i|k]; cbn [step_rstep step_gidx lower_steps]; rewrite IH, <- app_assoc;
      reflexivity.
Qed.

Lemma lower_path_shape p :
  lower_path p = match p with
                 | [] => []
                 | _ :: _ => [IGep (GConst 0 :: map step_gidx p)]
                 end.
Proof.
  unfold lower_path, lower_ref. destruct p as [|s p]; [reflexivity|].
  cbn [map is_nil]. rewrite <- map_cons. now rewrite lower_steps_plain.
Qed.

(* The executable interface agrees with it. *)
Lemma lower_path_indices_shape t p off t' :
  gep_offset t p = Some (off, t') ->
  lower_path_indices t p =
  Some (match p with
        | [] => []
        | _ :: _ => [0 :: map show_gidx (map step_gidx p)]
        end).
Proof.
  intros H. unfold lower_path_indices. rewrite H, lower_path_shape.
  destruct p; reflexivity.
Qed.

(* Element{is_endless:true} occurs only right after an Autoderef/Autoview (the
   typer produces it for `&[..]T` only: [elaborate_endless_ok] below). *)
Fixpoint endless_ok (after_deref : bool) (steps : list rstep) : bool :=
  match steps with
  | [] => true
  | RElem _ endless :: r => (negb endless || after_deref) && endless_ok false r
  | RMember _ :: r => endless_ok false r
  | RAutoderef :: r => endless_ok true r
  | RAutoview :: r => endless_ok true r
  | RDeslice0 :: r => endless_ok false r
  | RDeslice1 :: r => endless_ok false r
  end.

Lemma endless_ok_elem_member b b' steps :
  match steps with
  | RElem _ false :: _ => True
  | RMember _ :: _ => True
  | RDeslice0 :: _ => True
  | _ => False
  end ->
  endless_ok b steps = endless_ok b' steps.
Proof.
  destruct steps as [|[i [|]|k| | | |] r]; intros H; try contradiction; reflexivity.
Qed.

Definition is_deref (s : rstep) : bool :=
  match s with
  | RAutoderef | RAutoview => true
  | _ => false
  end.

Lemma endless_ok_deref s rest b :
  is_deref s = true -> endless_ok b (s :: rest) = endless_ok true rest.
Proof. destruct s; try discriminate; reflexivity. Qed.

(* Element{is_endless:false} and Member need a pending index. *)
Definition head_ok (idx : list gidx) (steps : list rstep) : Prop :=
  match steps with
  | RElem _ false :: _ => is_nil idx = false
  | RMember _ :: _ => is_nil idx = false
  | _ => True
  end.

Lemma head_ok_pending idx steps : is_nil idx = false -> head_ok idx steps.
Proof. intros H. destruct steps as [|[? [|]|?| | | |] ?]; cbn [head_ok]; auto. Qed.

(* The indices pushed after the load of an Autoderef/Autoview (generator.rs
   1553-1597, 1620-1623). *)
Definition after_load_idx (rest : list rstep) : list gidx :=
  match rest with
  | RElem _ endless :: _ => if negb endless then [GConst 0] else []
  | RMember _ :: _ => [GConst 0]
  | RDeslice0 :: _ => [GConst 0]
  | _ => []
  end.

Lemma after_load_ok u z rest :
  gep_eval u z (after_load_idx rest) = Some (z, u) /\ head_ok (after_load_idx rest) rest /\
  endless_ok (is_nil (after_load_idx rest)) rest = endless_ok true rest.
Proof.
  destruct rest as [|[i [|]|k| | | |] r]; cbn [after_load_idx negb]; repeat split;
    apply gep_eval_zero.
Qed.

(* An Autoderef/Autoview of a pointer in memory: emit the pending GEP, load, and
   start a new index vector.  Of a pointer parameter (the base itself): no
   instruction, the parameter is the pointer.  The steps that follow go on from a
   location in memory, so they do not begin with an Autodeslice (which applies to
   a slice value only). *)
Lemma lower_deref m a T l' s rest idx :
  is_deref s = true -> sem_steps m (LocMem a T) rest = Some l' ->
  lower_steps (s :: rest) idx false =
    flush idx ++ ILoad :: lower_steps rest (after_load_idx rest) false /\
  lower_steps (s :: rest) [] true = lower_steps rest (after_load_idx rest) false.
Proof.
  destruct s; try discriminate; intros _ H; destruct rest as [|[i [|]|k| | | |] r];
    try discriminate H; split; reflexivity.
Qed.

Lemma sem_step_mem m l s l' : sem_step m l s = Some l' -> exists a t, l' = LocMem a t.
Proof.
  unfold sem_step.
  destruct s as [i [|]|k| | | |], l as [a t|z u|p len e]; try discriminate.
  - intros H. inversion H. eauto.
  - destruct t; try discriminate. intros H. inversion H. eauto.
  - destruct t as [| | | |ms]; try discriminate.
    destruct (nth_error ms k); [|discriminate].
    destruct (nth_error (struct_offsets (erase_list ms)) k); [|discriminate].
    intros H. inversion H. eauto.
  - destruct t; try discriminate. destruct (load_scalar m a 8); [|discriminate].
    intros H. inversion H. eauto.
  - intros H. inversion H. eauto.
  - destruct t; try discriminate. destruct (load_scalar m a 8); [|discriminate].
    intros H. inversion H. eauto.
  - intros H. inversion H. eauto.
  - intros H. inversion H. eauto.
Qed.

Lemma sem_deref_mem m a T s l' :
  is_deref s = true -> sem_step m (LocMem a T) s = Some l' ->
  exists u z, T = LPtr u /\ load_scalar m a 8 = Some z /\ l' = LocMem z u.
Proof.
  destruct s; try discriminate; intros _ H; cbn [sem_step] in H; destruct T; try discriminate;
    (destruct (load_scalar m a 8) as [z|]; [|discriminate]); inversion H; eauto.
Qed.

Lemma sem_steps_ptr m z u s rest l' :
  sem_steps m (LocPtr z u) (s :: rest) = Some l' ->
  is_deref s = true /\ sem_steps m (LocMem z u) rest = Some l'.
Proof. destruct s as [? [|]|?| | | |]; cbn [sem_steps sem_step]; try discriminate; auto. Qed.

Lemma sem_steps_slice m p len e s rest l' :
  sem_steps m (LocSlice p len e) (s :: rest) = Some l' ->
  s = RDeslice0 /\ sem_steps m (LocMem p (LArr 0 e)) rest = Some l'.
Proof. destruct s as [? [|]|?| | | |]; cbn [sem_steps sem_step]; try discriminate; auto. Qed.

(* The batched GEPs compute the step-by-step reference semantics.  The invariant:
   the pending GEP (pointer z : T0*, indices idx) denotes the current location. *)
Lemma sim_steps m : forall steps z T0 idx a T l',
  gep_eval T0 z idx = Some (a, T) ->
  head_ok idx steps -> endless_ok (is_nil idx) steps = true ->
  sem_steps m (LocMem a T) steps = Some l' ->
  exists a' T', l' = LocMem a' T' /\
    run m (lower_steps steps idx false) (MPtr z T0) = Some (MPtr a' T').
Proof.
  induction steps as [|s rest IH]; intros z T0 idx a T l' Hg Hh He Hs.
  - cbn [sem_steps] in Hs. inversion Hs; subst l'. exists a, T. split; [reflexivity|].
    cbn [lower_steps]. rewrite <- (app_nil_r (flush idx)).
    now rewrite (run_flush m idx [] z T0 a T Hg).
  - cbn [sem_steps] in Hs. destruct (sem_step m (LocMem a T) s) as [l1|] eqn:Hs1; [|discriminate].
    destruct (is_deref s) eqn:Hd.
    + destruct (sem_deref_mem m a T s l1 Hd Hs1) as (u & z' & -> & Hld & ->).
      rewrite (proj1 (lower_deref m z' u l' s rest idx Hd Hs)).
      rewrite (run_flush m idx _ z T0 a (LPtr u) Hg). cbn [run exec_instr]. rewrite Hld.
      destruct (after_load_ok u z' rest) as (Hg' & Hh' & He').
      apply (IH z' u _ z' u l' Hg' Hh'); [|exact Hs].
      now rewrite He', <- (endless_ok_deref s rest (is_nil idx) Hd).
    + destruct s as [i [|]|k| | | |]; try discriminate; cbn [sem_step] in Hs1;
        cbn [head_ok] in Hh; cbn [endless_ok negb orb andb] in He; cbn [lower_steps].
      * (* Element of an endless array: the pointer itself is indexed *)
        apply andb_true_iff in He as [Hnil He]. destruct idx as [|g0 r0]; [|discriminate].
        cbn [gep_eval] in Hg. inversion Hg; subst a T. inversion Hs1; subst l1.
        apply (IH z T0 [GDyn i] (z + i * lsize T0) T0 l'); [reflexivity| |exact He|exact Hs].
        now apply head_ok_pending.
      * destruct T as [| | |n e|]; try discriminate. inversion Hs1; subst l1.
        apply (IH z T0 (idx ++ [GDyn i]) (a + i * lsize e) e l'); [| | |exact Hs].
        -- rewrite gep_eval_snoc by exact Hh. now rewrite Hg.
        -- apply head_ok_pending, is_nil_snoc.
        -- now rewrite is_nil_snoc.
      * destruct T as [| | | |ms]; try discriminate.
        destruct (nth_error ms k) as [mk|] eqn:Hm; [|discriminate].
        destruct (nth_error (struct_offsets (erase_list ms)) k) as [fo|] eqn:Hfo; [|discriminate].
        inversion Hs1; subst l1.
        apply (IH z T0 (idx ++ [GConst (Z.of_nat k)]) (a + fo) mk l'); [| | |exact Hs].
        -- rewrite gep_eval_snoc by exact Hh. rewrite Hg. cbn [gep_step].
           destruct (Z.ltb_spec (Z.of_nat k) 0); [lia|]. now rewrite Nat2Z.id, Hm, Hfo.
        -- apply head_ok_pending, is_nil_snoc.
        -- now rewrite is_nil_snoc.
Qed.

(* For a local or global (memory), a pointer/view parameter, and a slice
   parameter: the instructions emitted by the REPAIRED generate_storage_address,
   executed, yield the address the resolved steps denote.  The steps are not
   empty (a parameter by itself is an SSA value, not a location in memory) and
   have [endless_ok], which the typer guarantees ([elaborate_endless_ok]).
   [sem_steps] gives a meaning to an Autodeslice only at a [LocSlice] base: a
   slice held in memory is outside the model. *)
Theorem lower_ref_sound m l steps l' :
  steps <> [] -> endless_ok false steps = true ->
  sem_steps m l steps = Some l' ->
  exists a t, l' = LocMem a t /\
    run m (lower_ref (base_kind_of l) steps) (base_mval l) = Some (MPtr a t).
Proof.
  intros Hne He Hs. destruct steps as [|s rest]; [congruence|]. clear Hne.
  destruct l as [a T|z u|p len e]; cbn [base_kind_of base_mval lower_ref is_nil].
  - apply (sim_steps m (s :: rest) a T [GConst 0] a T l' (gep_eval_zero T a)); try assumption.
    now apply head_ok_pending.
  - apply sem_steps_ptr in Hs as [Hd Hs].
    rewrite (proj2 (lower_deref m z u l' s rest [] Hd Hs)).
    destruct (after_load_ok u z rest) as (Hg' & Hh' & He').
    apply (sim_steps m rest z u _ z u l' Hg' Hh'); [|exact Hs].
    now rewrite He', <- (endless_ok_deref s rest false Hd).
  - apply sem_steps_slice in Hs as [-> Hs]. cbn [endless_ok] in He.
    cbn [lower_steps is_nil run exec_instr].
    apply (sim_steps m rest p (LArr 0 e) [GConst 0] p (LArr 0 e) l' (gep_eval_zero _ p));
      try assumption.
    now apply head_ok_pending.
Qed.

Corollary lower_ref_run m l steps a t :
  steps <> [] -> endless_ok false steps = true -> sem_steps m l steps = Some (LocMem a t) ->
  run m (lower_ref (base_kind_of l) steps) (base_mval l) = Some (MPtr a t).
Proof.
  intros Hne He Hs. destruct (lower_ref_sound m l steps _ Hne He Hs) as (a1 & t1 & Heq & Hr).
  now inversion Heq; subst.
Qed.

Lemma lower_steps_pinned_false : forall steps idx,
  lower_steps_pinned steps idx false = lower_steps steps idx false.
Proof.
  induction steps as [|s r IH]; intros idx; [reflexivity|].
  destruct s as [i e|k| | | |]; cbn [lower_steps lower_steps_pinned]; try (now rewrite IH).
  all: destruct r as [|[? [|]|?| | | |] ?]; cbn [andb negb]; now rewrite IH.
Qed.

(* Without Autoderef/Autoview steps the flag is never read. *)
Lemma lower_steps_pinned_imm_irrelevant : forall steps idx imm,
  no_deref steps = true ->
  lower_steps_pinned steps idx imm = lower_steps_pinned steps idx false.
Proof.
  induction steps as [|s r IH]; intros idx imm H; [reflexivity|].
  destruct s; cbn [no_deref] in H; try discriminate; cbn [lower_steps_pinned];
    try (now rewrite IH).
Qed.

(* An Autoderef/Autoview arm clears the flag in both. *)
Lemma lower_steps_pinned_deref s rest idx imm :
  is_deref s = true ->
  lower_steps_pinned (s :: rest) idx imm = lower_steps (s :: rest) idx imm.
Proof.
  destruct s; try discriminate; intros _; cbn [lower_steps lower_steps_pinned];
    destruct rest as [|[? [|]|?| | | |] ?]; destruct imm; cbn [andb negb];
    now rewrite !lower_steps_pinned_false.
Qed.

Lemma lower_ref_pinned_eq m l steps l' :
  quirk_free (base_kind_of l) steps = true -> sem_steps m l steps = Some l' ->
  lower_ref_pinned (base_kind_of l) steps = lower_ref (base_kind_of l) steps.
Proof.
  intros Hq Hs. destruct steps as [|s rest]; [destruct l; reflexivity|].
  destruct l as [a T|z u|p len e]; cbn [base_kind_of lower_ref lower_ref_pinned is_nil].
  - apply lower_steps_pinned_false.
  - apply lower_steps_pinned_deref. now apply sem_steps_ptr in Hs.
  - apply sem_steps_slice in Hs as [-> _].
    cbn [quirk_free base_kind_of] in Hq. cbn [lower_steps lower_steps_pinned is_nil].
    rewrite (lower_steps_pinned_imm_irrelevant rest [GConst 0] true Hq).
    now rewrite lower_steps_pinned_false.
Qed.

(* The pinned generator is sound on quirk-free steps only (no Autoderef/Autoview
   after the Autodeslice of a slice parameter). *)
Theorem lower_ref_pinned_sound m l steps l' :
  steps <> [] -> endless_ok false steps = true ->
  quirk_free (base_kind_of l) steps = true ->
  sem_steps m l steps = Some l' ->
  exists a t, l' = LocMem a t /\
    run m (lower_ref_pinned (base_kind_of l) steps) (base_mval l) = Some (MPtr a t).
Proof.
  intros Hne He Hq Hs. rewrite (lower_ref_pinned_eq m l steps l' Hq Hs).
  now apply lower_ref_sound.
Qed.

(* The restriction is necessary for the pinned generator: `x[i]` for `x: []&i64`
   (steps Autodeslice{0}, Element, Autoderef).  The flag is_immediate_parameter is
   still set when the Autoderef is reached, the load is skipped, and the computed
   "address of the i64" is the address of the pointer.  (The pinned compiler
   aborts inside LLVM on this program: "Broken function found".) *)
Definition quirk_mem : mem := store (fun _ => CPad) 100 (TArr 2 TPtr) (VArr [VS 500; VS 600]).

Theorem pinned_imm_flag_refuted :
  exists m l steps l',
    endless_ok false steps = true /\ sem_steps m l steps = Some l' /\
    loc_addr l' <> run m (lower_ref_pinned (base_kind_of l) steps) (base_mval l).
Proof.
  exists quirk_mem, (LocSlice 100 2 (LPtr (LInt 8))), [RDeslice0; RElem 1 false; RAutoderef],
    (LocMem 600 (LInt 8)).
  vm_compute. repeat split; discriminate.
Qed.

Example repaired_imm_flag_witness :
  sem_steps quirk_mem (LocSlice 100 2 (LPtr (LInt 8))) [RDeslice0; RElem 1 false; RAutoderef]
  = Some (LocMem 600 (LInt 8)) /\
  run quirk_mem (lower_ref BParam [RDeslice0; RElem 1 false; RAutoderef])
      (MSlice 100 2 (LPtr (LInt 8))) = Some (MPtr 600 (LInt 8)).
Proof. vm_compute. split; reflexivity. Qed.

(* `[..]T` only directly behind a pointer or view. *)
Fixpoint wfp (under_ptr : bool) (t : pty) : bool :=
  match t with
  | PInt _ => true
  | PBool => true
  | PArr _ e => wfp false e
  | PStruct ms =>
      (fix go (l : list pty) : bool :=
         match l with
         | [] => true
         | x :: r => wfp false x && go r
         end) ms
  | PPtr u => wfp true u
  | PView u => wfp true u
  | PSlice e => wfp false e
  | PSlicePtr e => wfp false e
  | PEndless e => under_ptr && wfp false e
  end.

Lemma wfp_struct b ms : wfp b (PStruct ms) = forallb (wfp false) ms.
Proof. reflexivity. Qed.

(* Every arm of the typer's loop conses its steps onto those of the recursive call. *)
Lemma elaborate_arm_inv (o : option (list rstep * pty)) (f : list rstep -> list rstep) rs t' :
  match o with Some (rs1, t1) => Some (f rs1, t1) | None => None end = Some (rs, t') ->
  exists rs1, o = Some (rs1, t') /\ rs = f rs1.
Proof. destruct o as [[rs1 t1]|]; [|discriminate]. intros H. inversion H. now exists rs1. Qed.

Theorem elaborate_endless_ok : forall fuel t p b rs t',
  wfp b t = true -> elaborate_fuel fuel t p = Some (rs, t') -> endless_ok b rs = true.
Proof.
  induction fuel as [|fuel IH]; intros t p b rs t' Hw H.
  - destruct p; cbn [elaborate_fuel] in H; [|discriminate]. now inversion H.
  - destruct p as [|s p]; cbn [elaborate_fuel] in H; [now inversion H|].
    destruct t as [bb| |n e|ms|u|u|e|e|e]; try discriminate.
    + destruct s as [i|k]; [|discriminate]. apply elaborate_arm_inv in H as (rs1 & H1 & ->).
      exact (IH e p false _ _ Hw H1).
    + destruct s as [i|k]; [discriminate|].
      destruct (nth_error ms k) as [mk|] eqn:Hm; [|discriminate].
      apply elaborate_arm_inv in H as (rs1 & H1 & ->). rewrite wfp_struct in Hw.
      exact (IH mk p false _ _ (forallb_nth_error _ _ _ _ Hw Hm) H1).
    + apply elaborate_arm_inv in H as (rs1 & H1 & ->). exact (IH u (s :: p) true _ _ Hw H1).
    + apply elaborate_arm_inv in H as (rs1 & H1 & ->). exact (IH u (s :: p) true _ _ Hw H1).
    + destruct s as [i|k]; [|discriminate]. apply elaborate_arm_inv in H as (rs1 & H1 & ->).
      exact (IH e p false _ _ Hw H1).
    + destruct s as [i|k]; [|discriminate]. apply elaborate_arm_inv in H as (rs1 & H1 & ->).
      exact (IH e p false _ _ Hw H1).
    + destruct s as [i|k]; [|discriminate]. apply elaborate_arm_inv in H as (rs1 & H1 & ->).
      cbn [wfp] in Hw. apply andb_true_iff in Hw as [-> Hw]. exact (IH e p false _ _ Hw H1).
Qed.

(* On plain paths the step-by-step semantics is gep_offset. *)
Lemma sem_steps_plain m : forall p T a off t',
  gep_offset (erase T) p = Some (off, t') ->
  exists T', sem_steps m (LocMem a T) (map step_rstep p) = Some (LocMem (a + off) T') /\
             erase T' = t'.
Proof.
  induction p as [|s p IH]; intros T a off t' H.
  - cbn [gep_offset] in H. inversion H; subst. exists T. cbn [map sem_steps].
    now rewrite Z.add_0_r.
  - destruct s as [i|k]; cbn [gep_offset] in H.
    + destruct T as [b| |u|n E|Ms]; try discriminate. cbn [erase] in H.
      destruct (gep_offset (erase E) p) as [[o1 t1]|] eqn:H1; [|discriminate].
      inversion H; subst off t1.
      destruct (IH E (a + i * lsize E) o1 t' H1) as [T' [Hs He]].
      exists T'. cbn [map step_rstep sem_steps sem_step]. rewrite Hs. split; [|exact He].
      unfold lsize. do 2 f_equal. ring.
    + destruct T as [b| |u|n E|Ms]; try discriminate.
      rewrite erase_struct, erase_list_map, nth_error_map in H.
      destruct (nth_error Ms k) as [M|] eqn:HM; [|discriminate]. cbn [option_map] in H.
      destruct (nth_error (struct_offsets (map erase Ms)) k) as [fo|] eqn:Hfo; [|discriminate].
      destruct (gep_offset (erase M) p) as [[o1 t1]|] eqn:H1; [|discriminate].
      inversion H; subst off t1.
      destruct (IH M (a + fo) o1 t' H1) as [T' [Hs He]].
      exists T'. cbn [map step_rstep sem_steps sem_step]. rewrite HM, erase_list_map, Hfo, Hs.
      split; [|exact He]. do 2 f_equal. ring.
Qed.

Lemma endless_ok_plain p : forall b, endless_ok b (map step_rstep p) = true.
Proof.
  induction p as [|[i|k] p IH]; intros b; cbn [map step_rstep endless_ok negb orb andb]; auto.
Qed.

(* A path in a local or global: the one GEP [0, idx...] adds gep_offset. *)
Theorem lower_path_is_gep_offset m T a p off t' :
  gep_offset (erase T) p = Some (off, t') ->
  exists T', run m (lower_path p) (MPtr a T) = Some (MPtr (a + off) T') /\ erase T' = t'.
Proof.
  intros H. destruct (sem_steps_plain m p T a off t' H) as (T' & Hs & He). exists T'.
  split; [|exact He]. destruct p as [|s p].
  - cbn [map sem_steps] in Hs. cbn. congruence.
  - apply (lower_ref_run m (LocMem a T)); [discriminate|apply endless_ok_plain|exact Hs].
Qed.

(* `x[i]<q>` for a slice parameter x (`[]T` or `&[]T`).  No comparison with
   the length is generated: for EVERY integer i, inside the slice or not, the
   sequence evaluates to ptr + i * sizeof(T) [+ off]. *)
Theorem slice_address_unchecked m ptr len E i q off t' :
  gep_offset (erase E) q = Some (off, t') ->
  exists T',
    run m (lower_ref BParam (RDeslice0 :: RElem i false :: map step_rstep q)) (MSlice ptr len E)
    = Some (MPtr (ptr + i * llvm_alloc_size (erase E) + off) T') /\ erase T' = t'.
Proof.
  intros H. destruct (sem_steps_plain m q E (ptr + i * lsize E) off t' H) as (T' & Hs & He).
  exists T'. split; [|exact He].
  apply (lower_ref_run m (LocSlice ptr len E)); [discriminate|apply (endless_ok_plain q)|exact Hs].
Qed.

(* With the index in range, and the slice pointing at the image of an array
   value, the element (and any subobject of it) is found.  That the index is in
   range is also what the get_path hypothesis says; nothing in the emitted code
   checks it: see [slice_address_unchecked]. *)
Theorem slice_element m ptr len E vs i q v' off t' :
  wf_ty (erase E) = true -> wt_list (erase E) vs = true -> Z.of_nat (length vs) = len ->
  agree m ptr (TArr len (erase E)) (VArr vs) ->
  0 <= i < len ->
  get_path (VArr vs) (SElem i :: q) = Some v' ->
  gep_offset (erase E) q = Some (off, t') ->
  exists T',
    run m (lower_ref BParam (RDeslice0 :: RElem i false :: map step_rstep q)) (MSlice ptr len E)
    = Some (MPtr (ptr + i * llvm_alloc_size (erase E) + off) T') /\ erase T' = t' /\
    load m (ptr + i * llvm_alloc_size (erase E) + off) t' = Some v'.
Proof.
  intros Hwf Hl Hlen Hag Hi Hg Hgo.
  destruct (slice_address_unchecked m ptr len E i q off t' Hgo) as [T' [Hr He]].
  exists T'. split; [exact Hr|]. split; [exact He|].
  rewrite <- Z.add_assoc.
  destruct (proj2 (typed_arr len (erase E) vs) (conj Hwf (conj Hl Hlen))) as [Hwfa Hwta].
  apply (load_after_encode m ptr _ (VArr vs) (SElem i :: q) v' _ _ Hwfa Hwta Hag Hg).
  cbn [gep_offset]. now rewrite Hgo.
Qed.

Corollary slice_element_nth m ptr E vs i x :
  wf_ty (erase E) = true -> wt_list (erase E) vs = true ->
  agree m ptr (TArr (Z.of_nat (length vs)) (erase E)) (VArr vs) ->
  0 <= i < Z.of_nat (length vs) -> nth_error vs (Z.to_nat i) = Some x ->
  run m (lower_ref BParam [RDeslice0; RElem i false]) (MSlice ptr (Z.of_nat (length vs)) E)
  = Some (MPtr (ptr + i * llvm_alloc_size (erase E)) E) /\
  load m (ptr + i * llvm_alloc_size (erase E)) (erase E) = Some x.
Proof.
  intros Hwf Hl Hag Hi Hn.
  assert (Hg : get_path (VArr vs) [SElem i] = Some x).
  { rewrite <- (Z2Nat.id i) by lia. now apply get_path_elem. }
  destruct (slice_element m ptr _ E vs i [] x 0 (erase E) Hwf Hl eq_refl Hag Hi Hg eq_refl)
    as [T' [_ [_ Hld]]].
  rewrite Z.add_0_r in Hld. split; [|exact Hld].
  now apply (lower_ref_run m (LocSlice ptr _ E) [RDeslice0; RElem i false]).
Qed.

(* End to end through one pointer: `p<q>` for a pointer/view p (a parameter, or a
   variable in memory at address b) to an object holding v.  The address is
   a + off and the load finds the source-level subobject. *)
Theorem pointer_then_path m b a T v q v' off t' :
  wf_ty (erase T) = true -> wt_value (erase T) v = true -> agree m a (erase T) v ->
  load_scalar m b 8 = Some a ->
  get_path v q = Some v' -> gep_offset (erase T) q = Some (off, t') -> q <> [] ->
  exists T',
    run m (lower_ref BLocal (RAutoderef :: map step_rstep q)) (MPtr b (LPtr T))
      = Some (MPtr (a + off) T') /\
    run m (lower_ref BParam (RAutoderef :: map step_rstep q)) (MPtr a T)
      = Some (MPtr (a + off) T') /\
    erase T' = t' /\ load m (a + off) t' = Some v'.
Proof.
  intros Hwf Hwt Hag Hb Hg Hgo _.
  destruct (sem_steps_plain m q T a off t' Hgo) as [T' [Hs He]]. exists T'.
  split; [|split; [|split; [exact He|]]].
  - apply (lower_ref_run m (LocMem b (LPtr T))); [discriminate|apply (endless_ok_plain q)|].
    cbn [sem_steps sem_step]. now rewrite Hb.
  - apply (lower_ref_run m (LocPtr a T)); [discriminate|apply (endless_ok_plain q)|exact Hs].
  - exact (load_after_encode m a (erase T) v q v' off t' Hwf Hwt Hag Hg Hgo).
Qed.

(* Used by Proofs/CallFrameProofs.v only. *)
Section lt_ind2.
  Variable P : lt -> Prop.
  Hypothesis HI : forall b, P (LInt b).
  Hypothesis HB : P LBool.
  Hypothesis HP : forall u, P u -> P (LPtr u).
  Hypothesis HA : forall n e, P e -> P (LArr n e).
  Hypothesis HS : forall ms, Forall P ms -> P (LStruct ms).
  Fixpoint lt_ind2 (t : lt) : P t :=
    match t with
    | LInt b => HI b
    | LBool => HB
    | LPtr u => HP u (lt_ind2 u)
    | LArr n e => HA n e (lt_ind2 e)
    | LStruct ms => HS ms (Forall_all P lt_ind2 ms)
    end.
End lt_ind2.

Lemma erase_list_nth' ms : forall k M,
  nth_error ms k = Some M -> nth_error (erase_list ms) k = Some (erase M).
Proof. intros k M. apply (map_nth_error erase). Qed.

Lemma is_nil_true {X} (l : list X) : is_nil l = true -> l = [].
Proof. destruct l; [reflexivity|discriminate]. Qed.

Lemma store_outside (P : Z -> Prop) m a t v :
  (forall j, 0 <= j < llvm_alloc_size t -> P (a + j)) ->
  forall x, ~ P x -> store m a t v x = m x.
Proof.
  intros H x Hx. apply store_frame.
  destruct (Z.lt_ge_cases x a) as [Hlt|Hge]; [left; exact Hlt|].
  destruct (Z.lt_ge_cases x (a + llvm_alloc_size t)) as [Hin|Hout]; [|right; exact Hout].
  exfalso. apply Hx. replace x with (a + (x - a)) by lia. apply H. lia.
Qed.

Lemma load_scalar_store_ptr m c z : load_scalar (store m c TPtr (VS z)) c 8 = Some z.
Proof.
  pose proof (load_agree TPtr (VS z) _ c eq_refl eq_refl (agree_store m c TPtr (VS z))) as H.
  cbn [load] in H. destruct (load_scalar _ c 8); now inversion H.
Qed.

(* struct Inner { x: i32, y: i64 }   struct Outer { a: u8, arr: [3]Inner, b: u16 }
   struct Holder { p: &Outer, q: i8 } *)
Definition exInner : pty := PStruct [PInt 4; PInt 8].
Definition exOuter : pty := PStruct [PInt 1; PArr 3 exInner; PInt 2].
Definition exHolder : pty := PStruct [PPtr exOuter; PInt 1].
Definition tOuter : ty := erase (gen exOuter).
Definition vInner (x y : Z) : value := VStruct [VS x; VS y].
Definition vOuter : value := VStruct [VS 1; VArr [vInner 10 11; vInner 20 21; vInner 30 31]; VS 2].
Definition exMem : mem := store (fun _ => CPad) 1000 tOuter vOuter.

Example ex_hyps :
  wf_ty tOuter = true /\ wt_value tOuter vOuter = true /\
  llvm_alloc_size tOuter = 64 /\
  get_path vOuter [SMember 1; SElem 2; SMember 1] = Some (VS 31) /\
  gep_offset tOuter [SMember 1; SElem 2; SMember 1] = Some (48, TInt 8) /\
  gep_offset tOuter [SMember 1; SElem 1] = Some (24, erase (gen exInner)) /\
  gep_offset tOuter [SMember 2] = Some (56, TInt 2).
Proof. vm_compute. repeat split; reflexivity. Qed.

Example ex_load :
  load exMem (1000 + 48) (TInt 8) = Some (VS 31) /\
  load exMem (1000 + 24) (erase (gen exInner)) = Some (vInner 20 21) /\
  load exMem 1000 tOuter = Some vOuter /\
  load exMem (1000 + 44) (TInt 8) = None.            (* straddles padding *)
Proof.
  destruct ex_hyps as (Hwf & Hwt & _ & Hg & Hgo & Hgo' & _).
  pose proof (agree_store (fun _ => CPad) 1000 tOuter vOuter) as Hag. fold exMem in Hag.
  split; [|split; [|split]].
  - exact (load_after_encode exMem 1000 tOuter vOuter _ _ 48 _ Hwf Hwt Hag Hg Hgo).
  - exact (load_after_encode exMem 1000 tOuter vOuter [SMember 1; SElem 1] (vInner 20 21) 24 _
             Hwf Hwt Hag eq_refl Hgo').
  - exact (load_after_encode exMem 1000 tOuter vOuter [] vOuter 0 tOuter
             Hwf Hwt Hag eq_refl eq_refl).
  - reflexivity.
Qed.

Example ex_store :
  let m' := store exMem (1000 + 24) (erase (gen exInner)) (vInner 7 8) in
  set_path vOuter [SMember 1; SElem 1] (vInner 7 8) =
    Some (VStruct [VS 1; VArr [vInner 10 11; vInner 7 8; vInner 30 31]; VS 2]) /\
  load m' 1000 tOuter = set_path vOuter [SMember 1; SElem 1] (vInner 7 8) /\
  load m' (1000 + 48) (TInt 8) = Some (VS 31) /\
  disjoint_paths [SMember 1; SElem 1] [SMember 1; SElem 2; SMember 1] = true /\
  disjoint_paths [SMember 1; SElem 1] [SMember 1; SElem 1; SMember 0] = false.
Proof.
  destruct ex_hyps as (Hwf & Hwt & _ & Hg & Hgo & Hgo' & _).
  pose proof (agree_store (fun _ => CPad) 1000 tOuter vOuter) as Hag. fold exMem in Hag.
  assert (Hw : wt_value (erase (gen exInner)) (vInner 7 8) = true) by reflexivity.
  destruct (store_commutes exMem 1000 tOuter vOuter [SMember 1; SElem 1] (vInner 20 21) 24 _
              (vInner 7 8) Hwf Hwt Hag eq_refl Hgo' Hw) as (v2 & Hset & Hwt2 & Hag2 & _).
  cbv zeta. split; [reflexivity|]. split; [|split; [|split; reflexivity]].
  - rewrite Hset. now apply load_agree.
  - apply (proj2 (load_after_store exMem 1000 tOuter vOuter [SMember 1; SElem 1] (vInner 20 21)
                    24 _ (vInner 7 8) Hwf Hwt Hag eq_refl Hgo' Hw)
             [SMember 1; SElem 2; SMember 1]); [reflexivity|exact Hg|exact Hgo].
Qed.

(* The instructions for some references, as [ref_instrs] computes them (the typer's
   steps, then the repaired [lower_ref]); [ref_indices] gives the index lists alone,
   with -1 for a run-time index `i64 %i`.  Up to [ex_ir_local_ptr_array] the steps
   are quirk-free, so the pinned generator emits the same; they are the sequences
   seen in the IR of the pinned compiler (LLVM 14). *)
Example ex_ir_local :            (* var s: Outer;  s.arr[i].y *)
  ref_instrs BLocal exOuter [SMember 1; SElem 2; SMember 1]
  = Some [IGep [GConst 0; GConst 1; GDyn 2; GConst 1]].
Proof. reflexivity. Qed.

Example ex_ir_view_param :       (* fn f(o: Outer) / fn f(o: &Outer);  o.arr[i].y *)
  ref_indices BParam (PView exOuter) [SMember 1; SElem 2; SMember 1] = Some [[0; 1; -1; 1]] /\
  ref_indices BParam (PPtr exOuter) [SMember 1; SElem 2; SMember 1] = Some [[0; 1; -1; 1]].
Proof. split; reflexivity. Qed.

Example ex_ir_slice_param :      (* fn f(x: []i64) / fn f(x: &[][3]i32);  x[i], x[i][j] *)
  ref_instrs BParam (PSlice (PInt 8)) [SElem 2]
  = Some [IExtract 0; IGep [GConst 0; GDyn 2]] /\
  ref_instrs BParam (PSlicePtr (PArr 3 (PInt 4))) [SElem 2; SElem 1]
  = Some [IExtract 0; IGep [GConst 0; GDyn 2; GDyn 1]].
Proof. split; reflexivity. Qed.

Example ex_ir_endless :          (* a: &[..]i64;  a[i]  -- parameter, local *)
  ref_instrs BParam (PPtr (PEndless (PInt 8))) [SElem 2] = Some [IGep [GDyn 2]] /\
  ref_instrs BLocal (PPtr (PEndless (PInt 8))) [SElem 2]
  = Some [IGep [GConst 0]; ILoad; IGep [GDyn 2]].
Proof. split; reflexivity. Qed.

Example ex_ir_holder :           (* h: &Holder;  h.p.arr[i].y *)
  ref_instrs BParam (PPtr exHolder) [SMember 0; SMember 1; SElem 2; SMember 1]
  = Some [IGep [GConst 0; GConst 0]; ILoad; IGep [GConst 0; GConst 1; GDyn 2; GConst 1]].
Proof. reflexivity. Qed.

Example ex_ir_ptrptr :           (* o: &&Outer;  o.arr[i].y  -- parameter, local *)
  ref_instrs BParam (PPtr (PPtr exOuter)) [SMember 1; SElem 2; SMember 1]
  = Some [ILoad; IGep [GConst 0; GConst 1; GDyn 2; GConst 1]] /\
  ref_instrs BLocal (PPtr (PPtr exOuter)) [SMember 1; SElem 2; SMember 1]
  = Some [IGep [GConst 0]; ILoad; ILoad; IGep [GConst 0; GConst 1; GDyn 2; GConst 1]].
Proof. split; reflexivity. Qed.

Example ex_ir_member_pointer :   (* struct S2 { q: i8, d: &[..]i64 } / { q: i8, d: &[4]i64 };  x.d[i] *)
  ref_instrs BParam (PView (PStruct [PInt 1; PPtr (PEndless (PInt 8))])) [SMember 1; SElem 2]
  = Some [IGep [GConst 0; GConst 1]; ILoad; IGep [GDyn 2]] /\
  ref_instrs BParam (PPtr (PStruct [PInt 1; PPtr (PArr 4 (PInt 8))])) [SMember 1; SElem 2]
  = Some [IGep [GConst 0; GConst 1]; ILoad; IGep [GConst 0; GDyn 2]].
Proof. split; reflexivity. Qed.

Example ex_ir_local_ptr_array :  (* var pa: &[4]i64;  pa[i] *)
  ref_instrs BLocal (PPtr (PArr 4 (PInt 8))) [SElem 2]
  = Some [IGep [GConst 0]; ILoad; IGep [GConst 0; GDyn 2]].
Proof. reflexivity. Qed.

(* x: []&i64 / &[]&i64, x[i];  x: []&&i64, x[i]  (typer steps Autodeslice, Element,
   Autoderef...).  Repaired generator: extractvalue, GEP [0, i], then one load per
   Autoderef -- as in the IR of the repaired compiler.  Pinned generator: no load
   for the first Autoderef, and the compiler aborts (LLVM "Broken function"). *)
Example ex_ir_slice_of_pointers :
  ref_instrs BParam (PSlice (PPtr (PInt 8))) [SElem 2]
  = Some [IExtract 0; IGep [GConst 0; GDyn 2]] /\
  lower_ref BParam [RDeslice0; RElem 2 false; RAutoderef]
  = [IExtract 0; IGep [GConst 0; GDyn 2]; ILoad] /\
  lower_ref BParam [RDeslice0; RElem 2 false; RAutoderef; RAutoderef]
  = [IExtract 0; IGep [GConst 0; GDyn 2]; ILoad; ILoad] /\
  ref_instrs BParam (PSlicePtr (PPtr (PArr 3 (PInt 8)))) [SElem 2; SElem 1]
  = Some [IExtract 0; IGep [GConst 0; GDyn 2]; ILoad; IGep [GConst 0; GDyn 1]] /\
  ref_instrs BParam (PSlice (PPtr exInner)) [SElem 2; SMember 1]
  = Some [IExtract 0; IGep [GConst 0; GDyn 2]; ILoad; IGep [GConst 0; GConst 1]].
Proof. repeat split; reflexivity. Qed.

Example ex_ir_pinned_quirk :
  lower_ref_pinned BParam [RDeslice0; RElem 2 false; RAutoderef]
  = [IExtract 0; IGep [GConst 0; GDyn 2]] /\
  quirk_free BParam [RDeslice0; RElem 2 false; RAutoderef] = false /\
  ref_instrs_pinned BParam (PSlice (PPtr exInner)) [SElem 2; SMember 1]
  = Some [IExtract 0; IGep [GConst 0; GDyn 2; GConst 0; GConst 1]].
Proof. repeat split; reflexivity. Qed.

Example ex_run_pointer :
  let m := store exMem 2000 TPtr (VS 1000) in
  run m (lower_ref BLocal (RAutoderef :: map step_rstep [SMember 1; SElem 2; SMember 1]))
      (MPtr 2000 (LPtr (gen exOuter))) = Some (MPtr 1048 (LInt 8)) /\
  load m 1048 (TInt 8) = Some (VS 31).
Proof. vm_compute. split; reflexivity. Qed.

Print Assumptions gep_in_bounds.
Print Assumptions load_after_encode.
Print Assumptions load_after_encode_store.
Print Assumptions store_commutes.
Print Assumptions load_after_store.
Print Assumptions distinct_paths_distinct_ranges.
Print Assumptions disjoint_paths_iff.
Print Assumptions lower_path_is_gep_offset.
Print Assumptions slice_address_unchecked.
Print Assumptions slice_element.
Print Assumptions lower_ref_sound.
Print Assumptions lower_ref_pinned_sound.
Print Assumptions pinned_imm_flag_refuted.
Print Assumptions elaborate_endless_ok.
Print Assumptions pointer_then_path.
