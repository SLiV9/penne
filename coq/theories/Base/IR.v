(* Vocabulary shared by the generated tables (Gen/*.v) and the models. *)
From PV Require Import Base.Common.

Inductive prim :=
| Int8 | Int16 | Int32 | Int64 | Int128
| Uint8 | Uint16 | Uint32 | Uint64 | Uint128
| Usize | Char8 | Bool.

Definition all_prims : list prim :=
  [Int8; Int16; Int32; Int64; Int128; Uint8; Uint16; Uint32; Uint64; Uint128; Usize; Char8; Bool].

Definition prim_eqb (a b : prim) : bool :=
  match a, b with
  | Int8, Int8 | Int16, Int16 | Int32, Int32 | Int64, Int64 | Int128, Int128
  | Uint8, Uint8 | Uint16, Uint16 | Uint32, Uint32 | Uint64, Uint64 | Uint128, Uint128
  | Usize, Usize | Char8, Char8 | Bool, Bool => true
  | _, _ => false
  end.

Lemma prim_eqb_eq a b : prim_eqb a b = true <-> a = b.
Proof.
  split; [|intros ->; destruct b; reflexivity].
  destruct a, b; intros H; (reflexivity || discriminate H).
Qed.

Lemma all_prims_complete t : In t all_prims.
Proof. destruct t; cbn; tauto. Qed.

Inductive binop :=
| Add | Subtract | Multiply | Divide | Modulo
| BitwiseAnd | BitwiseOr | BitwiseXor | ShiftLeft | ShiftRight | AdvancePointer.
Definition all_binops := [Add; Subtract; Multiply; Divide; Modulo; BitwiseAnd; BitwiseOr; BitwiseXor; ShiftLeft; ShiftRight; AdvancePointer].

Inductive unop := Negative | BitwiseComplement.
Inductive cmpop := Equals | DoesNotEqual | IsGreater | IsGE | IsLess | IsLE.
Definition all_cmpops := [Equals; DoesNotEqual; IsGreater; IsGE; IsLess; IsLE].

(* LLVM instructions translator/rust2coq.py knows by name.  Variants with nsw/nuw/exact
   flags are listed so that a change of generator.rs to one of them is translated
   faithfully; Base/Bits.v gives them no value ([ir_binop], [ir_unop]: None, "may be poison"),
   so no lowering theorem holds of a table that selects one. *)
Inductive instr :=
| IAdd | ISub | IMul | ISDiv | IUDiv | ISRem | IURem
| IAnd | IOr | IXor | IShl | ILShr | IAShr | IGEP | INeg | INot
| IAddNSW | IAddNUW | ISubNSW | ISubNUW | IMulNSW | IMulNUW | ISDivExact | INegNSW | IOther.

Inductive pred := PEq | PNe | PSgt | PUgt | PSlt | PUlt | PSge | PUge | PSle | PUle.

Inductive cast := CTrunc | CSExt | CZExt | CNone.

Inductive operand_type := OPrim (t : prim) | OPointer.

Definition operand_eqb (a b : operand_type) : bool :=
  match a, b with
  | OPrim x, OPrim y => prim_eqb x y
  | OPointer, OPointer => true
  | _, _ => false
  end.

Definition mem_operand (a : operand_type) (l : list operand_type) : bool := existsb (operand_eqb a) l.
Definition mem_prim (a : prim) (l : list prim) : bool := existsb (prim_eqb a) l.
