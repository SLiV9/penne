(* Shared conventions: names and diagnostic codes are binary naturals; and the facts about
   lists that more than one proof file uses and Coq 8.16's List lacks. *)
From Coq Require Export List Bool NArith ZArith Lia.
Export ListNotations.

Definition name := N.
Definition code := N.

Definition mem_name (l : name) (ls : list name) : bool := existsb (N.eqb l) ls.

Lemma mem_name_app l a b : mem_name l (a ++ b) = mem_name l a || mem_name l b.
Proof. unfold mem_name. apply existsb_app. Qed.

Lemma mem_name_In l ls : mem_name l ls = true <-> In l ls.
Proof.
  unfold mem_name. rewrite existsb_exists. split.
  - intros [x [Hin Heq]]. apply N.eqb_eq in Heq. now subst.
  - intros Hin. exists l. split; [assumption|apply N.eqb_refl].
Qed.

Lemma mem_name_false l ls : mem_name l ls = false <-> ~ In l ls.
Proof.
  rewrite <- mem_name_In. destruct (mem_name l ls); split; intros; congruence.
Qed.

Lemma mem_name_rev l ls : mem_name l (rev ls) = mem_name l ls.
Proof. apply eq_true_iff_eq. rewrite !mem_name_In. symmetry. apply in_rev. Qed.

(* stated on the test written out, so that it applies by conversion to the [in_range lo hi x] that
   Model/LexAlpha.v, Model/LexDelta.v and Model/Fuzzer.v each define for themselves *)
Lemma N_between_iff (lo hi x : N) : ((lo <=? x) && (x <=? hi))%N = true <-> (lo <= x <= hi)%N.
Proof. rewrite andb_true_iff, !N.leb_le. reflexivity. Qed.

Lemma let_pair {A B C} (p : A * B) (g : A -> B -> C) : (let '(a, b) := p in g a b) = g (fst p) (snd p).
Proof. now destruct p. Qed.

(* [Forall P l] from a proof of [P x] for every [x].  A definition: the induction principle of a type
   that occurs in lists of itself passes itself for [f], and the guard condition sees it applied to
   the members of [l] only. *)
Definition Forall_all {A} (P : A -> Prop) (f : forall x, P x) : forall l, Forall P l :=
  fix go l := match l with [] => Forall_nil P | x :: xs => Forall_cons x (f x) (go xs) end.

Lemma Forall_mp {A} (P Q : A -> Prop) l :
  Forall (fun x => P x -> Q x) l -> Forall P l -> Forall Q l.
Proof. induction 1; inversion 1; constructor; auto. Qed.

Lemma forallb_Forall {A} (f : A -> bool) l : forallb f l = true <-> Forall (fun x => f x = true) l.
Proof. now rewrite forallb_forall, Forall_forall. Qed.

Lemma forallb_nth_error {A} (f : A -> bool) l k x :
  forallb f l = true -> nth_error l k = Some x -> f x = true.
Proof. intros H Hn. exact (proj1 (forallb_forall f l) H x (nth_error_In l k Hn)). Qed.

Lemma filter_none {A} (f : A -> bool) l : (forall x, In x l -> f x = false) -> filter f l = [].
Proof.
  induction l as [|a l IH]; intros H; [reflexivity|]. cbn [filter].
  rewrite (H a (or_introl eq_refl)). apply IH. intros x Hx. apply H. now right.
Qed.

Lemma NoDup_app_inv {A} (l l' : list A) :
  NoDup (l ++ l') -> NoDup l /\ NoDup l' /\ forall x, In x l -> ~ In x l'.
Proof.
  induction l as [|a l IH]; cbn [app]; intros Hnd.
  - repeat split; [constructor|assumption|intros x []].
  - inversion Hnd as [|? ? Hnin Hnd']; subst. destruct (IH Hnd') as (H1 & H2 & H3).
    rewrite in_app_iff in Hnin. repeat split; [constructor; tauto|assumption|].
    intros x [->|Hx]; [tauto|now apply H3].
Qed.
