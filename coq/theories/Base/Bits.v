(* Two's-complement bit patterns as integers modulo 2^w, and the LangRef
   semantics of the integer instructions the generator selects.
   [repr w v]: bit pattern of the mathematical integer v;  [sgn w b]: signed
   reading of a pattern. *)
From Coq Require Import ZArith Lia Bool.
From PV Require Import Base.Common Base.IR.
Open Scope Z_scope.

Definition modulus (w : Z) := 2 ^ w.
Definition repr (w v : Z) : Z := v mod modulus w.
Definition sgn (w b : Z) : Z := if b <? 2 ^ (w - 1) then b else b - modulus w.
Definition in_s (w v : Z) := - 2 ^ (w - 1) <= v < 2 ^ (w - 1).
Definition in_u (w v : Z) := 0 <= v < 2 ^ w.
Definition in_range (signed : bool) (w v : Z) := if signed then in_s w v else in_u w v.

(* the value a bit pattern denotes for a type of the given signedness *)
Definition value_of (signed : bool) (w b : Z) : Z := if signed then sgn w b else b.
Definition wrap (signed : bool) (w v : Z) : Z := value_of signed w (repr w v).

Lemma modulus_pos w : 0 <= w -> 0 < modulus w.
Proof. intros; unfold modulus; apply Z.pow_pos_nonneg; lia. Qed.

Lemma modulus_half w : 0 < w -> modulus w = 2 * 2 ^ (w - 1).
Proof. intros. unfold modulus. replace w with (1 + (w - 1)) at 1 by lia.
  rewrite Z.pow_add_r by lia. reflexivity. Qed.

Lemma repr_range w v : 0 <= w -> in_u w (repr w v).
Proof. intros. unfold in_u, repr. fold (modulus w). apply Z.mod_pos_bound. now apply modulus_pos. Qed.

Lemma repr_small w v : in_u w v -> repr w v = v.
Proof. intros [A B]. unfold repr, modulus. apply Z.mod_small. lia. Qed.

Lemma repr_repr w v : 0 <= w -> repr w (repr w v) = repr w v.
Proof. intros. apply repr_small. now apply repr_range. Qed.

Lemma repr_repr_le w1 w2 v : 0 <= w1 <= w2 -> repr w1 (repr w2 v) = repr w1 v.
Proof.
  (* 2^w1 divides 2^w2 *)
  intros Hw. symmetry. apply Znumtheory.Zmod_div_mod; try (apply modulus_pos; lia).
  exists (2 ^ (w2 - w1)). unfold modulus. rewrite <- Z.pow_add_r by lia. f_equal. lia.
Qed.

Lemma sgn_repr w v : 0 < w -> in_s w v -> sgn w (repr w v) = v.
Proof.
  intros Hw [Hlo Hhi]. unfold sgn, repr.
  pose proof (modulus_pos w ltac:(lia)) as Hm. pose proof (modulus_half w Hw) as Hh.
  destruct (Z_lt_le_dec v 0).
  - (* a negative value is represented by v + 2^w, in the upper half *)
    replace (v mod modulus w) with (v + modulus w) by (apply Z.mod_unique with (q := -1); lia).
    destruct (Z.ltb_spec (v + modulus w) (2 ^ (w - 1))); lia.
  - rewrite Z.mod_small by lia. destruct (Z.ltb_spec v (2 ^ (w - 1))); lia.
Qed.

Lemma repr_sgn w b : 0 < w -> in_u w b -> repr w (sgn w b) = b.
Proof.
  intros Hw [Hlo Hhi]. unfold sgn, repr. pose proof (modulus_pos w ltac:(lia)).
  fold (modulus w) in Hhi.
  destruct (Z.ltb_spec b (2 ^ (w - 1))).
  - apply Z.mod_small; lia.
  - replace (b - modulus w) with (b + (-1) * modulus w) by lia.
    rewrite Z.mod_add by lia. apply Z.mod_small; lia.
Qed.

Lemma sgn_in_s w b : 0 < w -> in_u w b -> in_s w (sgn w b).
Proof.
  intros Hw [Hlo Hhi]. unfold sgn, in_s. pose proof (modulus_half w Hw). fold (modulus w) in Hhi.
  destruct (Z.ltb_spec b (2 ^ (w - 1))); lia.
Qed.

Lemma value_of_repr s w v : 0 < w -> in_range s w v -> value_of s w (repr w v) = v.
Proof. destruct s; cbn; intros. now apply sgn_repr. now apply repr_small. Qed.

Lemma repr_value_of s w b : 0 < w -> in_u w b -> repr w (value_of s w b) = b.
Proof. destruct s; cbn; intros. now apply repr_sgn. now apply repr_small. Qed.

Lemma repr_wrap s w v : 0 < w -> repr w (wrap s w v) = repr w v.
Proof. intros. unfold wrap. apply repr_value_of; [assumption|apply repr_range; lia]. Qed.

Lemma wrap_in_range s w v : 0 < w -> in_range s w (wrap s w v).
Proof.
  intros. unfold wrap. destruct s; cbn.
  - apply sgn_in_s; [assumption|apply repr_range; lia].
  - apply repr_range; lia.
Qed.

Lemma repr_add w x y : 0 <= w -> repr w (repr w x + repr w y) = repr w (x + y).
Proof. intros. unfold repr. symmetry. apply Z.add_mod. pose proof (modulus_pos w H). lia. Qed.
Lemma repr_sub w x y : 0 <= w -> repr w (repr w x - repr w y) = repr w (x - y).
Proof. intros. unfold repr. symmetry. apply Zminus_mod. Qed.
Lemma repr_mul w x y : 0 <= w -> repr w (repr w x * repr w y) = repr w (x * y).
Proof. intros. unfold repr. symmetry. apply Z.mul_mod. pose proof (modulus_pos w H). lia. Qed.
Lemma repr_opp w x : 0 <= w -> repr w (- repr w x) = repr w (- x).
Proof. (* [repr w 0 - a] and [0 - x] compute to [- a] and [- x] *) exact (repr_sub w 0 x). Qed.

(* Instruction semantics; None = poison / undefined / not an integer operation. *)
Definition ir_binop (i : instr) (w a b : Z) : option Z :=
  match i with
  | IAdd => Some (repr w (a + b))
  | ISub => Some (repr w (a - b))
  | IMul => Some (repr w (a * b))
  | ISDiv => if (b =? 0) || ((sgn w a =? - 2 ^ (w - 1)) && (sgn w b =? -1)) then None
             else Some (repr w (Z.quot (sgn w a) (sgn w b)))
  | IUDiv => if b =? 0 then None else Some (a / b)
  | ISRem => if (b =? 0) || ((sgn w a =? - 2 ^ (w - 1)) && (sgn w b =? -1)) then None
             else Some (repr w (Z.rem (sgn w a) (sgn w b)))
  | IURem => if b =? 0 then None else Some (a mod b)
  | IAnd => Some (repr w (Z.land a b))
  | IOr => Some (repr w (Z.lor a b))
  | IXor => Some (repr w (Z.lxor a b))
  | IShl => if b <? w then Some (repr w (a * 2 ^ b)) else None
  | ILShr => if b <? w then Some (a / 2 ^ b) else None
  | IAShr => if b <? w then Some (repr w (sgn w a / 2 ^ b)) else None
  | _ => None
  end.

Definition ir_unop (i : instr) (w a : Z) : option Z :=
  match i with
  | INeg => Some (repr w (- a))
  | INot => Some (repr w (modulus w - 1 - a))   (* xor with all ones *)
  | _ => None
  end.

Definition ir_icmp (p : pred) (w a b : Z) : bool :=
  match p with
  | PEq => a =? b
  | PNe => negb (a =? b)
  | PSgt => sgn w a >? sgn w b
  | PUgt => a >? b
  | PSlt => sgn w a <? sgn w b
  | PUlt => a <? b
  | PSge => sgn w a >=? sgn w b
  | PUge => a >=? b
  | PSle => sgn w a <=? sgn w b
  | PUle => a <=? b
  end.

Definition ir_cast (c : cast) (ws wd a : Z) : Z :=
  match c with
  | CTrunc => a mod modulus wd
  | CSExt => repr wd (sgn ws a)
  | CZExt => a
  | CNone => a
  end.

Lemma cast_trunc ws wd v : 0 <= wd <= ws -> ir_cast CTrunc ws wd (repr ws v) = repr wd v.
Proof. (* [ir_cast CTrunc _ wd] is [repr wd] written out *) exact (repr_repr_le wd ws v). Qed.

Lemma cast_sext ws wd v : 0 < ws -> in_s ws v -> ir_cast CSExt ws wd (repr ws v) = repr wd v.
Proof. intros Hw Hv. cbn. now rewrite sgn_repr. Qed.

Lemma pow2_le a b : 0 <= a <= b -> 2 ^ a <= 2 ^ b.
Proof. intros. apply Z.pow_le_mono_r; lia. Qed.

Lemma cast_zext ws wd v : 0 <= ws <= wd -> in_u ws v -> ir_cast CZExt ws wd (repr ws v) = repr wd v.
Proof.
  intros Hw Hv. cbn. rewrite (repr_small ws v Hv). symmetry. apply repr_small.
  destruct Hv. split; [lia|]. pose proof (pow2_le ws wd Hw). lia.
Qed.
