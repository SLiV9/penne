(* C04 — goto only ever jumps forward and outward.
   Model: Model/LabelScope.v (src/alpha/scoper/label_references.rs). *)
From PV Require Import Base.Common Model.LabelScope Proofs.LabelScopeProofs.

(* The analyzer's diagnostics (kind, number and order) are those of the forward
   specification "visible = later in the same block or later in an enclosing
   block", for every function body: no bound on size, depth or names. *)
Theorem C04_scan_eq_spec : forall body, scan_body body = spec_body body.
Proof. exact scan_body_eq_spec. Qed.

(* Nothing leaks from one function to the next. *)
Theorem C04_program : forall bodies, scan_program bodies [] = spec_program bodies.
Proof. exact scan_program_eq_spec. Qed.

(* Acceptance iff every goto targets a later label of the same/enclosing block
   and no label's name is visible at its position. *)
Theorem C04_accept_iff : forall body, scan_body body = [] <-> legal_list body [].
Proof. exact accept_iff_legal. Qed.

Theorem C04_only_E400_E420 : forall s V c, In c (spec_stmt s V) -> c = E400 \/ c = E420.
Proof. exact spec_codes_are_E400_E420. Qed.

Theorem C04_backward_jump_rejected : forall pre mid post l,
  ~ In l (later post) ->
  In E400 (spec_body (pre ++ [SLabel l] ++ mid ++ [SGoto l] ++ post)).
Proof. exact backward_jump_rejected. Qed.

Theorem C04_inward_jump_rejected : forall pre inner post l,
  ~ In l (later post) ->
  In E400 (spec_body (pre ++ [SGoto l] ++ [SBlock inner] ++ post)).
Proof. exact inward_jump_rejected. Qed.

Theorem C04_forward_jump_accepted : forall mid post l,
  ~ In l (later mid) -> ~ In l (later post) ->
  (forall s, In s mid -> s = SOther) -> (forall s, In s post -> s = SOther) ->
  spec_body ([SGoto l] ++ mid ++ [SLabel l] ++ post) = [].
Proof. exact forward_jump_accepted. Qed.

(* Non-vacuity: a body with an outward jump, an inward jump and a clash. *)
Example C04_example :
  scan_body [SBlock [SGoto 1; SLabel 2]; SGoto 2; SBlock [SLabel 1]; SLabel 1]%N
  = [E400; E420].
Proof. vm_compute. reflexivity. Qed.

Print Assumptions C04_scan_eq_spec.
Print Assumptions C04_program.
Print Assumptions C04_accept_iff.
Print Assumptions C04_only_E400_E420.
Print Assumptions C04_backward_jump_rejected.
Print Assumptions C04_inward_jump_rejected.
Print Assumptions C04_forward_jump_accepted.
