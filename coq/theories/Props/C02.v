(* C02 — the compiler never crashes and never fails silently (proved part: the
   error accumulation of the resolver, src/alpha/resolver.rs `impl Resolvable`
   for Vec, tuples, Option, Box, Poisonable, `accumulate`, `combine`, and
   src/alpha/error.rs `From<Poison> for Errors`; below that the panics of the typer's
   implicit steps, Model/Autoderef.v and Model/AssignSteps.v).
   A resolvable thing is a tree whose leaves are Ok, Poison::Error(code) or
   Poison::Poisoned; inner nodes either collect the errors of all children
   (Vec, tuples) or stop at the first failing child (`?` chains). *)
From PV Require Import Base.Common.
From PV Require Model.TypeLegal Model.Autoderef Proofs.AutoderefProofs Model.AssignSteps Proofs.AssignStepsProofs.

Inductive tree :=
| TOk
| TErr (c : code)        (* Poison::Error *)
| TPoisoned              (* Poison::Poisoned: errors = [] *)
| TAll (cs : list tree)  (* Vec<T>, (T1, T2, ..): every child is resolved, errors appended *)
| TSeq (cs : list tree). (* sequential `?`: the first failing child decides *)

Fixpoint resolve (t : tree) : option (list code) :=   (* None = Ok, Some es = Err(es) *)
  match t with
  | TOk => None
  | TErr c => Some [c]
  | TPoisoned => Some []
  | TAll cs =>
      (fix go (l : list tree) : option (list code) :=
         match l with
         | [] => None
         | x :: r => match resolve x, go r with
                     | None, e => e
                     | Some a, None => Some a
                     | Some a, Some b => Some (a ++ b)
                     end
         end) cs
  | TSeq cs =>
      (fix go (l : list tree) : option (list code) :=
         match l with
         | [] => None
         | x :: r => match resolve x with None => go r | Some a => Some a end
         end) cs
  end.

Fixpoint has_error (t : tree) : bool :=
  match t with
  | TErr _ => true
  | TAll cs | TSeq cs => (fix go l := match l with [] => false | x :: r => has_error x || go r end) cs
  | _ => false
  end.
Fixpoint has_poisoned (t : tree) : bool :=
  match t with
  | TPoisoned => true
  | TAll cs | TSeq cs => (fix go l := match l with [] => false | x :: r => has_poisoned x || go r end) cs
  | _ => false
  end.
Fixpoint all_ok (t : tree) : bool :=
  match t with
  | TOk => true
  | TAll cs | TSeq cs => (fix go l := match l with [] => true | x :: r => all_ok x && go r end) cs
  | _ => false
  end.

(* A node is taken apart as its children are resolved: no child, or a first child and the node of
   the others.  All the functions above are convertible with their equations in this form. *)
Section tree_ind2.
  Variable P : tree -> Prop.
  Hypothesis H1 : P TOk. Hypothesis H2 : forall c, P (TErr c). Hypothesis H3 : P TPoisoned.
  Hypothesis H4 : P (TAll []).
  Hypothesis H5 : forall x r, P x -> P (TAll r) -> P (TAll (x :: r)).
  Hypothesis H6 : P (TSeq []).
  Hypothesis H7 : forall x r, P x -> P (TSeq r) -> P (TSeq (x :: r)).
  Fixpoint tree_ind2 (t : tree) : P t :=
    match t with
    | TOk => H1 | TErr c => H2 c | TPoisoned => H3
    | TAll cs => (fix go (l : list tree) : P (TAll l) :=
                    match l with [] => H4 | x :: r => H5 x r (tree_ind2 x) (go r) end) cs
    | TSeq cs => (fix go (l : list tree) : P (TSeq l) :=
                    match l with [] => H6 | x :: r => H7 x r (tree_ind2 x) (go r) end) cs
    end.
End tree_ind2.

Lemma resolve_all x r :
  resolve (TAll (x :: r)) =
  match resolve x, resolve (TAll r) with
  | None, e => e
  | Some a, None => Some a
  | Some a, Some b => Some (a ++ b)
  end.
Proof. reflexivity. Qed.

Lemma resolve_seq x r :
  resolve (TSeq (x :: r)) = match resolve x with None => resolve (TSeq r) | Some a => Some a end.
Proof. reflexivity. Qed.

(* Success iff nothing in the tree is poisoned or erroneous. *)
Theorem C02_resolve_ok_iff : forall t, resolve t = None <-> all_ok t = true.
Proof.
  (* [all_ok] is [resolve] read as a boolean *)
  assert (E : forall t, all_ok t = match resolve t with None => true | Some _ => false end).
  { induction t as [| c | | | x r Hx Hr | | x r Hx Hr] using tree_ind2; try reflexivity.
    - rewrite resolve_all. cbn [all_ok] in *. rewrite Hx, Hr. now destruct (resolve x), (resolve (TAll r)).
    - rewrite resolve_seq. cbn [all_ok] in *. rewrite Hx, Hr. now destruct (resolve x). }
  intros t. rewrite E. now destruct (resolve t).
Qed.

(* A failure with an EMPTY error list requires a Poisoned leaf: if every
   Poisoned leaf is accompanied by an Error that is not cut off, the list is
   non-empty.  For trees without sequential short-circuits the statement is exact. *)
Fixpoint no_seq (t : tree) : bool :=
  match t with
  | TSeq _ => false
  | TAll cs => (fix go l := match l with [] => true | x :: r => no_seq x && go r end) cs
  | _ => true
  end.

Theorem C02_silent_failure_needs_poison : forall t, resolve t = Some [] -> has_poisoned t = true.
Proof.
  induction t as [| c | | | x r Hx Hr | | x r Hx Hr] using tree_ind2; try (cbn; congruence).
  - rewrite resolve_all. cbn [has_poisoned].
    destruct (resolve x) as [a|], (resolve (TAll r)) as [b|]; intros [= H]; apply orb_true_iff.
    + (* both fail: neither has an error to show *)
      apply app_eq_nil in H as [-> ->]. auto.
    + subst a. auto.
    + subst b. right. now apply Hr.
  - rewrite resolve_seq. cbn [has_poisoned].
    destruct (resolve x) as [a|]; intros H; apply orb_true_iff; [injection H as ->; auto|]. right. now apply Hr.
Qed.

Theorem C02_errors_reported_when_collected : forall t,
  no_seq t = true -> has_error t = true -> exists c es, resolve t = Some (c :: es).
Proof.
  induction t as [| c | | | x r Hx Hr | | x r Hx Hr] using tree_ind2; try (cbn; discriminate).
  - intros _ _. cbn. eauto.
  - rewrite resolve_all. cbn [no_seq has_error]. intros Hn He.
    apply andb_true_iff in Hn as [Nx Nr]. apply orb_true_iff in He as [Ex|Er].
    + destruct (Hx Nx Ex) as (c & es & ->). destruct (resolve (TAll r)); cbn [app]; eauto.
    + destruct (Hr Nr Er) as (c & es & ->). destruct (resolve x) as [[|a0 a]|]; cbn [app]; eauto.
Qed.

Example C02_example : resolve (TAll [TOk; TSeq [TPoisoned; TErr 500]; TErr 402]%N) = Some [402%N].
Proof. reflexivity. Qed.

(* ---- the typer's implicit steps (Model/Autoderef.v: value_type.rs coercion predicates, typer.rs
   Reference::autoderef with its three panics, the consumer generator.rs generate_autocoerce) ------------
   For every reference that fits its base type (what get_type_of_reference accepts), of at most
   MAX_REFERENCE_DEPTH steps, over types whose runs of & / view constructors are at most
   MAX_ADDRESS_DEPTH + 1 long: the loop never reaches its panic, never meets an unreachable!() on a
   member, the budget MAX_NUM_AUTODEREF_STEPS (Gen/Limits.v) is never exhausted (no step is dropped),
   and the ONLY panic left is the listed finding D11 - exactly when the reference ends at a slice pointer
   `&[]T` that is used as it stands or behind one `&` for another target. *)
Theorem C02_autoderef_loop_total : forall mt known steps,
  Autoderef.fits mt known steps = true ->
  AutoderefProofs.steps_within steps ->
  AutoderefProofs.types_within mt known ->
  exists taken ct,
    Autoderef.autoderef_loop mt Autoderef.max_num_autoderef_steps known steps = Autoderef.LoopDone taken ct [] /\
    Autoderef.walk mt known steps = Autoderef.LoopDone taken ct [] /\
    Autoderef.ref_final mt (Autoderef.fully_dereferenced known) steps = Some (Autoderef.fully_dereferenced ct).
Proof. exact AutoderefProofs.loop_total. Qed.

Theorem C02_autoderef_panics_only_as_D11 : forall mt known target steps ad,
  Autoderef.fits mt known steps = true ->
  AutoderefProofs.steps_within steps ->
  AutoderefProofs.types_within mt known ->
  forall s,
    Autoderef.autoderef mt known target steps ad = Autoderef.ADPanic s <->
    s = 3%N /\ AutoderefProofs.autoderef_panics mt known target steps ad = true.
Proof. exact AutoderefProofs.autoderef_no_solution_iff. Qed.

Theorem C02_D11_is_a_slice_pointer : forall mt known target steps ad,
  AutoderefProofs.autoderef_panics mt known target steps ad = true ->
  exists e, AutoderefProofs.final_type mt known steps = Some (TypeLegal.VSlicePointer e) /\ (ad = 0 \/ ad = 1)%N.
Proof. exact AutoderefProofs.autoderef_no_solution_shape. Qed.

(* the class is inhabited: the repository's own sample (use_slice(data) with data: &[]i32) *)
Theorem C02_D11_witness :
  Autoderef.analyze_deref AutoderefProofs.no_members (TypeLegal.VSlicePointer (TypeLegal.VPrim TypeLegal.KInt32)) [] 0
    (Some (TypeLegal.VSlice (TypeLegal.VPrim TypeLegal.KInt32))) = Some (Autoderef.ADPanic 3).
Proof. exact AutoderefProofs.d11_use_slice. Qed.

(* typer and generator agree: every coercion the typer's autoderef (or its argument wrapper, around a
   dereference) asks for is one generate_autocoerce implements - none of its unimplemented!() /
   unreachable!() arms can be reached from there *)
Theorem C02_autoderef_coercions_are_implemented : forall mt env known target steps ad tk ta dt c,
  Autoderef.autoderef mt known target steps ad = Autoderef.ADOk tk ta dt (Some c) ->
  Autoderef.arm_ok (Autoderef.autocoerce_arm (Autoderef.EDeref ta (Autoderef.resolve_vt env dt)) (Autoderef.resolve_vt env c)) = true.
Proof. exact AutoderefProofs.autoderef_coercion_ok. Qed.

Theorem C02_argument_coercions_are_implemented : forall env b vt0 pt c,
  Autoderef.argument_coercion vt0 pt = Some c ->
  AutoderefProofs.arm_simple (Autoderef.autocoerce_arm (Autoderef.EDeref b (Autoderef.resolve_vt env vt0)) (Autoderef.resolve_vt env c)) = true.
Proof. exact AutoderefProofs.argument_coercion_of_deref_implemented. Qed.

(* The assignment side (analyze_assignment_steps, Model/AssignSteps.v) under the same hypothesis `fits`: it panics
   EXACTLY when an element step meets more than MAX_ADDRESS_DEPTH (127) pointer/view layers - the read side strips
   128 (listed finding D86: `fn f(x: &^128 [4]i32) { x[0] = 1; }`) - and never on a member. *)
Theorem C02_assignment_steps_panic_only_beyond_127_pointers : forall mt known steps ad s,
  Autoderef.fits mt known steps = true ->
  (AssignSteps.assignment_steps mt known steps ad = AssignSteps.APanic s <->
   s = 1%N /\ AssignSteps.element_run_too_long mt AssignSteps.max_address_depth_nat known steps = true).
Proof. exact AssignStepsProofs.assignment_steps_panic_iff. Qed.

Theorem C02_assignment_steps_never_panic_within_limits : forall mt known steps ad,
  Autoderef.fits mt known steps = true ->
  AssignStepsProofs.types_within_assign mt known ->
  exists taken rd, AssignSteps.assignment_steps mt known steps ad = AssignSteps.AOk taken rd.
Proof. exact AssignStepsProofs.assignment_steps_never_panics. Qed.

Print Assumptions C02_resolve_ok_iff.
Print Assumptions C02_silent_failure_needs_poison.
Print Assumptions C02_errors_reported_when_collected.
Print Assumptions C02_autoderef_loop_total.
Print Assumptions C02_autoderef_panics_only_as_D11.
Print Assumptions C02_D11_is_a_slice_pointer.
Print Assumptions C02_D11_witness.
Print Assumptions C02_autoderef_coercions_are_implemented.
Print Assumptions C02_argument_coercions_are_implemented.
Print Assumptions C02_assignment_steps_panic_only_beyond_127_pointers.
Print Assumptions C02_assignment_steps_never_panic_within_limits.
