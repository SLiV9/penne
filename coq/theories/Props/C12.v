(* C12 — imports expose exactly the public interface and modules compose.
   Model: Model/Expand.v (src/alpha/expander.rs); the current tree iterates the
   import set in sorted order ([expand_sorted]); the pinned commit iterated a
   HashSet ([expand_order] with an unspecified [order]).  Below that what the
   generator keeps from one module or function to the next: Model/GenState.v over the
   regenerated Gen/GenState.v. *)
From Coq Require Import Permutation Sorted.
From PV Require Import Base.Common Model.Expand Proofs.ExpandProofs Model.GenState.

(* For EVERY iteration order of the import set: module i after expansion is
   [signatures of the public declarations of each distinct directly imported
   module j <> i] ++ [i's own declarations, imports removed, unresolved imports
   replaced by E470/E477]; bodies dropped, Public cleared, everything else kept
   ([strip]). *)
Theorem C12_imported_exactly_public :
  forall resolve hint order mods i, order_ok order -> i < length mods ->
  nth i (expand_order resolve hint order mods) dmod =
    (key_of mods i, flat_map (group mods) (groups_of resolve order mods i) ++ own_part resolve hint mods i) /\
  NoDup (groups_of resolve order mods i) /\
  (forall j, In j (groups_of resolve order mods i) <-> j <> i /\ resolved_import resolve mods i j).
Proof. exact imported_exactly_public. Qed.

Theorem C12_provenance :
  forall resolve hint order mods i d, order_ok order -> i < length mods ->
  In d (decls_of (expand_order resolve hint order mods) i) ->
  In d (own_part resolve hint mods i) \/
  (exists j d0, j <> i /\ resolved_import resolve mods i j /\ In d0 (decls_of mods j) /\
                is_import d0 = false /\ is_public d0 = true /\ d = strip d0).
Proof. exact expand_provenance. Qed.

Theorem C12_private_never_visible :
  forall resolve hint order mods i j d d0,
  payloads_unique mods -> order_ok order -> i < length mods -> j < length mods -> j <> i ->
  In d0 (decls_of mods j) -> is_public d0 = false ->
  In d (decls_of (expand_order resolve hint order mods) i) -> d_payload d <> d_payload d0.
Proof. exact private_never_visible. Qed.

Theorem C12_no_transitive_import :
  forall resolve hint order mods k j d d0,
  payloads_unique mods -> order_ok order -> k < length mods -> j < length mods -> j <> k ->
  ~ resolved_import resolve mods k j -> In d0 (decls_of mods j) ->
  In d (decls_of (expand_order resolve hint order mods) k) -> d_payload d <> d_payload d0.
Proof. exact no_transitive_import. Qed.

(* Two iteration orders give the same modules up to the order of the spliced
   groups ... *)
Theorem C12_set_order_invariant :
  forall resolve hint o1 o2 mods, order_ok o1 -> order_ok o2 ->
  length (expand_order resolve hint o1 mods) = length mods /\
  length (expand_order resolve hint o2 mods) = length mods /\
  (forall i, i < length mods -> exists js1 js2, Permutation js1 js2 /\
     nth i (expand_order resolve hint o1 mods) dmod = (key_of mods i, flat_map (group mods) js1 ++ own_part resolve hint mods i) /\
     nth i (expand_order resolve hint o2 mods) dmod = (key_of mods i, flat_map (group mods) js2 ++ own_part resolve hint mods i)).
Proof. exact expand_set_order_invariant. Qed.

(* ... but not the same lists: the pinned commit was nondeterministic (D3). *)
Theorem C12_hash_order_refuted :
  exists resolve hint mods o1 o2, order_ok o1 /\ order_ok o2 /\
    expand_order resolve hint o1 mods <> expand_order resolve hint o2 mods.
Proof. exact expand_order_refuted. Qed.

(* The current tree (sorted iteration) is a function of the set of pairs only,
   and its result is: groups in strictly descending includee offset. *)
Theorem C12_sorted_canonical :
  forall resolve hint order mods, order_ok order ->
  expand_order resolve hint (fun s => sort_pairs (order s)) mods = expand_sorted resolve hint mods.
Proof. exact expand_sorted_canonical. Qed.

Theorem C12_sorted_spec :
  forall resolve hint mods i, i < length mods ->
  let js := groups_of resolve sort_pairs mods i in
  nth i (expand_sorted resolve hint mods) dmod = (key_of mods i, flat_map (group mods) js ++ own_part resolve hint mods i) /\
  StronglySorted (fun a b => b < a) js /\
  (forall j, In j js <-> j <> i /\ resolved_import resolve mods i j).
Proof. exact expand_sorted_spec. Qed.

(* An import names a module by its exact path, or by its path relative to the
   directory of the importing file; the exact path wins; nothing else matches. *)
Theorem C12_import_resolution : forall file keys includer i,
  get_key_offset file keys includer = Some i ->
  nth_error keys i = Some file
  \/ (~ In file keys /\ exists dir, parent_of includer = Some dir /\ nth_error keys i = Some (dir ++ file)).
Proof. exact get_key_offset_sound. Qed.

Theorem C12_import_unresolved : forall file keys includer,
  get_key_offset file keys includer = None ->
  ~ In file keys /\ forall dir, parent_of includer = Some dir -> ~ In (dir ++ file) keys.
Proof. exact get_key_offset_complete. Qed.

(* "Compiling one module never changes the result for another except through its
   imports", for the generator's own state: whatever the tables hold when a new module
   starts (entries of earlier modules under resolution ids that the new module will use
   again), `add_module` leaves nothing of it observable - for EVERY table of the struct
   (the list of tables and of `clear()` calls is regenerated from generator.rs on every
   run: a table that is added, or a clear that is dropped, breaks this proof). *)
Theorem C12_add_module_forgets : forall (s1 s2 : tstate) t k,
  observe (add_module s1) t k = observe (add_module s2) t k.
Proof. intros s1 s2 t k; unfold observe, add_module; destruct t; reflexivity. Qed.

Theorem C12_add_module_clears_every_table :
  forallb (fun t => mem_table t cleared_by_add_module) all_tables = true
  /\ forall t : table, In t all_tables.
Proof. split; [vm_compute; reflexivity | intro t; destruct t; vm_compute; tauto]. Qed.

(* the tables of one function body (parameters, variables, labelled blocks) are empty again
   when the body is finished: a function never sees the locals of an earlier one *)
Theorem C12_function_locals_forgotten : forall (s : tstate) t k,
  is_function_local t = true -> observe (finish_function s) t k = None.
Proof. intros s t k H; unfold observe, finish_function; destruct t; try discriminate H; reflexivity. Qed.

(* the same one level up (src/alpha.rs, Compiler::add_module): every stage object - typer, analyzer,
   linter - is replaced by a fresh one for every module; only the generator is kept, and it is told
   (the theorems above are about what it then forgets) *)
Theorem C12_every_stage_is_fresh_per_module : forall st : stage,
  replaced_by_default st = true \/ (st = S_generator /\ told_about_the_module st = true).
Proof. intro st; destruct st; vm_compute; tauto. Qed.

Example C12_tables_nontrivial :
  observe (insert empty_state T_constants 3 7) T_constants 3 = Some 7%N /\
  observe (add_module (insert empty_state T_constants 3 7)) T_constants 3 = None.
Proof. split; reflexivity. Qed.

Print Assumptions C12_imported_exactly_public.
Print Assumptions C12_import_resolution.
Print Assumptions C12_import_unresolved.
Print Assumptions C12_provenance.
Print Assumptions C12_private_never_visible.
Print Assumptions C12_no_transitive_import.
Print Assumptions C12_set_order_invariant.
Print Assumptions C12_hash_order_refuted.
Print Assumptions C12_sorted_canonical.
Print Assumptions C12_sorted_spec.
Print Assumptions C12_add_module_forgets.
Print Assumptions C12_add_module_clears_every_table.
Print Assumptions C12_function_locals_forgotten.
Print Assumptions C12_every_stage_is_fresh_per_module.
